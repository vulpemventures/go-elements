(* Lib/Bytes.v — bytes (Coq.Init.Byte.byte; byte strings are lists), little- and big-endian
   integers defined by mod 256 and / 256, and the stream parsers (take, takeN, p_u8, p_le, bind).
   Every parser p comes with a pair of lemmas: p_app (what was encoded is read back, with the rest
   untouched) and p_inv (what is accepted is an encoding followed by the rest); bind_inv chains the
   second kind through a sequence.  Then the lemmas on one flag bit over a k-bit field (join_bit,
   split_bit) used for the outpoint index and the block version.  The file opens with a few facts on
   lists (NoDup, Permutation) shared by Proofs files that have no other common ancestor. *)
From Coq Require Export List NArith ZArith Lia Bool.
From Coq Require Export Strings.Byte.
From Coq Require Import ZifyBool ZifyN ZifyNat Permutation.
Export ListNotations.
Open Scope N_scope.

Lemma app_eq_len {A} (a a' b b' : list A) : length a = length a' -> a ++ b = a' ++ b' -> a = a' /\ b = b'.
Proof.
  revert a'; induction a as [|x a IH]; intros [|y a'] L E; try discriminate L.
  - split; [reflexivity | exact E].
  - injection L as L. injection E as -> E. destruct (IH a' L E) as [-> ->]. split; reflexivity.
Qed.

Lemma firstn_app_exact {A} (x y : list A) n : length x = n -> firstn n (x ++ y) = x.
Proof. intros <-. rewrite firstn_app, Nat.sub_diag, firstn_all. apply app_nil_r. Qed.

Lemma skipn_app_exact {A} (x y : list A) n : length x = n -> skipn n (x ++ y) = y.
Proof. intros <-. rewrite skipn_app, Nat.sub_diag, skipn_all. reflexivity. Qed.

Lemma map_id_on {A} (f : A -> A) l : (forall a, In a l -> f a = a) -> map f l = l.
Proof. intro H. rewrite <- (map_id l) at 2. apply map_ext_in. exact H. Qed.

Lemma Forall_nth_error {A} (P : A -> Prop) l n x : Forall P l -> nth_error l n = Some x -> P x.
Proof. intros F N. rewrite Forall_forall in F. apply F. eapply nth_error_In; exact N. Qed.

Lemma forallb_ext {A} (f g : A -> bool) l : (forall x, f x = g x) -> forallb f l = forallb g l.
Proof. intro H. induction l as [|x l IH]; [reflexivity|]. cbn [forallb]. rewrite H, IH. reflexivity. Qed.

Lemma NoDup_app_inv {A} (a b : list A) : NoDup (a ++ b) -> NoDup a /\ NoDup b /\ (forall x, In x a -> ~ In x b).
Proof.
  induction a as [|z a IH]; cbn [app]; intro H.
  - split; [constructor|]. split; [exact H|]. intros x [].
  - apply NoDup_cons_iff in H as [Hz H]. destruct (IH H) as (Ha & Hb & Hd). split; [|split; [exact Hb|]].
    + constructor; [|exact Ha]. intro I. apply Hz, in_or_app. left. exact I.
    + intros x [<-|I] Ib; [|exact (Hd x I Ib)]. apply Hz, in_or_app. right. exact Ib.
Qed.

Lemma NoDup_snoc {A} (l : list A) x : NoDup l -> ~ In x l -> NoDup (l ++ [x]).
Proof. intros N H. apply (Permutation_NoDup (Permutation_cons_append l x)). constructor; assumption. Qed.

(* insertion sort, whatever the order: folding an insertion that only permutes *)
Lemma fold_insert_perm {A} (ins : A -> list A -> list A) :
  (forall a l, Permutation (ins a l) (a :: l)) -> forall l, Permutation (fold_right ins [] l) l.
Proof.
  intros H l. induction l as [|a l IH]; [constructor|]. cbn [fold_right].
  eapply perm_trans; [apply H | apply perm_skip, IH].
Qed.

Definition bytes := list byte.

(* byte of the low 8 bits of v *)
Definition b8 (v : N) : byte :=
  match Byte.of_N (v mod 256) with Some b => b | None => x00 end.

Definition n8 (b : byte) : N := Byte.to_N b.

Lemma n8_lt b : n8 b < 256.
Proof. unfold n8. pose proof (Byte.to_N_bounded b). lia. Qed.

Lemma n8_b8 v : n8 (b8 v) = v mod 256.
Proof.
  unfold n8, b8. destruct (Byte.of_N (v mod 256)) eqn:E.
  - apply Byte.to_of_N in E. exact E.
  - apply Byte.of_N_None_iff in E. assert (v mod 256 < 256) by (apply N.mod_lt; lia). lia.
Qed.

Lemma n8_b8_small v : v < 256 -> n8 (b8 v) = v.
Proof. intro H. rewrite n8_b8. apply N.mod_small. exact H. Qed.

Lemma b8_n8 b : b8 (n8 b) = b.
Proof.
  unfold b8. rewrite N.mod_small by apply n8_lt. unfold n8. rewrite Byte.of_to_N. reflexivity.
Qed.

Lemma n8_inj a b : n8 a = n8 b -> a = b.
Proof. intro H. rewrite <- (b8_n8 a), <- (b8_n8 b), H. reflexivity. Qed.

Lemma b8_small_inj u v : u < 256 -> v < 256 -> b8 u = b8 v -> u = v.
Proof. intros Hu Hv H. rewrite <- (n8_b8_small u Hu), <- (n8_b8_small v Hv), H. reflexivity. Qed.

Definition beqb (a b : byte) : bool := Byte.eqb a b.
Lemma beqb_eq a b : beqb a b = true <-> a = b.
Proof. split; [apply Byte.byte_dec_bl | apply Byte.byte_dec_lb]. Qed.

Fixpoint bytes_eqb (a b : bytes) : bool :=
  match a, b with
  | [], [] => true
  | x :: a', y :: b' => beqb x y && bytes_eqb a' b'
  | _, _ => false
  end.
Lemma bytes_eqb_eq a b : bytes_eqb a b = true <-> a = b.
Proof.
  revert b; induction a as [|x a IH]; intros [|y b]; cbn; split; intro H; try congruence; try discriminate.
  - apply andb_true_iff in H as [H1 H2]. apply beqb_eq in H1. apply IH in H2. congruence.
  - inversion H; subst. apply andb_true_iff; split; [apply beqb_eq; reflexivity | apply IH; reflexivity].
Qed.

Lemma beqb_refl b : beqb b b = true.
Proof. apply beqb_eq. reflexivity. Qed.
Lemma bytes_eqb_refl a : bytes_eqb a a = true.
Proof. apply bytes_eqb_eq. reflexivity. Qed.

Fixpoint le_enc (n : nat) (v : N) : bytes :=
  match n with O => [] | S k => b8 v :: le_enc k (v / 256) end.

Fixpoint le_dec (bs : bytes) : N :=
  match bs with [] => 0 | b :: r => n8 b + 256 * le_dec r end.

Lemma le_enc_length n v : length (le_enc n v) = n.
Proof. revert v; induction n as [|n IH]; intro v; cbn; [reflexivity | rewrite IH; reflexivity]. Qed.

Lemma le_dec_enc n v : v < 256 ^ N.of_nat n -> le_dec (le_enc n v) = v.
Proof.
  revert v; induction n as [|n IH]; intros v Hv.
  - cbn in *. lia.
  - cbn [le_enc le_dec]. rewrite n8_b8. rewrite IH.
    + pose proof (N.div_mod v 256). lia.
    + rewrite Nnat.Nat2N.inj_succ, N.pow_succ_r' in Hv.
      apply N.div_lt_upper_bound; lia.
Qed.

Lemma le_dec_bound bs : le_dec bs < 256 ^ N.of_nat (length bs).
Proof.
  induction bs as [|b r IH].
  - cbn. lia.
  - cbn [length le_dec]. rewrite Nnat.Nat2N.inj_succ, N.pow_succ_r'.
    pose proof (n8_lt b). lia.
Qed.

Lemma le_enc_dec bs : le_enc (length bs) (le_dec bs) = bs.
Proof.
  induction bs as [|b r IH]; cbn [length le_enc le_dec]; [reflexivity|].
  pose proof (n8_lt b) as Hb. f_equal.
  - apply n8_inj. rewrite n8_b8. lia.
  - replace ((n8 b + 256 * le_dec r) / 256) with (le_dec r) by lia. exact IH.
Qed.

Lemma le_enc_inj n u v : u < 256 ^ N.of_nat n -> v < 256 ^ N.of_nat n -> le_enc n u = le_enc n v -> u = v.
Proof. intros Hu Hv H. rewrite <- (le_dec_enc n u Hu), <- (le_dec_enc n v Hv), H. reflexivity. Qed.

(* big-endian (used by SHA-256 and a few PSET fields) *)
Definition be_enc (n : nat) (v : N) : bytes := rev (le_enc n v).
Definition be_dec (bs : bytes) : N := le_dec (rev bs).

Lemma be_dec_enc n v : v < 256 ^ N.of_nat n -> be_dec (be_enc n v) = v.
Proof. intro H. unfold be_dec, be_enc. rewrite rev_involutive. apply le_dec_enc; exact H. Qed.

Lemma be_enc_length n v : length (be_enc n v) = n.
Proof. unfold be_enc. rewrite rev_length. apply le_enc_length. Qed.

Lemma be_enc_dec bs : be_enc (length bs) (be_dec bs) = bs.
Proof. unfold be_enc, be_dec. rewrite <- (rev_length bs), le_enc_dec. apply rev_involutive. Qed.

Lemma le_dec_app a b : le_dec (a ++ b) = le_dec a + 256 ^ N.of_nat (length a) * le_dec b.
Proof.
  induction a as [|x a IH]; cbn [app le_dec length].
  - change (N.of_nat 0) with 0. rewrite N.pow_0_r. lia.
  - rewrite IH, Nnat.Nat2N.inj_succ, N.pow_succ_r'. ring.
Qed.

Lemma le_dec_zeros k : le_dec (repeat x00 k) = 0.
Proof. induction k as [|k IH]; cbn [repeat le_dec]; [reflexivity | rewrite IH; reflexivity]. Qed.

Definition parser (A : Type) := bytes -> option (A * bytes).

Definition ret {A} (a : A) : parser A := fun bs => Some (a, bs).
Definition bind {A B} (p : parser A) (f : A -> parser B) : parser B :=
  fun bs => match p bs with None => None | Some (a, r) => f a r end.
Definition pfail {A} : parser A := fun _ => None.

Notation "x <- p ;; q" := (bind p (fun x => q)) (at level 61, p at next level, right associativity).

(* exactly n bytes, n a small nat constant *)
Definition take (n : nat) : parser bytes :=
  fun bs => if (n <=? length bs)%nat then Some (firstn n bs, skipn n bs) else None.

(* exactly n bytes, n an untrusted 64-bit quantity: compare before converting *)
Definition takeN (n : N) : parser bytes :=
  fun bs => if n <=? N.of_nat (length bs) then take (N.to_nat n) bs else None.

Definition p_u8 : parser N :=
  fun bs => match bs with [] => None | b :: r => Some (n8 b, r) end.

Definition p_le (n : nat) : parser N :=
  fun bs => match take n bs with None => None | Some (x, r) => Some (le_dec x, r) end.

Lemma take_app_n n x r : length x = n -> take n (x ++ r) = Some (x, r).
Proof.
  intros <-. unfold take. rewrite app_length.
  destruct (Nat.leb_spec (length x) (length x + length r)); [|lia].
  rewrite firstn_app_exact, skipn_app_exact by reflexivity. reflexivity.
Qed.

Lemma take_inv n bs x r : take n bs = Some (x, r) -> bs = x ++ r /\ length x = n.
Proof.
  unfold take. destruct (Nat.leb_spec n (length bs)) as [H|H]; [|discriminate].
  intro E; inversion E; subst. split; [symmetry; apply firstn_skipn | apply firstn_length_le; exact H].
Qed.

Lemma takeN_app x r : takeN (N.of_nat (length x)) (x ++ r) = Some (x, r).
Proof.
  unfold takeN. rewrite app_length.
  destruct (N.leb_spec (N.of_nat (length x)) (N.of_nat (length x + length r))); [|lia].
  rewrite Nnat.Nat2N.id. apply take_app_n. reflexivity.
Qed.

Lemma takeN_inv n bs x r : takeN n bs = Some (x, r) -> bs = x ++ r /\ N.of_nat (length x) = n.
Proof.
  unfold takeN. destruct (N.leb_spec n (N.of_nat (length bs))) as [H|H]; [|discriminate].
  intro E. apply take_inv in E as [E1 E2]. split; [exact E1 | lia].
Qed.

Lemma p_le_app n v r : v < 256 ^ N.of_nat n -> p_le n (le_enc n v ++ r) = Some (v, r).
Proof.
  intro H. unfold p_le. rewrite (take_app_n n) by apply le_enc_length.
  rewrite le_dec_enc by exact H. reflexivity.
Qed.

Lemma p_le_inv n bs v r : p_le n bs = Some (v, r) -> bs = le_enc n v ++ r /\ v < 256 ^ N.of_nat n.
Proof.
  unfold p_le. destruct (take n bs) as [[x r']|] eqn:E; [|discriminate].
  intro H; inversion H; subst. apply take_inv in E as [-> <-].
  split; [rewrite le_enc_dec; reflexivity | apply le_dec_bound].
Qed.

Lemma p_u8_app v r : v < 256 -> p_u8 (b8 v :: r) = Some (v, r).
Proof. intro H. cbn. rewrite n8_b8_small by exact H. reflexivity. Qed.

Lemma p_u8_inv bs v r : p_u8 bs = Some (v, r) -> bs = b8 v :: r /\ v < 256.
Proof.
  destruct bs as [|b bs]; cbn; [discriminate|]. intro H; inversion H; subst.
  split; [rewrite b8_n8; reflexivity | apply n8_lt].
Qed.

Lemma p_u8_if (b : bool) r : p_u8 ((if b then b8 1 else b8 0) :: r) = Some (if b then 1 else 0, r).
Proof. destruct b; reflexivity. Qed.

(* one step of a sequence, given what its first parser accepts *)
Lemma bind_inv {A B} {p : parser A} {e : A -> bytes} {Q : A -> Prop} {f : A -> parser B} {bs b r} :
  (forall bs a r, p bs = Some (a, r) -> bs = e a ++ r /\ Q a) ->
  bind p f bs = Some (b, r) -> exists a r1, bs = e a ++ r1 /\ Q a /\ f a r1 = Some (b, r).
Proof.
  intros Hp H. unfold bind in H. destruct (p bs) as [[a r1]|] eqn:P; [|discriminate].
  apply Hp in P as [-> Qa]. eauto.
Qed.

Lemma ret_inv {A} (a b : A) bs r : ret a bs = Some (b, r) -> a = b /\ bs = r.
Proof. unfold ret. intro H. injection H as -> ->. auto. Qed.

Definition lenN (bs : bytes) : N := N.of_nat (length bs).
Definition lenL {A} (l : list A) : N := N.of_nat (length l).

Lemma lenN_nil : lenN [] = 0.
Proof. reflexivity. Qed.
Lemma lenN_cons (b : byte) (l : bytes) : lenN (b :: l) = 1 + lenN l.
Proof. unfold lenN. cbn [length]. lia. Qed.
Lemma lenN_app a b : lenN (a ++ b) = lenN a + lenN b.
Proof. unfold lenN. rewrite app_length. lia. Qed.

Lemma lenN_le_enc n v : lenN (le_enc n v) = N.of_nat n.
Proof. unfold lenN. rewrite le_enc_length. reflexivity. Qed.

Definition bconcat (l : list bytes) : bytes := concat l.

Definition u32max : N := 0xffffffff.
Definition two32 : N := 0x100000000.
Definition two64 : N := 0x10000000000000000.

Lemma p_le4_app v r : v < two32 -> p_le 4 (le_enc 4 v ++ r) = Some (v, r).
Proof. exact (p_le_app 4 v r). Qed.

Lemma p_le4_inv bs v r : p_le 4 bs = Some (v, r) -> bs = le_enc 4 v ++ r /\ v < two32.
Proof. exact (p_le_inv 4 bs v r). Qed.

Lemma testbit_small a n : a < 2 ^ n -> N.testbit a n = false.
Proof.
  intro H. destruct (N.eq_dec a 0) as [->|Hz]; [apply N.bits_0|].
  apply N.bits_above_log2. apply N.log2_lt_pow2; lia.
Qed.

Lemma testbit_small_le a n m : a < 2 ^ n -> n <= m -> N.testbit a m = false.
Proof.
  intros H L. apply testbit_small. eapply N.lt_le_trans; [exact H|]. apply N.pow_le_mono_r; lia.
Qed.

Lemma lt_pow2_bits a n : (forall m, n <= m -> N.testbit a m = false) -> a < 2 ^ n.
Proof.
  intro H. assert (E : a mod 2 ^ n = a).
  { apply N.bits_inj. intro m. destruct (N.lt_ge_cases m n) as [L|L].
    - apply N.mod_pow2_bits_low, L.
    - rewrite N.mod_pow2_bits_high by exact L. symmetry. apply H, L. }
  rewrite <- E. apply N.mod_lt, N.pow_nonzero. discriminate.
Qed.

Definition flag_of (b : bool) (f : N) : N := if b then f else 0.

Lemma flag_of_bits b k n : N.testbit (flag_of b (2 ^ k)) n = b && (k =? n).
Proof. destruct b; cbn [flag_of andb]; [apply N.pow2_bits_eqb | apply N.bits_0]. Qed.

(* v with bit k set to b: the bit, the field and the bound of the result *)
Lemma join_bit v k b : v < 2 ^ k ->
  N.testbit (N.lor v (flag_of b (2 ^ k))) k = b /\
  N.land (N.lor v (flag_of b (2 ^ k))) (N.ones k) = v /\
  N.lor v (flag_of b (2 ^ k)) < 2 ^ N.succ k.
Proof.
  intro H. pose proof (fun m => testbit_small_le v k m H) as T. repeat split.
  - rewrite N.lor_spec, flag_of_bits, T, N.eqb_refl by lia. apply andb_true_r.
  - apply N.bits_inj. intro n. rewrite N.land_spec, N.lor_spec, flag_of_bits.
    destruct (N.lt_ge_cases n k) as [L|L].
    + rewrite N.ones_spec_low by exact L. destruct (N.eqb_spec k n); [lia|].
      rewrite andb_false_r, orb_false_r. apply andb_true_r.
    + rewrite N.ones_spec_high, T by exact L. apply andb_false_r.
  - apply lt_pow2_bits. intros m L. rewrite N.lor_spec, flag_of_bits, T by lia.
    destruct (N.eqb_spec k m); [lia|]. apply andb_false_r.
Qed.

(* a word of k+1 bits is its low k bits with bit k on top *)
Lemma split_bit w k : w < 2 ^ N.succ k ->
  N.lor (N.land w (N.ones k)) (flag_of (N.testbit w k) (2 ^ k)) = w /\ N.land w (N.ones k) < 2 ^ k.
Proof.
  intro H. split.
  - apply N.bits_inj. intro n. rewrite N.lor_spec, N.land_spec, flag_of_bits.
    destruct (N.lt_ge_cases n k) as [L|L].
    + rewrite N.ones_spec_low by exact L. destruct (N.eqb_spec k n); [lia|].
      rewrite andb_false_r, orb_false_r. apply andb_true_r.
    + rewrite N.ones_spec_high by exact L. rewrite andb_false_r. cbn [orb].
      destruct (N.eqb_spec k n) as [<-|Ne]; [apply andb_true_r|].
      rewrite andb_false_r. symmetry. apply (testbit_small_le w (N.succ k) n H). lia.
  - rewrite N.land_ones. apply N.mod_lt, N.pow_nonzero. discriminate.
Qed.
