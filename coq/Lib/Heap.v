(* Lib/Heap.v — exactly enough Go slice semantics for the aliasing statements of C18.

   A heap is a list of byte arrays; an array id is its index.  Arrays are never freed
   and never change length.  A slice is (array id, offset, len, cap) as in the Go
   runtime.  `go_append` writes in place when len + k <= cap and otherwise allocates a
   new array (of any capacity >= len + k: the growth policy is a parameter, every
   theorem holds for all policies), copies and appends.  `go_sub` is s[lo:hi],
   `go_copy` is copy(dst, src) (memmove: the source is read first), `go_make` is
   make([]byte, len, cap), `go_lit` a composite literal / any freshly allocated value,
   `go_set` is s[i] = b.

   The frame relation `ext n h h'` says: h' extends h and every array with id < n is
   unchanged.  With n = length h this is "the call only allocated": everything the
   caller could see before the call (arguments over their whole array, i.e. in front of
   the slice, the slice itself and the spare capacity behind it; package-level values;
   anything else) is unchanged. *)
From GE Require Export Lib.Bytes.
From Coq Require Import ZifyBool ZifyN ZifyNat.
Open Scope nat_scope.

Definition heap := list bytes.
Record slice := mk_slice { s_arr : nat; s_off : nat; s_len : nat; s_cap : nat }.

Definition arr (h : heap) (a : nat) : bytes := nth a h [].

Fixpoint upd (h : heap) (a : nat) (bs : bytes) : heap :=
  match h, a with
  | [], _ => []
  | _ :: t, O => bs :: t
  | x :: t, S a' => x :: upd t a' bs
  end.

Definition alloc (h : heap) (bs : bytes) : heap * nat := (h ++ [bs], length h).
Definition zeros (n : nat) : bytes := repeat "000"%byte n.
Definition window (off n : nat) (bs : bytes) : bytes := firstn n (skipn off bs).

(* overwrite bs[pos .. pos+|d|) with d; the array never changes length (an
   out-of-range write is a Go panic and is excluded by the guards of the operations) *)
Definition splice (bs : bytes) (pos : nat) (d : bytes) : bytes :=
  firstn (length bs) (firstn pos bs ++ d ++ skipn (pos + length d) bs).
Definition wr (h : heap) (a pos : nat) (d : bytes) : heap := upd h a (splice (arr h a) pos d).

(* contents of a slice, and of a slice over its full capacity *)
Definition rd (h : heap) (s : slice) : bytes := window (s_off s) (s_len s) (arr h (s_arr s)).
Definition rd_cap (h : heap) (s : slice) : bytes := window (s_off s) (s_cap s) (arr h (s_arr s)).

Definition nil_slice : slice := mk_slice 0 0 0 0.

Definition policy := nat -> nat -> nat.      (* old capacity -> needed length -> new capacity *)
Definition exact_policy : policy := fun _ n => n.
(* the shape of runtime.growslice (without size-class rounding): double below 256, else 1.25x + 192 *)
Definition go_policy : policy := fun c n =>
  if 2 * c <? n then n else if c <? 256 then 2 * c else c + (c + 768) / 4.

Definition go_append (g : policy) (h : heap) (s : slice) (d : bytes) : heap * slice :=
  let n := s_len s + length d in
  if n <=? s_cap s
  then (wr h (s_arr s) (s_off s + s_len s) d, mk_slice (s_arr s) (s_off s) n (s_cap s))
  else let c := Nat.max n (g (s_cap s) n) in
       let '(h', a) := alloc h (rd h s ++ d ++ zeros (c - n)) in
       (h', mk_slice a 0 n c).

Definition go_make (h : heap) (len cap : nat) : heap * slice :=
  let c := Nat.max len cap in
  let '(h', a) := alloc h (zeros c) in (h', mk_slice a 0 len c).

Definition go_lit (h : heap) (bs : bytes) : heap * slice :=
  let '(h', a) := alloc h bs in (h', mk_slice a 0 (length bs) (length bs)).

Definition go_sub (s : slice) (lo hi : nat) : option slice :=
  if (lo <=? hi) && (hi <=? s_cap s)
  then Some (mk_slice (s_arr s) (s_off s + lo) (hi - lo) (s_cap s - lo)) else None.

Definition go_copy (h : heap) (dst src : slice) : heap * nat :=
  let n := Nat.min (s_len dst) (s_len src) in
  (wr h (s_arr dst) (s_off dst) (firstn n (rd h src)), n).

Definition go_set (h : heap) (s : slice) (i : nat) (b : byte) : option heap :=
  if i <? s_len s then Some (wr h (s_arr s) (s_off s + i) [b]) else None.

Definition go_get (h : heap) (s : slice) (i : nat) : option byte := nth_error (rd h s) i.

Definition wf_slice (h : heap) (s : slice) : Prop :=
  s_arr s < length h /\ s_len s <= s_cap s /\ s_off s + s_cap s <= length (arr h (s_arr s)).
Definition wf_sliceb (h : heap) (s : slice) : bool :=
  (s_arr s <? length h) && (s_len s <=? s_cap s) && (s_off s + s_cap s <=? length (arr h (s_arr s))).

Definition ext (n : nat) (h h' : heap) : Prop :=
  n <= length h /\ length h <= length h' /\ forall a, a < n -> arr h' a = arr h a.
Definition fresh (n : nat) (s : slice) : Prop := n <= s_arr s.

Lemma length_upd h a bs : length (upd h a bs) = length h.
Proof. revert a; induction h as [|x t IH]; intros [|a]; cbn; auto. Qed.

Lemma arr_upd_same h a bs : a < length h -> arr (upd h a bs) a = bs.
Proof.
  unfold arr. revert a; induction h as [|x t IH]; intros [|a] H; cbn in *; try lia; auto.
  apply IH; lia.
Qed.

Lemma arr_upd_other h a a' bs : a <> a' -> arr (upd h a bs) a' = arr h a'.
Proof.
  unfold arr. revert a a'; induction h as [|x t IH]; intros [|a] [|a'] H; cbn; auto; try lia.
Qed.

Lemma upd_arr h a : upd h a (arr h a) = h.
Proof. unfold arr. revert a; induction h as [|x t IH]; intros [|a]; cbn; auto. f_equal. apply IH. Qed.

Lemma length_arr_upd h a bs a' : length bs = length (arr h a) ->
  length (arr (upd h a bs) a') = length (arr h a').
Proof. unfold arr. revert a a'; induction h as [|x t IH]; intros [|a] [|a'] H; cbn in *; auto. Qed.

Lemma arr_alloc_old h bs a : a < length h -> arr (h ++ [bs]) a = arr h a.
Proof. intros H. unfold arr. apply app_nth1; auto. Qed.

Lemma arr_alloc_new h bs : arr (h ++ [bs]) (length h) = bs.
Proof. unfold arr. rewrite app_nth2 by lia. rewrite Nat.sub_diag. reflexivity. Qed.

Lemma arr_out h a : length h <= a -> arr h a = [].
Proof. intros H. unfold arr. apply nth_overflow; auto. Qed.

Lemma length_zeros n : length (zeros n) = n.
Proof. apply repeat_length. Qed.

Lemma splice_length bs pos d : length (splice bs pos d) = length bs.
Proof.
  unfold splice. rewrite firstn_length, !app_length, firstn_length, skipn_length. lia.
Qed.

Lemma splice_spec bs pos d : pos + length d <= length bs ->
  splice bs pos d = firstn pos bs ++ d ++ skipn (pos + length d) bs.
Proof.
  intros H. unfold splice. apply firstn_all2.
  rewrite !app_length, firstn_length, skipn_length. lia.
Qed.

Lemma splice_nil bs pos : splice bs pos [] = bs.
Proof.
  unfold splice. cbn [app length]. rewrite Nat.add_0_r, firstn_skipn. apply firstn_all.
Qed.

Lemma length_wr h a pos d : length (wr h a pos d) = length h.
Proof. apply length_upd. Qed.

Lemma arr_wr_other h a a' pos d : a <> a' -> arr (wr h a pos d) a' = arr h a'.
Proof. apply arr_upd_other. Qed.

Lemma arr_wr_same h a pos d : a < length h -> arr (wr h a pos d) a = splice (arr h a) pos d.
Proof. apply arr_upd_same. Qed.

Lemma length_arr_wr h a a' pos d : length (arr (wr h a pos d) a') = length (arr h a').
Proof. apply length_arr_upd, splice_length. Qed.

Lemma wr_nil h a pos : wr h a pos [] = h.
Proof. unfold wr. rewrite splice_nil. apply upd_arr. Qed.

Lemma ext_refl n h : n <= length h -> ext n h h.
Proof. intros H. repeat split; auto. Qed.

Lemma ext_self h : ext (length h) h h.
Proof. apply ext_refl. auto. Qed.

Lemma ext_trans n h1 h2 h3 : ext n h1 h2 -> ext n h2 h3 -> ext n h1 h3.
Proof.
  intros (A1 & A2 & A3) (B1 & B2 & B3). repeat split; try lia.
  intros a Ha. rewrite B3, A3; auto.
Qed.

Lemma ext_weaken n m h h' : m <= n -> ext n h h' -> ext m h h'.
Proof. intros H (A & B & C). repeat split; try lia. intros a Ha. apply C. lia. Qed.

Lemma ext_len n h h' : ext n h h' -> n <= length h'.
Proof. intros (A & B & _). lia. Qed.

(* the two ways a heap changes, seen from a heap h0 further back: allocation, and a
   write into an array that h0 does not have below n *)
Lemma ext_alloc n h0 h bs : ext n h0 h -> ext n h0 (h ++ [bs]).
Proof.
  intros (A & B & C). repeat split; auto.
  - rewrite app_length. lia.
  - intros a Ha. rewrite arr_alloc_old by lia. auto.
Qed.

Lemma ext_wr n h0 h a pos d : ext n h0 h -> n <= a -> ext n h0 (wr h a pos d).
Proof.
  intros (A & B & C) Ha. repeat split; auto.
  - rewrite length_wr. exact B.
  - intros a' Ha'. rewrite arr_wr_other by lia. auto.
Qed.

Lemma ext_firstn h h' : ext (length h) h h' -> firstn (length h) h' = h.
Proof.
  intros (_ & L & E).
  apply nth_ext with (d := []) (d' := []).
  - rewrite firstn_length. lia.
  - intros a Ha. rewrite firstn_length in Ha.
    assert (Hlt : a < length h) by lia.
    specialize (E a Hlt). unfold arr in E. rewrite <- E.
    rewrite <- (firstn_skipn (length h) h') at 2.
    rewrite app_nth1; auto. rewrite firstn_length. lia.
Qed.

Lemma window_length off n bs : off + n <= length bs -> length (window off n bs) = n.
Proof. intros H. unfold window. rewrite firstn_length, skipn_length. lia. Qed.

Lemma rd_length h s : wf_slice h s -> length (rd h s) = s_len s.
Proof. intros (_ & A & B). apply window_length. lia. Qed.

Lemma rd_ext n h h' s : ext n h h' -> s_arr s < n -> rd h' s = rd h s.
Proof. intros (_ & _ & E) H. unfold rd. rewrite E; auto. Qed.

Lemma rd_cap_ext n h h' s : ext n h h' -> s_arr s < n -> rd_cap h' s = rd_cap h s.
Proof. intros (_ & _ & E) H. unfold rd_cap. rewrite E; auto. Qed.

Lemma wf_slice_ext n h h' s : ext n h h' -> s_arr s < n -> wf_slice h s -> wf_slice h' s.
Proof. intros (A & B & E) H (W1 & W2 & W3). repeat split; try lia. rewrite E; auto. Qed.

Lemma sees_rd {h h' s} : ext (length h) h h' -> wf_slice h s -> wf_slice h' s /\ rd h' s = rd h s.
Proof. intros X W. split; [eapply wf_slice_ext | eapply rd_ext]; eauto; apply W. Qed.

Lemma wf_sliceb_ok h s : wf_sliceb h s = true <-> wf_slice h s.
Proof. unfold wf_sliceb, wf_slice. rewrite !andb_true_iff, Nat.ltb_lt, !Nat.leb_le. tauto. Qed.

Lemma wf_slice_wr h a pos d s : wf_slice h s -> wf_slice (wr h a pos d) s.
Proof. unfold wf_slice. rewrite length_wr, length_arr_wr. auto. Qed.

Lemma rd_wr_other h a pos d s : s_arr s <> a -> rd (wr h a pos d) s = rd h s.
Proof. intros H. unfold rd. rewrite arr_wr_other; auto. Qed.

Lemma window_app_l off n a b : off + n <= length a -> window off n (a ++ b) = window off n a.
Proof.
  intros H. unfold window. rewrite skipn_app, firstn_app, skipn_length.
  replace (n - (length a - off)) with 0 by lia. cbn. apply app_nil_r.
Qed.

Lemma skipn_splice off k d bs : skipn off (splice bs (off + k) d) = splice (skipn off bs) k d.
Proof.
  revert bs; induction off as [|off IH]; intros [|x bs]; try reflexivity.
  change (splice (x :: bs) (S off + k) d) with (x :: splice bs (off + k) d). apply IH.
Qed.

Lemma window_splice off len d bs : off + len + length d <= length bs ->
  window off (len + length d) (splice bs (off + len) d) = window off len bs ++ d.
Proof.
  intros H. unfold window. rewrite skipn_splice, splice_spec, app_assoc by (rewrite skipn_length; lia).
  apply firstn_app_exact.
  rewrite app_length, firstn_length, skipn_length. lia.
Qed.

Lemma window_splice_front off n d bs : length d <= n -> off + n <= length bs ->
  window off n (splice bs off d) = d ++ skipn (length d) (window off n bs).
Proof.
  intros Hd Hb. unfold window. rewrite <- (Nat.add_0_r off) at 2.
  rewrite skipn_splice, splice_spec by (rewrite skipn_length; lia). cbn [firstn app Nat.add].
  rewrite firstn_app, (firstn_all2 d), skipn_firstn_comm by lia. reflexivity.
Qed.

Lemma firstn_repeat_le {A} (x : A) n m : n <= m -> firstn n (repeat x m) = repeat x n.
Proof.
  revert m; induction n as [|n IH]; intros [|m] H; cbn; auto; try lia. f_equal. apply IH. lia.
Qed.

Lemma alloc_rd (h : heap) (bs : bytes) len c : len <= c -> c <= length bs ->
  wf_slice (h ++ [bs]) (mk_slice (length h) 0 len c) /\
  rd (h ++ [bs]) (mk_slice (length h) 0 len c) = firstn len bs.
Proof.
  intros H1 H2. unfold wf_slice, rd. cbn [s_arr s_off s_len s_cap].
  rewrite arr_alloc_new, app_length. cbn [length]. repeat split; lia.
Qed.

(* Each operation has a frame lemma (`_step`: seen from a heap h0 further back, arrays
   below n stay untouched and the result lies at or above n) and a value lemma (`_rd`:
   the result is well formed and reads what the Go operation yields).  The frame lemmas
   ask nothing of the argument slices. *)
Lemma go_lit_step {h bs h' s n h0} : go_lit h bs = (h', s) -> ext n h0 h -> ext n h0 h' /\ fresh n s.
Proof. intros [= <- <-] X. split; [apply ext_alloc; auto | exact (ext_len _ _ _ X)]. Qed.

Lemma go_lit_rd {h bs h' s} : go_lit h bs = (h', s) -> wf_slice h' s /\ rd h' s = bs.
Proof.
  intros [= <- <-]. destruct (alloc_rd h bs (length bs) (length bs)) as [W R]; auto.
  rewrite firstn_all in R. auto.
Qed.

Lemma go_make_step {h len cap h' s n h0} : go_make h len cap = (h', s) -> ext n h0 h -> ext n h0 h' /\ fresh n s.
Proof. intros [= <- <-] X. split; [apply ext_alloc; auto | exact (ext_len _ _ _ X)]. Qed.

Lemma go_make_rd {h len cap h' s} : go_make h len cap = (h', s) ->
  wf_slice h' s /\ rd h' s = zeros len /\ s_len s = len.
Proof.
  intros [= <- <-].
  destruct (alloc_rd h (zeros (Nat.max len cap)) len (Nat.max len cap)) as [W R]; [lia | rewrite length_zeros; lia |].
  split; [exact W|]. split; [|reflexivity]. rewrite R. apply firstn_repeat_le. lia.
Qed.

Lemma go_append_cases g h s d : let n := s_len s + length d in
  n <= s_cap s /\
    go_append g h s d = (wr h (s_arr s) (s_off s + s_len s) d, mk_slice (s_arr s) (s_off s) n (s_cap s)) \/
  s_cap s < n /\ exists c, n <= c /\
    go_append g h s d = (h ++ [(rd h s ++ d ++ zeros (c - n) : bytes)], mk_slice (length h) 0 n c).
Proof.
  intros n. unfold go_append, alloc. fold n.
  destruct (Nat.leb_spec n (s_cap s)) as [C|C]; [left | right]; split; auto.
  exists (Nat.max n (g (s_cap s) n)). split; [lia | reflexivity].
Qed.

Lemma go_append_step {g h s d h' s' n h0} : go_append g h s d = (h', s') ->
  ext n h0 h -> fresh n s -> ext n h0 h' /\ fresh n s'.
Proof.
  intros E X F.
  destruct (go_append_cases g h s d) as [[_ E']|(_ & c & _ & E')]; rewrite E' in E; injection E as <- <-.
  - split; [apply ext_wr; auto | exact F].
  - split; [apply ext_alloc; auto | exact (ext_len _ _ _ X)].
Qed.

Lemma go_append_rd {g h s d h' s'} : go_append g h s d = (h', s') -> wf_slice h s ->
  wf_slice h' s' /\ rd h' s' = rd h s ++ d.
Proof.
  intros E W. pose proof (rd_length h s W) as L. destruct W as (W1 & W2 & W3).
  destruct (go_append_cases g h s d) as [[C E']|(_ & c & C & E')]; rewrite E' in E; injection E as <- <-.
  - split.
    + apply wf_slice_wr. repeat split; cbn [s_arr s_off s_len s_cap]; auto.
    + unfold rd. cbn [s_arr s_off s_len]. rewrite arr_wr_same by auto. apply window_splice. lia.
  - destruct (alloc_rd h (rd h s ++ d ++ zeros (c - (s_len s + length d))) (s_len s + length d) c) as [W R];
      [exact C | rewrite !app_length, length_zeros; lia |].
    split; [exact W|]. rewrite R, app_assoc. apply firstn_app_exact.
    rewrite app_length. lia.
Qed.

Lemma go_copy_step {h dst src h' k n h0} : go_copy h dst src = (h', k) ->
  ext n h0 h -> fresh n dst -> ext n h0 h'.
Proof. intros [= <- _] X F. apply ext_wr; auto. Qed.

(* copy reads its source first, so this also holds when dst and src overlap *)
Lemma go_copy_rd {h dst src h' k} : go_copy h dst src = (h', k) -> wf_slice h dst -> wf_slice h src ->
  wf_slice h' dst /\
  rd h' dst = firstn (Nat.min (s_len dst) (s_len src)) (rd h src) ++ skipn (Nat.min (s_len dst) (s_len src)) (rd h dst).
Proof.
  intros [= <- _] Wd Ws. split; [apply wf_slice_wr; exact Wd|].
  pose proof (rd_length h src Ws) as Ls. destruct Wd as (D1 & D2 & D3).
  set (k' := Nat.min (s_len dst) (s_len src)).
  assert (Ld : length (firstn k' (rd h src)) = k') by (rewrite firstn_length; lia).
  unfold rd at 1. rewrite arr_wr_same by auto.
  rewrite window_splice_front by lia. rewrite Ld. reflexivity.
Qed.

Lemma go_set_step {h s i b h' n h0} : go_set h s i b = Some h' -> ext n h0 h -> fresh n s -> ext n h0 h'.
Proof.
  unfold go_set. destruct (i <? s_len s); intros [= <-] X F. apply ext_wr; auto.
Qed.

Lemma go_sub_fresh {s lo hi s' n} : go_sub s lo hi = Some s' -> fresh n s -> fresh n s'.
Proof.
  unfold go_sub. destruct ((lo <=? hi) && (hi <=? s_cap s)); intros [= <-] F. exact F.
Qed.

Create HintDb frame.
#[export] Hint Resolve go_lit_step go_make_step go_append_step go_copy_step go_set_step go_sub_fresh : frame.

(* append onto ANY slice that has no room re-allocates: nothing old is written *)
Lemma go_append_realloc g n h s d : n <= length h -> s_cap s < s_len s + length d ->
  ext n h (fst (go_append g h s d)) /\ fresh n (snd (go_append g h s d)).
Proof.
  intros H C. destruct (go_append_cases g h s d) as [[C' _]|(_ & c & _ & ->)]; [lia|].
  split; [apply ext_alloc, ext_refl; exact H | exact H].
Qed.

(* appending nothing writes nothing, whatever the slice *)
Lemma go_append_nil g n h s : n <= length h -> ext n h (fst (go_append g h s [])).
Proof.
  intros H. destruct (go_append_cases g h s []) as [[_ ->]|(_ & c & _ & ->)]; cbn [fst].
  - rewrite wr_nil. apply ext_refl; exact H.
  - apply ext_alloc, ext_refl; exact H.
Qed.

Example append_onto_arg_with_spare_capacity_writes :
  let h := [[x01; x02; xa5; xa5; xa5]] in
  let s := mk_slice 0 0 2 5 in
  arr (fst (go_append exact_policy h s [x00; x00])) 0 = [x01; x02; x00; x00; xa5] /\
  arr (fst (go_append exact_policy h (mk_slice 0 0 2 2) [x00; x00])) 0 = [x01; x02; xa5; xa5; xa5].
Proof. split; reflexivity. Qed.
