(* Lib/Sha256.v — executable SHA-256 (FIPS 180-4) over byte lists, plus the
   single-block mid-state used by Elements issuance ids.  Checked against the
   standard test vectors below (inside the kernel, vm_compute). *)
From GE Require Export Lib.Bytes.
Open Scope N_scope.

Definition m32 : N := 0x100000000.
Definition mask32 : N := 0xffffffff.
Definition add32 (a b : N) : N := N.land (a + b) mask32.
Definition rotr (n x : N) : N := N.lor (N.shiftr x n) (N.land (N.shiftl x (32 - n)) mask32).
Definition shr (n x : N) : N := N.shiftr x n.
Definition not32 (x : N) : N := N.lxor x 0xffffffff.

Definition Ch (x y z : N) := N.lxor (N.land x y) (N.land (not32 x) z).
Definition Maj (x y z : N) := N.lxor (N.lxor (N.land x y) (N.land x z)) (N.land y z).
Definition BS0 x := N.lxor (N.lxor (rotr 2 x) (rotr 13 x)) (rotr 22 x).
Definition BS1 x := N.lxor (N.lxor (rotr 6 x) (rotr 11 x)) (rotr 25 x).
Definition SS0 x := N.lxor (N.lxor (rotr 7 x) (rotr 18 x)) (shr 3 x).
Definition SS1 x := N.lxor (N.lxor (rotr 17 x) (rotr 19 x)) (shr 10 x).

Definition K256 : list N := [
 0x428a2f98;0x71374491;0xb5c0fbcf;0xe9b5dba5;0x3956c25b;0x59f111f1;0x923f82a4;0xab1c5ed5;
 0xd807aa98;0x12835b01;0x243185be;0x550c7dc3;0x72be5d74;0x80deb1fe;0x9bdc06a7;0xc19bf174;
 0xe49b69c1;0xefbe4786;0x0fc19dc6;0x240ca1cc;0x2de92c6f;0x4a7484aa;0x5cb0a9dc;0x76f988da;
 0x983e5152;0xa831c66d;0xb00327c8;0xbf597fc7;0xc6e00bf3;0xd5a79147;0x06ca6351;0x14292967;
 0x27b70a85;0x2e1b2138;0x4d2c6dfc;0x53380d13;0x650a7354;0x766a0abb;0x81c2c92e;0x92722c85;
 0xa2bfe8a1;0xa81a664b;0xc24b8b70;0xc76c51a3;0xd192e819;0xd6990624;0xf40e3585;0x106aa070;
 0x19a4c116;0x1e376c08;0x2748774c;0x34b0bcb5;0x391c0cb3;0x4ed8aa4a;0x5b9cca4f;0x682e6ff3;
 0x748f82ee;0x78a5636f;0x84c87814;0x8cc70208;0x90befffa;0xa4506ceb;0xbef9a3f7;0xc67178f2].

Definition IV256 : list N :=
 [0x6a09e667;0xbb67ae85;0x3c6ef372;0xa54ff53a;0x510e527f;0x9b05688c;0x1f83d9ab;0x5be0cd19].

(* big-endian words of a byte list (length a multiple of 4); fuel = number of words wanted, 16 for a block *)
Fixpoint words_of (fuel : nat) (bs : bytes) : list N :=
  match fuel with
  | O => []
  | S f => match bs with
           | a :: b :: c :: d :: r => (((n8 a * 256 + n8 b) * 256 + n8 c) * 256 + n8 d) :: words_of f r
           | _ => []
           end
  end.

Definition nthN (l : list N) (i : nat) : N := nth i l 0.

(* message schedule: w holds the words computed so far, newest first *)
Fixpoint expand (n : nat) (w : list N) : list N :=
  match n with
  | O => w
  | S k =>
      let x := add32 (add32 (SS1 (nthN w 1)) (nthN w 6)) (add32 (SS0 (nthN w 14)) (nthN w 15)) in
      expand k (x :: w)
  end.

Definition schedule (block : list N) : list N := rev (expand 48 (rev block)).

Definition round (st : list N) (kw : N * N) : list N :=
  match st with
  | [a; b; c; d; e; f; g; h] =>
      let t1 := add32 (add32 (add32 h (BS1 e)) (add32 (Ch e f g) (fst kw))) (snd kw) in
      let t2 := add32 (BS0 a) (Maj a b c) in
      [add32 t1 t2; a; b; c; add32 d t1; e; f; g]
  | _ => st
  end.

Definition compress (st : list N) (block : bytes) : list N :=
  let w := schedule (words_of 16 block) in
  let st' := fold_left round (combine K256 w) st in
  map (fun p => add32 (fst p) (snd p)) (combine st st').

Fixpoint blocks (fuel : nat) (st : list N) (bs : bytes) : list N :=
  match fuel with
  | O => st
  | S f => match bs with
           | [] => st
           | _ => blocks f (compress st (firstn 64 bs)) (skipn 64 bs)
           end
  end.

Definition pad (msg : bytes) : bytes :=
  let l := length msg in
  let k := ((64 - ((l + 9) mod 64)) mod 64)%nat in
  msg ++ x80 :: repeat x00 k ++ be_enc 8 (8 * N.of_nat l).

Definition digest_of (st : list N) : bytes := concat (map (be_enc 4) st).

Definition sha256 (msg : bytes) : bytes :=
  let p := pad msg in digest_of (blocks (S (length p / 64)) IV256 p).

Definition dsha256 (msg : bytes) : bytes := sha256 (sha256 msg).

(* fastsha256.MidState256 as used by the issuance code: the chaining value after
   compressing the first 64 bytes; the IV itself if fewer than 64 bytes are given *)
Definition midstate256 (msg : bytes) : bytes :=
  if (length msg <? 64)%nat then digest_of IV256 else digest_of (compress IV256 (firstn 64 msg)).

(* BIP-340 tagged hash *)
Definition tagged_hash (tag msg : bytes) : bytes :=
  let t := sha256 tag in sha256 (t ++ t ++ msg).

(* lower-case hex, for the first vector *)
Definition hexdigit (n : N) : byte :=
  b8 (if n <? 10 then 48 + n else 87 + n).
Fixpoint to_hex (bs : bytes) : bytes :=
  match bs with [] => [] | b :: r => hexdigit (n8 b / 16) :: hexdigit (n8 b mod 16) :: to_hex r end.

(* test vector, like the two after it: the digest of the empty message, in hex e3b0c442 98fc1c14 ... 7852b855 *)
Lemma sha256_length_vec_empty :
  to_hex (sha256 []) =
  map b8 [101;51;98;48;99;52;52;50;57;56;102;99;49;99;49;52;57;97;102;98;102;52;99;56;57;57;54;102;98;57;50;52;50;55;97;101;52;49;101;52;54;52;57;98;57;51;52;99;97;52;57;53;57;57;49;98;55;56;53;50;98;56;53;53].
Proof. vm_compute. reflexivity. Qed.

(* "abc" -> ba7816bf 8f01cfea 414140de 5dae2223 b00361a3 96177a9c b410ff61 f20015ad *)
Lemma sha256_vec_abc :
  sha256 (map b8 [97;98;99]) =
  map b8 [0xba;0x78;0x16;0xbf;0x8f;0x01;0xcf;0xea;0x41;0x41;0x40;0xde;0x5d;0xae;0x22;0x23;
          0xb0;0x03;0x61;0xa3;0x96;0x17;0x7a;0x9c;0xb4;0x10;0xff;0x61;0xf2;0x00;0x15;0xad].
Proof. vm_compute. reflexivity. Qed.

(* 56-byte two-block message "abcdbcdecdefdefgefghfghighijhijkijkljklmklmnlmnomnopnopq"
   -> 248d6a61 d20638b8 e5c02693 0c3e6039 a33ce459 64ff2167 f6ecedd4 19db06c1 *)
Lemma sha256_vec_two_blocks :
  sha256 (map b8 [97;98;99;100;98;99;100;101;99;100;101;102;100;101;102;103;101;102;103;104;102;103;104;105;
                  103;104;105;106;104;105;106;107;105;106;107;108;106;107;108;109;107;108;109;110;108;109;110;111;
                  109;110;111;112;110;111;112;113]) =
  map b8 [0x24;0x8d;0x6a;0x61;0xd2;0x06;0x38;0xb8;0xe5;0xc0;0x26;0x93;0x0c;0x3e;0x60;0x39;
          0xa3;0x3c;0xe4;0x59;0x64;0xff;0x21;0x67;0xf6;0xec;0xed;0xd4;0x19;0xdb;0x06;0xc1].
Proof. vm_compute. reflexivity. Qed.

Lemma digest_of_length st : length st = 8%nat -> length (digest_of st) = 32%nat.
Proof.
  intro H. do 9 (destruct st as [|? st]; try discriminate H).
  unfold digest_of. cbn [map concat]. rewrite !app_length. unfold be_enc. rewrite !rev_length, !le_enc_length. reflexivity.
Qed.

Lemma round_length st kw : length st = 8%nat -> length (round st kw) = 8%nat.
Proof. intro H. do 9 (destruct st as [|? st]; try discriminate H). reflexivity. Qed.
Lemma fold_round_length l : forall st, length st = 8%nat -> length (fold_left round l st) = 8%nat.
Proof. induction l as [|kw l IH]; intros st H; cbn [fold_left]; auto. apply IH, round_length, H. Qed.
Lemma compress_length st block : length st = 8%nat -> length (compress st block) = 8%nat.
Proof.
  intro H. unfold compress. rewrite map_length, combine_length, fold_round_length by exact H. rewrite H. reflexivity.
Qed.
Lemma blocks_length fuel : forall st bs, length st = 8%nat -> length (blocks fuel st bs) = 8%nat.
Proof.
  induction fuel as [|f IH]; intros st bs H; cbn [blocks]; auto.
  destruct bs; auto. apply IH, compress_length, H.
Qed.
Lemma sha256_length msg : length (sha256 msg) = 32%nat.
Proof. apply digest_of_length, blocks_length. reflexivity. Qed.
Lemma tagged_hash_length tag msg : length (tagged_hash tag msg) = 32%nat.
Proof. apply sha256_length. Qed.
Lemma midstate256_length msg : length (midstate256 msg) = 32%nat.
Proof.
  unfold midstate256. destruct (length msg <? 64)%nat; apply digest_of_length; [reflexivity|].
  apply compress_length. reflexivity.
Qed.
