(* Lib/Sha256Fast.v — a second SHA-256, sha256_fast, on fixed-width binary words, proved equal to the one of
   Lib/Sha256 (sha256_fast_eq).  It is there for the independent checker: coqchk has no virtual machine and
   evaluates test vectors again by ordinary lazy reduction, where what counts is the number of passes over the
   digits of a word.  sha256 keeps its words in N, masks every sum and builds every rotation from two shifts and
   a mask; that is several times dearer there than one pass per operation.  A proof that evaluates a closed
   instance of sha256 rewrites it into sha256_fast first (rewrite <- sha256_fast_eq) and evaluates that. *)
From GE Require Import Lib.Bytes Lib.Sha256.
Open Scope N_scope.

(* The words of sha256_fast: a positive of exactly 32 binary digits below a leading 1, least significant first.
   The leading 1 marks the width, so a rotation cuts and appends, an addition drops its carry there, and nothing is
   ever masked.  The bitwise operations and the sums stop as soon as one argument reaches its leading 1: in wrot3
   and wrot2 the first two arguments of wxor3 are longer than the third, and the result has the width of the third. *)
Definition bitc (b : bool) : positive -> positive := if b then xI else xO.
(* the low n bits of x below a leading 1, and back *)
Fixpoint wof (n : nat) (x : N) : positive :=
  match n with O => xH | S k => bitc (N.odd x) (wof k (N.div2 x)) end.
Fixpoint wval (p : positive) : N :=
  match p with xH => 0 | xO q => N.double (wval q) | xI q => N.succ_double (wval q) end.

Fixpoint wxor3 (p q r : positive) : positive :=
  match p, q, r with
  | xO p, xO q, xO r | xO p, xI q, xI r | xI p, xO q, xI r | xI p, xI q, xO r => xO (wxor3 p q r)
  | xO p, xO q, xI r | xO p, xI q, xO r | xI p, xO q, xO r | xI p, xI q, xI r => xI (wxor3 p q r)
  | _, _, _ => xH
  end.
Fixpoint wch (p q r : positive) : positive :=
  match p, q, r with
  | xI p, xI q, (xO r | xI r) | xO p, (xO q | xI q), xI r => xI (wch p q r)
  | xI p, xO q, (xO r | xI r) | xO p, (xO q | xI q), xO r => xO (wch p q r)
  | _, _, _ => xH
  end.
Fixpoint wmaj (p q r : positive) : positive :=
  match p, q, r with
  | xI p, xI q, (xO r | xI r) | xI p, xO q, xI r | xO p, xI q, xI r => xI (wmaj p q r)
  | xO p, xO q, (xO r | xI r) | xO p, xI q, xO r | xI p, xO q, xO r => xO (wmaj p q r)
  | _, _, _ => xH
  end.
(* sum and sum plus one, modulo 2^width *)
Fixpoint wadd (p q : positive) : positive :=
  match p, q with
  | xO p, xO q => xO (wadd p q)
  | xO p, xI q | xI p, xO q => xI (wadd p q)
  | xI p, xI q => xO (waddc p q)
  | _, _ => xH
  end
with waddc (p q : positive) : positive :=
  match p, q with
  | xO p, xO q => xI (wadd p q)
  | xO p, xI q | xI p, xO q => xO (waddc p q)
  | xI p, xI q => xI (waddc p q)
  | _, _ => xH
  end.
(* the sum of three words modulo 2^width: wadd3, wadd3a, wadd3b start with carry 0, 1, 2 *)
Fixpoint wadd3 (p q r : positive) : positive :=
  match p, q, r with
  | xO p, xO q, xO r => xO (wadd3 p q r)
  | xO p, xO q, xI r | xO p, xI q, xO r | xI p, xO q, xO r => xI (wadd3 p q r)
  | xO p, xI q, xI r | xI p, xO q, xI r | xI p, xI q, xO r => xO (wadd3a p q r)
  | xI p, xI q, xI r => xI (wadd3a p q r)
  | _, _, _ => xH
  end
with wadd3a (p q r : positive) : positive :=
  match p, q, r with
  | xO p, xO q, xO r => xI (wadd3 p q r)
  | xO p, xO q, xI r | xO p, xI q, xO r | xI p, xO q, xO r => xO (wadd3a p q r)
  | xO p, xI q, xI r | xI p, xO q, xI r | xI p, xI q, xO r => xI (wadd3a p q r)
  | xI p, xI q, xI r => xO (wadd3b p q r)
  | _, _, _ => xH
  end
with wadd3b (p q r : positive) : positive :=
  match p, q, r with
  | xO p, xO q, xO r => xO (wadd3a p q r)
  | xO p, xO q, xI r | xO p, xI q, xO r | xI p, xO q, xO r => xI (wadd3a p q r)
  | xO p, xI q, xI r | xI p, xO q, xI r | xI p, xI q, xO r => xO (wadd3b p q r)
  | xI p, xI q, xI r => xI (wadd3b p q r)
  | _, _, _ => xH
  end.
(* without the n low digits; the n low digits; the digits of p below those of q *)
Fixpoint wdrop (n : nat) (p : positive) : positive :=
  match n with O => p | S k => match p with xO q | xI q => wdrop k q | xH => xH end end.
Fixpoint wtake (n : nat) (p : positive) : positive :=
  match n with O => xH | S k => match p with xO q => xO (wtake k q) | xI q => xI (wtake k q) | xH => xH end end.
Fixpoint wapp (p q : positive) : positive :=
  match p with xH => q | xO p => xO (wapp p q) | xI p => xI (wapp p q) end.

Section Words.
Implicit Types (x y z : N) (n k m : nat).

Lemma wof_ext n : forall x y, (forall i, i < N.of_nat n -> N.testbit x i = N.testbit y i) -> wof n x = wof n y.
Proof.
  induction n as [|n IH]; intros x y H; [reflexivity|]. cbn [wof].
  rewrite <- !N.bit0_odd, (H 0) by lia. f_equal. apply IH. intros i Hi.
  rewrite <- !N.testbit_succ_r_div2 by apply N.le_0_l. apply H. lia.
Qed.

Lemma shiftr_div2 x i : N.shiftr (N.div2 x) i = N.shiftr x (N.succ i).
Proof. rewrite N.div2_spec, N.shiftr_shiftr, N.add_1_l. reflexivity. Qed.

Lemma wof_app k m : forall x, wof (k + m) x = wapp (wof k x) (wof m (N.shiftr x (N.of_nat k))).
Proof.
  induction k as [|k IH]; intro x; [reflexivity|]. cbn [wof plus]. rewrite IH, shiftr_div2, <- Nat2N.inj_succ.
  destruct (N.odd x); reflexivity.
Qed.
Lemma wtake_wof k m : forall x, wtake k (wof (k + m) x) = wof k x.
Proof. induction k as [|k IH]; intro x; [reflexivity|]. cbn [wof plus]. destruct (N.odd x); cbn [bitc wtake]; rewrite IH; reflexivity. Qed.
Lemma wdrop_wof k m : forall x, wdrop k (wof (k + m) x) = wof m (N.shiftr x (N.of_nat k)).
Proof.
  induction k as [|k IH]; intro x; [reflexivity|]. cbn [wof plus].
  destruct (N.odd x); cbn [bitc wdrop]; rewrite IH, shiftr_div2, <- Nat2N.inj_succ; reflexivity.
Qed.

(* a ternary operation that works bit by bit and stops with its third argument *)
Lemma bitwise3_wof (g : positive -> positive -> positive -> positive) (f : bool -> bool -> bool -> bool) :
  (forall p q, g p q xH = xH) ->
  (forall a b c p q r, g (bitc a p) (bitc b q) (bitc c r) = bitc (f a b c) (g p q r)) ->
  forall n k m x y z w,
    (forall i, i < N.of_nat n -> N.testbit w i = f (N.testbit x i) (N.testbit y i) (N.testbit z i)) ->
    g (wof (n + k) x) (wof (n + m) y) (wof n z) = wof n w.
Proof.
  intros H1 H2 n k m. induction n as [|n IH]; intros x y z w H; [apply H1|]. cbn [wof plus].
  rewrite H2, <- !N.bit0_odd, (H 0) by lia. f_equal. apply IH. intros i Hi.
  rewrite <- !N.testbit_succ_r_div2 by apply N.le_0_l. apply H. lia.
Qed.

Lemma wxor3_wof n k m x y z w :
  (forall i, i < N.of_nat n -> N.testbit w i = xorb (xorb (N.testbit x i) (N.testbit y i)) (N.testbit z i)) ->
  wxor3 (wof (n + k) x) (wof (n + m) y) (wof n z) = wof n w.
Proof.
  apply (bitwise3_wof wxor3 (fun a b c => xorb (xorb a b) c)).
  - intros [p|p|] [q|q|]; reflexivity.
  - intros [|] [|] [|] p q r; reflexivity.
Qed.
Lemma wch_wof x y z : wch (wof 32 x) (wof 32 y) (wof 32 z) = wof 32 (Ch x y z).
Proof.
  apply (bitwise3_wof wch (fun a b c => if a then b else c) ltac:(intros [p|p|] [q|q|]; reflexivity)
           ltac:(intros [|] [|] [|] p q r; reflexivity) 32 0 0).
  intros i Hi. unfold Ch, not32. change 0xffffffff with (N.ones 32).
  rewrite !N.lxor_spec, !N.land_spec, N.lxor_spec, N.ones_spec_low by exact Hi.
  destruct (N.testbit x i), (N.testbit y i), (N.testbit z i); reflexivity.
Qed.
Lemma wmaj_wof x y z : wmaj (wof 32 x) (wof 32 y) (wof 32 z) = wof 32 (Maj x y z).
Proof.
  apply (bitwise3_wof wmaj (fun a b c => a && b || c && (a || b))%bool ltac:(intros [p|p|] [q|q|]; reflexivity)
           ltac:(intros [|] [|] [|] p q r; reflexivity) 32 0 0).
  intros i _. unfold Maj. rewrite !N.lxor_spec, !N.land_spec.
  destruct (N.testbit x i), (N.testbit y i), (N.testbit z i); reflexivity.
Qed.

Lemma wof_S n b x : wof (S n) (2 * x + N.b2n b) = bitc b (wof n x).
Proof.
  cbn [wof]. rewrite <- N.bit0_odd, N.div2_div, N.add_comm, N.add_b2n_double_bit0, N.add_b2n_double_div2. reflexivity.
Qed.

Lemma wadd_wof n : forall (c : bool) x y,
  (if c then waddc else wadd) (wof n x) (wof n y) = wof n (x + y + N.b2n c).
Proof.
  induction n as [|n IH]; intros c x y; [destruct c; reflexivity|].
  rewrite (N.div2_odd x), (N.div2_odd y), !wof_S.
  generalize (N.div2 x) (N.div2 y) (N.odd x) (N.odd y). clear x y. intros x y a b.
  replace (2 * x + N.b2n a + (2 * y + N.b2n b) + N.b2n c)
    with (2 * (x + y + N.b2n (a && b || c && (a || b))) + N.b2n (xorb (xorb a b) c))
    by (destruct a, b, c; cbn [N.b2n andb orb xorb]; lia).
  rewrite wof_S, <- IH. destruct a, b, c; reflexivity.
Qed.

(* the digit sum s = a + b + d + c leaves the digit odd s and the carry div2 s <= 2 *)
Lemma wadd3_wof n : forall c x y z, c <= 2 ->
  match c with 0 => wadd3 | 1 => wadd3a | _ => wadd3b end (wof n x) (wof n y) (wof n z) = wof n (x + y + z + c).
Proof.
  induction n as [|n IH]; intros c x y z Hc; [destruct c as [|[]]; reflexivity|].
  rewrite (N.div2_odd x), (N.div2_odd y), (N.div2_odd z), !wof_S.
  generalize (N.div2 x) (N.div2 y) (N.div2 z) (N.odd x) (N.odd y) (N.odd z). clear x y z. intros x y z a b d.
  set (s := N.b2n a + N.b2n b + N.b2n d + c).
  replace (2 * x + N.b2n a + (2 * y + N.b2n b) + (2 * z + N.b2n d) + c)
    with (2 * (x + y + z + N.div2 s) + N.b2n (N.odd s)) by (pose proof (N.div2_odd s); lia).
  assert (c = 0 \/ c = 1 \/ c = 2) as [-> | [-> | ->]] by lia.
  all: rewrite wof_S, <- IH; destruct a, b, d; try reflexivity; discriminate.
Qed.

Lemma wval_wof n : forall x, x < 2 ^ N.of_nat n -> wval (wof n x) = x.
Proof.
  induction n as [|n IH]; intros x H.
  - cbn in H |- *. lia.
  - rewrite Nat2N.inj_succ, N.pow_succ_r' in H. pose proof (N.div2_odd x) as E.
    cbn [wof]. destruct (N.odd x); cbn [bitc wval N.b2n] in E |- *; rewrite IH by lia.
    + rewrite N.succ_double_spec. lia.
    + rewrite N.double_spec. lia.
Qed.

Definition small x := x < 2 ^ 32.
Lemma small_add32 a b : small (add32 a b).
Proof. unfold add32. change mask32 with (N.ones 32). rewrite N.land_ones. apply N.mod_lt. discriminate. Qed.

(* the word followed by its own low c bits: every rotation by at most c is a suffix of it *)
Definition wdup (c : nat) (p : positive) : positive := wapp p (wtake c p).
Definition dup x := N.lor x (N.shiftl x 32).

Lemma wdup_wof c m x : small x -> (c + m = 32)%nat -> wdup c (wof 32 x) = wof (32 + c) (dup x).
Proof.
  intros Hx E. unfold wdup. rewrite <- E at 2. rewrite wtake_wof, wof_app. f_equal.
  - apply wof_ext. intros i Hi. unfold dup. rewrite N.lor_spec, N.shiftl_spec_low by exact Hi. destruct (N.testbit x i); reflexivity.
  - apply wof_ext. intros i _. unfold dup.
    rewrite N.shiftr_spec', N.lor_spec, N.shiftl_spec_high', N.add_sub, (testbit_small_le x 32 (i + _)) by (trivial; lia).
    reflexivity.
Qed.

Lemma rotr_dup (s : N) x i : s <= 32 -> i < 32 -> N.testbit (rotr s x) i = N.testbit (N.shiftr (dup x) s) i.
Proof.
  intros Hs Hi. unfold rotr, dup. change mask32 with (N.ones 32).
  rewrite N.shiftr_spec', !N.lor_spec, N.shiftr_spec', N.land_spec, N.ones_spec_low, Bool.andb_true_r by exact Hi.
  f_equal. destruct (N.lt_ge_cases (i + s) 32) as [H|H].
  - rewrite !N.shiftl_spec_low by lia. reflexivity.
  - rewrite !N.shiftl_spec_high' by lia. f_equal. lia.
Qed.

Lemma wdrop_dup a c m x :
  small x -> (a <= c)%nat -> (c + m = 32)%nat ->
  wdrop a (wdup c (wof 32 x)) = wof (32 + (c - a)) (N.shiftr (dup x) (N.of_nat a)).
Proof.
  intros Hx Ha E. rewrite (wdup_wof c m) by assumption.
  replace (32 + c)%nat with (a + (32 + (c - a)))%nat by lia. apply wdrop_wof.
Qed.

Definition wshr (s : nat) (p : positive) : positive := wapp (wdrop s p) (wof s 0).
Lemma wshr_wof s m x : (s + m = 32)%nat -> small x -> wshr s (wof 32 x) = wof 32 (N.shiftr x (N.of_nat s)).
Proof.
  intros E Hx. unfold wshr. rewrite <- E at 1. rewrite wdrop_wof. rewrite <- E, Nat.add_comm, wof_app. f_equal.
  apply wof_ext. intros i _. rewrite N.bits_0, !N.shiftr_spec'. symmetry. apply (testbit_small_le x 32); [exact Hx|lia].
Qed.

(* the xor of three rotations, a <= b <= c, and of two rotations and a shift *)
Definition wrot3 (a b c : nat) (p : positive) : positive :=
  let d := wdup c p in wxor3 (wdrop a d) (wdrop b d) (wdrop c d).
Definition wrot2 (a s c : nat) (p : positive) : positive :=
  let d := wdup c p in wxor3 (wdrop a d) (wshr s p) (wdrop c d).

Lemma wrot3_wof a b c m x :
  small x -> (a <= b <= c)%nat -> (c + m = 32)%nat ->
  wrot3 a b c (wof 32 x) = wof 32 (N.lxor (N.lxor (rotr (N.of_nat a) x) (rotr (N.of_nat b) x)) (rotr (N.of_nat c) x)).
Proof.
  intros Hx H E. unfold wrot3. cbv zeta. rewrite !(wdrop_dup _ c m) by (assumption || lia).
  rewrite Nat.sub_diag. apply wxor3_wof. intros i Hi. rewrite !N.lxor_spec, !rotr_dup by lia. reflexivity.
Qed.
Lemma wrot2_wof a s c m m' x :
  small x -> (a <= c)%nat -> (c + m = 32)%nat -> (s + m' = 32)%nat ->
  wrot2 a s c (wof 32 x) = wof 32 (N.lxor (N.lxor (rotr (N.of_nat a) x) (rotr (N.of_nat c) x)) (shr (N.of_nat s) x)).
Proof.
  intros Hx H E E'. unfold wrot2. cbv zeta. rewrite !(wdrop_dup _ c m), (wshr_wof s m') by (assumption || lia).
  rewrite Nat.sub_diag. apply (wxor3_wof 32 (c - a) 0). intros i Hi. rewrite !N.lxor_spec, !rotr_dup by lia.
  rewrite !Bool.xorb_assoc_reverse. f_equal. apply Bool.xorb_comm.
Qed.

Lemma wadd32 x y : wadd (wof 32 x) (wof 32 y) = wof 32 (add32 x y).
Proof.
  rewrite (wadd_wof 32 false), N.add_0_r. apply wof_ext. intros i Hi. unfold add32. change mask32 with (N.ones 32).
  rewrite N.land_spec, N.ones_spec_low, Bool.andb_true_r by exact Hi. reflexivity.
Qed.

Lemma add32_assoc x y z : add32 (add32 x y) z = add32 x (add32 y z).
Proof.
  unfold add32. change mask32 with (N.ones 32).
  rewrite !N.land_ones, N.add_mod_idemp_l, N.add_mod_idemp_r, N.add_assoc by discriminate. reflexivity.
Qed.
Lemma wadd3_32 x y z : wadd3 (wof 32 x) (wof 32 y) (wof 32 z) = wof 32 (add32 (add32 x y) z).
Proof.
  rewrite (wadd3_wof 32 0), N.add_0_r by discriminate. apply wof_ext. intros i Hi.
  unfold add32. change mask32 with (N.ones 32). rewrite !N.land_ones, N.add_mod_idemp_l by discriminate.
  symmetry. apply N.mod_pow2_bits_low, Hi.
Qed.

Definition wbyte (b : byte) (p : positive) : positive :=
  let '(b0, (b1, (b2, (b3, (b4, (b5, (b6, b7))))))) := Byte.to_bits b in
  bitc b0 (bitc b1 (bitc b2 (bitc b3 (bitc b4 (bitc b5 (bitc b6 (bitc b7 p))))))).
Lemma wbyte_wof b k y : wbyte b (wof k y) = wof (8 + k) (y * 256 + n8 b).
Proof.
  transitivity (wapp (wof 8 (n8 b)) (wof k y)); [destruct b; reflexivity|].
  pose proof (n8_lt b) as Hb. rewrite wof_app. f_equal.
  - apply wof_ext. intros i Hi. rewrite <- (N.mod_pow2_bits_low (y * 256 + n8 b) 8) by exact Hi.
    rewrite N.add_comm. change (2 ^ 8) with 256. rewrite N.mod_add, N.mod_small by (trivial; discriminate). reflexivity.
  - rewrite N.shiftr_div_pow2. change (2 ^ N.of_nat 8) with 256.
    rewrite N.div_add_l, N.div_small, N.add_0_r by (trivial; discriminate). reflexivity.
Qed.
End Words.

Local Notation w32 := (wof 32).

(* words_of, expand, round, compress, blocks and sha256 of Lib/Sha256 again, on such words *)
Fixpoint wwords (fuel : nat) (bs : bytes) : list positive :=
  match fuel with
  | O => []
  | S f => match bs with
           | a :: b :: c :: d :: r => wbyte d (wbyte c (wbyte b (wbyte a xH))) :: wwords f r
           | _ => []
           end
  end.

Fixpoint wexpand (n : nat) (w : list positive) : list positive :=
  match n with
  | O => w
  | S k =>
      let x := wadd (wadd3 (wrot2 17 10 19 (nth 1 w (w32 0))) (nth 6 w (w32 0)) (wrot2 7 3 18 (nth 14 w (w32 0))))
                    (nth 15 w (w32 0)) in
      wexpand k (x :: w)
  end.

Definition wround (st : list positive) (kw : positive * positive) : list positive :=
  match st with
  | [a; b; c; d; e; f; g; h] =>
      let t1 := wadd3 (wadd3 h (wrot3 6 11 25 e) (wch e f g)) (fst kw) (snd kw) in
      [wadd3 t1 (wrot3 2 13 22 a) (wmaj a b c); a; b; c; wadd d t1; e; f; g]
  | _ => st
  end.

Definition K256w := Eval vm_compute in map w32 K256.
Definition IV256w := Eval vm_compute in map w32 IV256.

Definition wcompress (st : list positive) (block : bytes) : list positive :=
  let w := rev (wexpand 48 (rev (wwords 16 block))) in
  let st' := fold_left wround (combine K256w w) st in
  map (fun p => wadd (fst p) (snd p)) (combine st st').

Fixpoint wblocks (fuel : nat) (st : list positive) (bs : bytes) : list positive :=
  match fuel with
  | O => st
  | S f => match bs with
           | [] => st
           | _ => wblocks f (wcompress st (firstn 64 bs)) (skipn 64 bs)
           end
  end.

Definition sha256_fast (msg : bytes) : bytes :=
  let p := pad msg in digest_of (map wval (wblocks (S (length p / 64)) IV256w p)).

Lemma wwords_spec f : forall bs, wwords f bs = map w32 (words_of f bs).
Proof.
  induction f as [|f IH]; intro bs; [reflexivity|]. cbn [wwords words_of].
  destruct bs as [|a [|b [|c [|d r]]]]; try reflexivity. cbn [map]. rewrite IH. f_equal.
  change xH with (wof 0 0). rewrite !wbyte_wof. reflexivity.
Qed.
Lemma words_small f : forall bs, Forall small (words_of f bs).
Proof.
  induction f as [|f IH]; intro bs; [constructor|]. cbn [words_of].
  destruct bs as [|a [|b [|c [|d r]]]]; try constructor; [|apply IH].
  pose proof (n8_lt a). pose proof (n8_lt b). pose proof (n8_lt c). pose proof (n8_lt d). unfold small. lia.
Qed.

Lemma small_nth l : Forall small l -> forall i, small (nthN l i).
Proof. induction 1 as [|x l Hx _ IH]; intros [|i]; try reflexivity; [exact Hx|apply IH]. Qed.

Lemma wexpand_spec n : forall w, Forall small w -> wexpand n (map w32 w) = map w32 (expand n w).
Proof.
  induction n as [|n IH]; intros w H; [reflexivity|]. cbn [wexpand expand]. rewrite !map_nth. fold (nthN w).
  rewrite (wrot2_wof 17 10 19 13 22), (wrot2_wof 7 3 18 14 29), wadd3_32, wadd32, add32_assoc by (try apply small_nth; trivial; lia).
  apply (IH (_ :: w)). constructor; [apply small_add32|exact H].
Qed.

Lemma wround_spec st k w : Forall small st -> wround (map w32 st) (w32 k, w32 w) = map w32 (round st (k, w)).
Proof.
  intro H. destruct st as [|a [|b [|c [|d [|e [|f [|g [|h [|]]]]]]]]]; try reflexivity.
  pose proof (Forall_inv H) as Ha.
  pose proof (Forall_inv (Forall_inv_tail (Forall_inv_tail (Forall_inv_tail (Forall_inv_tail H))))) as He.
  cbn [map wround round fst snd].
  rewrite (wrot3_wof 6 11 25 7), (wrot3_wof 2 13 22 10), wch_wof, wmaj_wof, !wadd3_32, wadd32 by (trivial; lia).
  rewrite (add32_assoc (add32 h _)), (add32_assoc _ (BS0 a)). reflexivity.
Qed.
Lemma round_small st kw : Forall small st -> Forall small (round st kw).
Proof.
  intro H. destruct st as [|a [|b [|c [|d [|e [|f [|g [|h [|]]]]]]]]]; try exact H.
  do 8 (apply Forall_cons_iff in H as [? H]). unfold round.
  repeat (constructor; [assumption || apply small_add32|]). constructor.
Qed.

Lemma wfold_spec ks : forall ws st, Forall small st ->
  fold_left wround (combine (map w32 ks) (map w32 ws)) (map w32 st) = map w32 (fold_left round (combine ks ws) st).
Proof.
  induction ks as [|k ks IH]; intros [|w ws] st H; try reflexivity.
  cbn [map combine fold_left]. rewrite wround_spec by exact H. apply IH, round_small, H.
Qed.

Lemma wadd32_all l : forall l',
  map (fun p => wadd (fst p) (snd p)) (combine (map w32 l) (map w32 l')) =
  map w32 (map (fun p => add32 (fst p) (snd p)) (combine l l')).
Proof.
  induction l as [|x l IH]; intros [|y l']; try reflexivity. cbn [map combine fst snd]. rewrite wadd32, IH. reflexivity.
Qed.

Lemma K256w_eq : K256w = map w32 K256. Proof. reflexivity. Qed.
Lemma IV256w_eq : IV256w = map w32 IV256. Proof. reflexivity. Qed.
Lemma IV256_small : Forall small IV256. Proof. repeat constructor. Qed.

Lemma wcompress_spec st block : Forall small st -> wcompress (map w32 st) block = map w32 (compress st block).
Proof.
  intro H. unfold wcompress, compress, schedule. cbv zeta.
  rewrite wwords_spec, <- map_rev, wexpand_spec, <- map_rev, K256w_eq, wfold_spec by (trivial; apply Forall_rev, words_small).
  apply wadd32_all.
Qed.
Lemma compress_small st block : Forall small (compress st block).
Proof. unfold compress. apply Forall_map, Forall_forall. intros p _. apply small_add32. Qed.

Lemma wblocks_spec fuel : forall st bs, Forall small st ->
  wblocks fuel (map w32 st) bs = map w32 (blocks fuel st bs) /\ Forall small (blocks fuel st bs).
Proof.
  induction fuel as [|fuel IH]; intros st bs H; cbn [wblocks blocks]; [auto|]. destruct bs; [auto|].
  rewrite wcompress_spec by exact H. apply IH, compress_small.
Qed.

Lemma wval_all l : Forall small l -> map wval (map w32 l) = l.
Proof. induction 1 as [|x l Hx _ IH]; [reflexivity|]. cbn [map]. rewrite IH, (wval_wof 32) by exact Hx. reflexivity. Qed.

Lemma sha256_fast_eq msg : sha256_fast msg = sha256 msg.
Proof.
  unfold sha256_fast, sha256. cbv zeta. rewrite IV256w_eq.
  destruct (wblocks_spec (S (length (pad msg) / 64)) IV256 (pad msg) IV256_small) as [-> H].
  rewrite wval_all by exact H. reflexivity.
Qed.

Definition midstate256_fast (msg : bytes) : bytes :=
  if (length msg <? 64)%nat then digest_of IV256 else digest_of (map wval (wcompress IV256w (firstn 64 msg))).
Lemma midstate256_fast_eq msg : midstate256_fast msg = midstate256 msg.
Proof.
  unfold midstate256_fast, midstate256.
  rewrite IV256w_eq, wcompress_spec, wval_all by (exact IV256_small || apply compress_small). reflexivity.
Qed.
