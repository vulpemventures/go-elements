(* Lib/Varint.v — Bitcoin CompactSize ("varint"), var-slices, vectors and counted
   lists, following internal/bufferutil (writeVarInt / readVarInt / ReadSlice /
   ReadVarSlice / ReadVector) with their round-trip lemmas. *)
From GE Require Export Lib.Bytes.
Open Scope N_scope.

(* writeVarInt *)
Definition varint (v : N) : bytes :=
  if v <? 0xfd then [b8 v]
  else if v <=? 0xffff then b8 0xfd :: le_enc 2 v
  else if v <=? 0xffffffff then b8 0xfe :: le_enc 4 v
  else b8 0xff :: le_enc 8 v.

(* VarIntSerializeSize *)
Definition varint_size (v : N) : N :=
  if v <? 0xfd then 1 else if v <=? 0xffff then 3 else if v <=? 0xffffffff then 5 else 9.

(* readVarInt, with the canonical-encoding checks *)
Definition p_varint : parser N :=
  fun bs =>
    match bs with
    | [] => None
    | d :: r =>
        let dn := n8 d in
        if dn =? 0xff then
          match p_le 8 r with
          | Some (v, r') => if v <? 0x100000000 then None else Some (v, r')
          | None => None end
        else if dn =? 0xfe then
          match p_le 4 r with
          | Some (v, r') => if v <? 0x10000 then None else Some (v, r')
          | None => None end
        else if dn =? 0xfd then
          match p_le 2 r with
          | Some (v, r') => if v <? 0xfd then None else Some (v, r')
          | None => None end
        else Some (dn, r)
    end.

Lemma varint_length v : lenN (varint v) = varint_size v.
Proof.
  unfold varint, varint_size, lenN.
  destruct (v <? 0xfd); [reflexivity|].
  destruct (v <=? 0xffff); [cbn [length]; rewrite le_enc_length; reflexivity|].
  destruct (v <=? 0xffffffff); cbn [length]; rewrite le_enc_length; reflexivity.
Qed.

Lemma varint_nonempty v : varint v <> [].
Proof.
  unfold varint. destruct (v <? 0xfd); [discriminate|].
  destruct (v <=? 0xffff); [discriminate|]. destruct (v <=? 0xffffffff); discriminate.
Qed.

Lemma p_varint_app v r : v < two64 -> p_varint (varint v ++ r) = Some (v, r).
Proof.
  intro Hv. unfold varint, two64 in *.
  destruct (N.ltb_spec v 0xfd) as [H1|H1].
  - cbn [app p_varint]. rewrite n8_b8_small by lia.
    destruct (N.eqb_spec v 0xff); [lia|]. destruct (N.eqb_spec v 0xfe); [lia|].
    destruct (N.eqb_spec v 0xfd); [lia|]. reflexivity.
  - destruct (N.leb_spec v 0xffff) as [H2|H2].
    + cbn [app p_varint]. rewrite n8_b8_small by reflexivity. cbn [N.eqb Pos.eqb].
      rewrite p_le_app by (cbn; lia).
      destruct (N.ltb_spec v 0xfd); [lia|]. reflexivity.
    + destruct (N.leb_spec v 0xffffffff) as [H3|H3].
      * cbn [app p_varint]. rewrite n8_b8_small by reflexivity. cbn [N.eqb Pos.eqb].
        rewrite p_le_app by (cbn; lia).
        destruct (N.ltb_spec v 0x10000); [lia|]. reflexivity.
      * cbn [app p_varint]. rewrite n8_b8_small by reflexivity. cbn [N.eqb Pos.eqb].
        rewrite p_le_app by (cbn; lia).
        destruct (N.ltb_spec v 0x100000000); [lia|]. reflexivity.
Qed.

Lemma p_varint_inv bs v r : p_varint bs = Some (v, r) -> bs = varint v ++ r /\ v < two64.
Proof.
  unfold p_varint. destruct bs as [|d bs]; [discriminate|].
  pose proof (n8_lt d) as Hd.
  destruct (N.eqb_spec (n8 d) 0xff) as [E|E].
  { destruct (p_le 8 bs) as [[x r']|] eqn:P; [|discriminate].
    destruct (N.ltb_spec x 0x100000000); [discriminate|]. intro H0; inversion H0; subst.
    apply p_le_inv in P as [-> Hb]. cbn in Hb. unfold varint, two64.
    destruct (N.ltb_spec v 0xfd); [lia|]. destruct (N.leb_spec v 0xffff); [lia|].
    destruct (N.leb_spec v 0xffffffff); [lia|]. cbn [app]. rewrite <- E, b8_n8. split; [reflexivity|lia]. }
  destruct (N.eqb_spec (n8 d) 0xfe) as [E1|E1].
  { destruct (p_le 4 bs) as [[x r']|] eqn:P; [|discriminate].
    destruct (N.ltb_spec x 0x10000); [discriminate|]. intro H0; inversion H0; subst.
    apply p_le_inv in P as [-> Hb]. cbn in Hb. unfold varint, two64.
    destruct (N.ltb_spec v 0xfd); [lia|]. destruct (N.leb_spec v 0xffff); [lia|].
    destruct (N.leb_spec v 0xffffffff); [|lia]. cbn [app]. rewrite <- E1, b8_n8. split; [reflexivity|lia]. }
  destruct (N.eqb_spec (n8 d) 0xfd) as [E2|E2].
  { destruct (p_le 2 bs) as [[x r']|] eqn:P; [|discriminate].
    destruct (N.ltb_spec x 0xfd); [discriminate|]. intro H0; inversion H0; subst.
    apply p_le_inv in P as [-> Hb]. cbn in Hb. unfold varint, two64.
    destruct (N.ltb_spec v 0xfd); [lia|]. destruct (N.leb_spec v 0xffff); [|lia].
    cbn [app]. rewrite <- E2, b8_n8. split; [reflexivity|lia]. }
  intro H0; inversion H0; subst. unfold varint, two64.
  destruct (N.ltb_spec (n8 d) 0xfd); [|lia]. cbn [app]. rewrite b8_n8. split; [reflexivity|lia].
Qed.

Lemma varint_inj u v : u < two64 -> v < two64 -> varint u = varint v -> u = v.
Proof.
  intros Hu Hv E.
  pose proof (p_varint_app u [] Hu) as A. pose proof (p_varint_app v [] Hv) as B.
  rewrite E in A. rewrite A in B. congruence.
Qed.

(* WriteVarSlice / ReadVarSlice (bounded ReadSlice) *)
Definition var_slice (x : bytes) : bytes := varint (lenN x) ++ x.
Definition var_slice_size (x : bytes) : N := varint_size (lenN x) + lenN x.

Definition p_var_slice : parser bytes := n <- p_varint ;; takeN n.

Lemma var_slice_length x : lenN (var_slice x) = var_slice_size x.
Proof. unfold var_slice, var_slice_size. rewrite lenN_app, varint_length. reflexivity. Qed.

Lemma p_var_slice_app x r : lenN x < two64 -> p_var_slice (var_slice x ++ r) = Some (x, r).
Proof.
  intro H. unfold p_var_slice, var_slice, bind. rewrite <- app_assoc.
  rewrite p_varint_app by exact H. apply takeN_app.
Qed.

Lemma p_var_slice_inv bs x r : p_var_slice bs = Some (x, r) -> bs = var_slice x ++ r /\ lenN x < two64.
Proof.
  unfold p_var_slice, bind. destruct (p_varint bs) as [[n r']|] eqn:P; [|discriminate].
  intro T. apply p_varint_inv in P as [-> Hn]. apply takeN_inv in T as [-> <-].
  unfold var_slice, lenN. rewrite <- app_assoc. split; [reflexivity | exact Hn].
Qed.

(* counted lists: `for i := 0; i < n; i++ { read element }`.
   fuel is the number of bytes still unread (p_list), whatever the count says, so a hostile count
   costs no more steps than there are bytes.  Running out of fuel gives None, like a failing element.
   That fuel suffices for every list whose elements take at least one byte each is p_list_app_map
   below (through enc_list_length_ge); that more fuel never changes an answer is stable_p_count in
   Proofs/Decoders.v. *)
Fixpoint p_count {A} (p : parser A) (fuel : nat) (n : N) : parser (list A) :=
  fun bs =>
    if n =? 0 then Some ([], bs) else
    match fuel with
    | O => None
    | S f =>
        match p bs with
        | None => None
        | Some (a, r) =>
            match p_count p f (N.pred n) r with
            | None => None
            | Some (l, r') => Some (a :: l, r')
            end
        end
    end.

Definition p_list {A} (p : parser A) (n : N) : parser (list A) :=
  fun bs => p_count p (length bs) n bs.

Definition enc_list {A} (e : A -> bytes) (l : list A) : bytes := concat (map e l).

Lemma enc_list_cons {A} (e : A -> bytes) a l : enc_list e (a :: l) = e a ++ enc_list e l.
Proof. reflexivity. Qed.

Lemma enc_list_app {A} (e : A -> bytes) l1 l2 : enc_list e (l1 ++ l2) = enc_list e l1 ++ enc_list e l2.
Proof. unfold enc_list. rewrite map_app. apply concat_app. Qed.

Lemma enc_list_map {A B} (e : B -> bytes) (f : A -> B) l : enc_list e (map f l) = enc_list (fun a => e (f a)) l.
Proof. unfold enc_list. rewrite map_map. reflexivity. Qed.

Lemma enc_list_ext {A} (e1 e2 : A -> bytes) l : (forall a, In a l -> e1 a = e2 a) -> enc_list e1 l = enc_list e2 l.
Proof. intro H. unfold enc_list. f_equal. apply map_ext_in. exact H. Qed.

Lemma enc_list_nil_inv {A} (e : A -> bytes) l : (forall a, e a <> []) -> enc_list e l = [] -> l = [].
Proof.
  intros Hne H. destruct l as [|a l]; [reflexivity|]. rewrite enc_list_cons in H.
  apply app_eq_nil in H as [H _]. destruct (Hne a H).
Qed.

Lemma lenL_map {A B} (f : A -> B) l : lenL (map f l) = lenL l.
Proof. unfold lenL. rewrite map_length. reflexivity. Qed.

Lemma lenL_cons {A} (a : A) l : lenL (a :: l) = N.succ (lenL l).
Proof. unfold lenL. cbn [length]. lia. Qed.

Lemma enc_list_length_ge {A} (e : A -> bytes) (l : list A) :
  (forall a, In a l -> e a <> []) -> (length l <= length (enc_list e l))%nat.
Proof.
  induction l as [|a l IH]; intro H; [cbn; lia|].
  rewrite enc_list_cons, app_length. cbn [length].
  assert (e a <> []) by (apply H; left; reflexivity).
  destruct (e a); [congruence|]. cbn [length].
  assert (length l <= length (enc_list e l))%nat by (apply IH; intros; apply H; right; assumption). lia.
Qed.

(* the parser may return a projection f of what was encoded (a parser that drops fields) *)
Lemma p_count_app {A B} (e : A -> bytes) (f : A -> B) (p : parser B) (l : list A) :
  (forall a, In a l -> forall r, p (e a ++ r) = Some (f a, r)) ->
  forall fuel r, (length l <= fuel)%nat ->
  p_count p fuel (lenL l) (enc_list e l ++ r) = Some (map f l, r).
Proof.
  induction l as [|a l IH]; intros Hp fuel r Hf.
  - destruct fuel; reflexivity.
  - cbn [length] in Hf. destruct fuel as [|fu]; [lia|].
    rewrite lenL_cons, enc_list_cons, <- app_assoc. cbn [p_count].
    destruct (N.eqb_spec (N.succ (lenL l)) 0); [lia|].
    rewrite Hp, N.pred_succ by (left; reflexivity).
    rewrite IH; [reflexivity | intros; apply Hp; right; assumption | lia].
Qed.

Lemma p_list_app_map {A B} (e : A -> bytes) (f : A -> B) (p : parser B) (l : list A) r :
  (forall a, In a l -> forall r, p (e a ++ r) = Some (f a, r)) ->
  (forall a, In a l -> e a <> []) ->
  p_list p (lenL l) (enc_list e l ++ r) = Some (map f l, r).
Proof.
  intros Hp Hne. unfold p_list. apply p_count_app; [exact Hp|].
  rewrite app_length. pose proof (enc_list_length_ge e l Hne). lia.
Qed.

Lemma p_list_app {A} (e : A -> bytes) (p : parser A) (l : list A) r :
  (forall a, In a l -> forall r, p (e a ++ r) = Some (a, r)) ->
  (forall a, In a l -> e a <> []) ->
  p_list p (lenL l) (enc_list e l ++ r) = Some (l, r).
Proof.
  intros Hp Hne. pose proof (p_list_app_map e (fun a => a) p l r Hp Hne) as H.
  rewrite map_id in H. exact H.
Qed.

(* R: what is known of the parsed elements beforehand, when p is invertible only on those *)
Lemma p_count_inv {A} (e : A -> bytes) (p : parser A) (R Q : A -> Prop) :
  (forall bs a r, p bs = Some (a, r) -> R a -> bs = e a ++ r /\ Q a) ->
  forall fuel n bs l r, p_count p fuel n bs = Some (l, r) -> Forall R l ->
  bs = enc_list e l ++ r /\ lenL l = n /\ Forall Q l.
Proof.
  intros Hp fuel. induction fuel as [|f IH]; intros n bs l r H Rl; cbn [p_count] in H.
  - destruct (N.eqb_spec n 0); [|discriminate]. inversion H; subst. cbn. auto.
  - destruct (N.eqb_spec n 0).
    { inversion H; subst. cbn. auto. }
    destruct (p bs) as [[a r1]|] eqn:P; [|discriminate].
    destruct (p_count p f (N.pred n) r1) as [[l1 r2]|] eqn:C; [|discriminate].
    inversion H; subst. inversion Rl as [|? ? Ra Rl1]; subst.
    apply Hp in P as [-> Qa]; [|exact Ra]. apply IH in C as [-> [Hl Fl]]; [|exact Rl1].
    rewrite enc_list_cons, lenL_cons, <- app_assoc.
    split; [reflexivity|]. split; [lia | constructor; assumption].
Qed.

(* p_list_inv for a parser inverted on the elements satisfying R only (parse_tx on canonical flag
   bytes, in Proofs/BlockCodec.v) *)
Lemma p_list_inv_if {A} (e : A -> bytes) (p : parser A) (R Q : A -> Prop) :
  (forall bs a r, p bs = Some (a, r) -> R a -> bs = e a ++ r /\ Q a) ->
  forall n bs l r, p_list p n bs = Some (l, r) -> Forall R l ->
  bs = enc_list e l ++ r /\ lenL l = n /\ Forall Q l.
Proof. intros Hp n bs l r. unfold p_list. apply (p_count_inv e p R Q Hp). Qed.

Lemma p_list_inv {A} (e : A -> bytes) (p : parser A) (Q : A -> Prop) :
  (forall bs a r, p bs = Some (a, r) -> bs = e a ++ r /\ Q a) ->
  forall n bs l r, p_list p n bs = Some (l, r) ->
  bs = enc_list e l ++ r /\ lenL l = n /\ Forall Q l.
Proof.
  intros Hp n bs l r H. apply (p_list_inv_if e p (fun _ => True) Q) in H; [exact H | auto |].
  apply Forall_forall. trivial.
Qed.

(* WriteVector / ReadVector *)
Definition vector (v : list bytes) : bytes := varint (lenL v) ++ enc_list var_slice v.
Definition vector_size (v : list bytes) : N :=
  varint_size (lenL v) + fold_right (fun x acc => var_slice_size x + acc) 0 v.

Definition p_vector : parser (list bytes) := n <- p_varint ;; p_list p_var_slice n.

Lemma var_slice_nonempty x : var_slice x <> [].
Proof. unfold var_slice. pose proof (varint_nonempty (lenN x)). destruct (varint (lenN x)); [congruence|discriminate]. Qed.

Lemma enc_list_length {A} (e : A -> bytes) (sz : A -> N) (l : list A) :
  (forall a, In a l -> lenN (e a) = sz a) ->
  lenN (enc_list e l) = fold_right (fun x acc => sz x + acc) 0 l.
Proof.
  induction l as [|a l IH]; intro H; [reflexivity|].
  unfold enc_list in *; cbn [map concat fold_right]. rewrite lenN_app, IH, H;
    [reflexivity | left; reflexivity | intros; apply H; right; assumption].
Qed.

Lemma vector_length v : lenN (vector v) = vector_size v.
Proof.
  unfold vector, vector_size. rewrite lenN_app, varint_length. f_equal.
  apply enc_list_length. intros; apply var_slice_length.
Qed.

Definition wf_vector (v : list bytes) : Prop := lenL v < two64 /\ Forall (fun x => lenN x < two64) v.

Lemma p_vector_app v r : wf_vector v -> p_vector (vector v ++ r) = Some (v, r).
Proof.
  intros [Hn Hf]. unfold p_vector, vector, bind. rewrite <- app_assoc.
  rewrite p_varint_app by exact Hn. apply p_list_app.
  - intros a Ha r0. apply p_var_slice_app. rewrite Forall_forall in Hf. apply Hf; exact Ha.
  - intros; apply var_slice_nonempty.
Qed.

Lemma p_vector_inv bs v r : p_vector bs = Some (v, r) -> bs = vector v ++ r /\ wf_vector v.
Proof.
  unfold p_vector, bind. destruct (p_varint bs) as [[n r']|] eqn:P; [|discriminate].
  intro L. apply p_varint_inv in P as [-> Hn].
  apply (p_list_inv var_slice p_var_slice (fun x => lenN x < two64) p_var_slice_inv) in L as [-> [<- F]].
  unfold vector. rewrite <- app_assoc. split; [reflexivity | split; assumption].
Qed.
