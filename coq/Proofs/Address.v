(* Proofs/Address.v — C14: addresses round-trip and agree across their forms.
   The external codecs (btcutil base58check, bech32, bech32.ConvertBits) are Section
   variables; their laws are the one hypothesis `ext_laws`, a conjunction of nine laws, each of which is
   given a name right after `Hypothesis L` (`apply L` picks the conjunct whose conclusion matches).
   blech32 is the model and the theorems of C15; its ConvertBits is proved in Proofs/Regroup.v. *)
From GE Require Import Lib.Bytes Gen.NetConsts Gen.AddressConsts Model.Blech32 Proofs.Blech32 Proofs.Regroup Model.Address.
From Coq Require Import ZifyBool ZifyN ZifyNat.
Import B32 Addr.
Open Scope N_scope.

Definition versions (n : net) : list byte := [n_conf n; n_pkh n; n_sh n].
Definition hrps (n : net) : list bytes := [n_bech32 n; n_blech32 n].

Lemma in_nets n : In n nets -> n = liquid \/ n = regtest \/ n = testnet.
Proof. cbn. intuition. Qed.

Lemma net_by_version_ok n v : In n nets -> In v (versions n) -> net_by_version v = Some n.
Proof.
  intros H V. apply in_nets in H as [-> | [-> | ->]]; cbn in V;
    repeat (destruct V as [<-|V]; [reflexivity|]); contradiction.
Qed.

Lemma net_by_version_in v n : net_by_version v = Some n -> In n nets /\ In v (versions n).
Proof.
  intro H. apply find_some in H as [I B]. split; [exact I|].
  apply orb_true_iff in B as [B|B]; [apply orb_true_iff in B as [B|B]|]; apply beqb_eq in B; rewrite B; cbn; tauto.
Qed.

(* the nine base58 version bytes are pairwise different: the lookup cannot answer two networks *)
Theorem version_bytes_disjoint : forall n1 n2 v, In n1 nets -> In n2 nets ->
  In v (versions n1) -> In v (versions n2) -> n1 = n2.
Proof.
  intros n1 n2 v H1 H2 V1 V2. apply (net_by_version_ok n1 v H1) in V1.
  rewrite (net_by_version_ok n2 v H2 V2) in V1. injection V1 as <-. reflexivity.
Qed.

Theorem versions_within_net_distinct : forall n, In n nets ->
  n_conf n <> n_pkh n /\ n_conf n <> n_sh n /\ n_pkh n <> n_sh n.
Proof. intros n H. apply in_nets in H as [-> | [-> | ->]]; repeat split; vm_compute; discriminate. Qed.

(* a and b differ at a position both have: neither is a prefix of the other *)
Fixpoint differ_within (a b : bytes) : bool :=
  match a, b with
  | x :: a', y :: b' => negb (beqb x y) || differ_within a' b'
  | _, _ => false
  end.
Definition all_hrps : list bytes := flat_map hrps nets.

Lemma hrp_facts h : In h all_hrps ->
  map to_lower h = h /\ (2 <= length h <= 3)%nat /\ forallb char_ok h = true.
Proof.
  intro H. cbn in H. repeat (destruct H as [<-|H]; [repeat split; (reflexivity || (cbn; lia))|]). contradiction.
Qed.

Lemma hrps_in n h : In n nets -> In h (hrps n) -> In h all_hrps.
Proof. intros Hn Hh. apply in_flat_map. exists n. split; assumption. Qed.

Lemma bech_in n : In (n_bech32 n) (hrps n).
Proof. left. reflexivity. Qed.
Lemma blech_in n : In (n_blech32 n) (hrps n).
Proof. right. left. reflexivity. Qed.

Definition no_sep (l : bytes) : Prop := Forall (fun c => beqb c sep = false) l.

Lemma segwit_prefix_canon h r : no_sep r -> segwit_prefix (h ++ sep :: r) = h.
Proof.
  intro NS. unfold segwit_prefix. rewrite (last_index_canon h r NS). apply firstn_app_exact. reflexivity.
Qed.

Lemma is_hrp_canon h r p : no_sep r -> is_hrp (h ++ sep :: r) p = bytes_eqb h p.
Proof. intro NS. unfold is_hrp. rewrite (segwit_prefix_canon h r NS). reflexivity. Qed.

Lemma net_by_hrp_ok n h r : In n nets -> In h (hrps n) -> no_sep r -> net_by_hrp (h ++ sep :: r) = Some n.
Proof.
  intros Hn Hh NS. unfold net_by_hrp, is_hrp. rewrite (segwit_prefix_canon h r NS).
  apply in_nets in Hn as [-> | [-> | ->]]; cbn in Hh; destruct Hh as [<- | [<- | []]]; reflexivity.
Qed.

Lemma net_by_hrp_in s n : net_by_hrp s = Some n -> In n nets /\ In (segwit_prefix s) (hrps n).
Proof.
  intro H. apply find_some in H as [I B]. split; [exact I|]. unfold is_hrp in B.
  apply orb_true_iff in B as [B|B]; apply bytes_eqb_eq in B; rewrite B; cbn; tauto.
Qed.

Lemma hrps_exclusive h n n' : In n nets -> In n' nets -> In h (hrps n) -> In h (hrps n') -> n = n'.
Proof.
  intros H H' I I'. pose proof (net_by_hrp_ok n h [] H I (Forall_nil _)) as E.
  rewrite (net_by_hrp_ok n' h [] H' I' (Forall_nil _)) in E. injection E as <-. reflexivity.
Qed.

Lemma hrps_differ n : In n nets -> bytes_eqb (n_bech32 n) (n_blech32 n) = false.
Proof. intro H. apply in_nets in H as [-> | [-> | ->]]; reflexivity. Qed.

Definition is_pkh_type (pkh : bool) : N := if pkh then P2Pkh else P2Sh.
Definition is_cpkh_type (pkh : bool) : N := if pkh then ConfidentialP2Pkh else ConfidentialP2Sh.
Definition ver_of (n : net) (pkh : bool) : byte := if pkh then n_pkh n else n_sh n.
Definition script_of (pkh : bool) (h : bytes) : option bytes := if pkh then script_p2pkh h else script_p2sh h.

Definition syms_ok (c : bytes) : Prop := Forall (fun b => n8 b < 32) c.

Definition seg_ver (tr : bool) : byte := if tr then x01 else x00.
Definition seg_ok (tr : bool) (prog : bytes) : Prop :=
  if tr then length prog = 32%nat else (length prog = 20%nat \/ length prog = 32%nat).
Definition seg_type (tr : bool) (prog : bytes) : N := if tr then P2TR else if lenb prog 20 then P2Wpkh else P2Wsh.
Definition cseg_type (tr : bool) (prog : bytes) : N :=
  if tr then ConfidentialP2TR else if lenb prog 20 then ConfidentialP2Wpkh else ConfidentialP2Wsh.

Lemma ver_in n pkh : In (ver_of n pkh) (versions n).
Proof. destruct pkh; cbn; tauto. Qed.

Lemma beqb_neq a b : a <> b -> beqb a b = false.
Proof. intro H. destruct (beqb a b) eqn:E; [apply beqb_eq in E; contradiction | reflexivity]. Qed.

(* the inner version byte is not the confidential one, and it selects its own kind *)
Lemma pick_ver n pkh tp ts : In n nets ->
  beqb (ver_of n pkh) (n_conf n) = false /\
  pick_type (beqb (ver_of n pkh) (n_pkh n)) (beqb (ver_of n pkh) (n_sh n)) tp ts = Ok (if pkh then tp else ts).
Proof.
  intro H. destruct (versions_within_net_distinct n H) as (D1 & D2 & D3).
  destruct pkh; cbn [ver_of]; rewrite beqb_refl, !beqb_neq by congruence; split; reflexivity.
Qed.

Lemma seg_ok_length tr prog : seg_ok tr prog -> (length prog = 20 \/ length prog = 32)%nat.
Proof. destruct tr; cbn [seg_ok]; tauto. Qed.

Lemma seg_ver_sym tr c : syms_ok c -> syms_ok (seg_ver tr :: c).
Proof. intro H. constructor; [destruct tr; reflexivity | exact H]. Qed.

Lemma seg_len_checks tr prog : seg_ok tr prog ->
  ((length prog <? 2) || (40 <? length prog))%nat = false /\
  ((n8 (seg_ver tr) =? 0) && negb (lenb prog 20) && negb (lenb prog 32)) = false /\
  decode_segwit_type P2Wpkh P2Wsh P2TR (seg_ver tr) prog = Ok (seg_type tr prog) /\
  decode_segwit_type ConfidentialP2Wpkh ConfidentialP2Wsh ConfidentialP2TR (seg_ver tr) prog = Ok (cseg_type tr prog).
Proof.
  unfold seg_ok, seg_type, cseg_type, decode_segwit_type, lenb. destruct tr; cbn [seg_ver].
  - intros ->. repeat split; reflexivity.
  - intros [-> | ->]; repeat split; reflexivity.
Qed.

(* the same two length tests on blinding key ++ program *)
Lemma conf_len_checks tr key prog : seg_ok tr prog -> length key = 33%nat ->
  ((length (key ++ prog) <? 2 + 33) || (40 + 33 <? length (key ++ prog)))%nat = false /\
  ((n8 (seg_ver tr) =? 0) && negb (lenb (key ++ prog) 53) && negb (lenb (key ++ prog) 65)) = false.
Proof.
  intros Hp Lk. unfold lenb. rewrite app_length, Lk.
  destruct tr; cbn [seg_ok seg_ver] in *; [rewrite Hp | destruct Hp as [-> | ->]]; split; reflexivity.
Qed.

Lemma add_data_long d : (2 <= length d <= 75)%nat -> add_data d = Some (b8 (N.of_nat (length d)) :: d).
Proof.
  intro H. destruct d as [|a [|b r]]; cbn [length] in H; try lia.
  unfold add_data. destruct (Nat.leb_spec (length (a :: b :: r)) 75) as [_|Q]; [reflexivity | cbn [length] in Q; lia].
Qed.

Lemma seg_script tr prog : seg_ok tr prog -> exists scr, script_segwit (seg_ver tr) prog = Some scr.
Proof.
  intro H. unfold script_segwit. rewrite add_data_long; [eexists; reflexivity|].
  apply seg_ok_length in H. lia.
Qed.

Lemma key_split key (d : bytes) : length key = 33%nat -> firstn 33 (key ++ d) = key /\ skipn 33 (key ++ d) = d.
Proof.
  intro L. split; [apply firstn_app_exact | apply skipn_app_exact]; exact L.
Qed.

(* prefix | key | hash *)
Lemma conf_layout (v : byte) key d : length key = 33%nat ->
  firstn 33 (skipn 1 ([v] ++ key ++ d)) = key /\ skipn 34 ([v] ++ key ++ d) = d.
Proof. exact (key_split key d). Qed.

Lemma split_54 (d0 : byte) r : [d0] ++ firstn 33 (skipn 1 (d0 :: r)) ++ skipn 34 (d0 :: r) = d0 :: r.
Proof. cbn [skipn app]. change (skipn 34 (d0 :: r)) with (skipn 33 r). rewrite firstn_skipn. reflexivity. Qed.

Lemma encode_shape hrp data e s : encode hrp data e = Some s -> exists cs, s = hrp ++ sep :: cs /\ no_sep cs.
Proof.
  unfold encode. destruct (to_chars (data ++ create_checksum hrp data e)) as [cs|] eqn:E; [|discriminate].
  intro H; inversion H. exists cs. split; [reflexivity|]. apply to_chars_facts in E. tauto.
Qed.

(* what FromBlech32 accepts, test by test *)
Lemma from_blech32_ok s p v k pr : from_blech32 s = Ok (p, v, k, pr) <->
  exists one rest rg, last_index sep s = Some one /\ (one <=? 1)%nat = false /\ decode s = DOk p (v :: rest) /\
    (16 <? n8 v) = false /\ convert_bits rest 5 8 false = Some rg /\
    ((length rg <? 2 + 33) || (40 + 33 <? length rg))%nat = false /\
    ((n8 v =? 0) && negb (lenb rg 53) && negb (lenb rg 65)) = false /\
    k = firstn 33 rg /\ pr = skipn 33 rg.
Proof.
  unfold from_blech32. split.
  - destruct (last_index sep s) as [one|]; [|discriminate]. destruct (one <=? 1)%nat eqn:O1; [discriminate|].
    destruct (decode s) as [h [|v' rest]| |]; try discriminate.
    destruct (16 <? n8 v') eqn:V16; [discriminate|].
    destruct (convert_bits rest 5 8 false) as [rg|] eqn:Cb; [|discriminate].
    destruct (_ || _)%bool eqn:B1; [discriminate|]. destruct (_ && _)%bool eqn:B2; [discriminate|].
    intro H. injection H as <- <- <- <-. exists one, rest, rg. repeat split; assumption || reflexivity.
  - intros (one & rest & rg & -> & -> & -> & -> & -> & -> & -> & -> & ->). reflexivity.
Qed.

(* btcutil base58check, bech32 and bech32.ConvertBits *)
Definition ext_laws (b58enc : bytes -> byte -> bytes) (b58dec : bytes -> option (bytes * byte))
  (bech_dec : bytes -> option (bytes * bytes * bool)) (bech_enc : bool -> bytes -> bytes -> option bytes)
  (bcb : bytes -> N -> N -> bool -> option bytes) : Prop :=
  (forall d v, b58dec (b58enc d v) = Some (d, v)) /\
  (forall s d v, b58dec s = Some (d, v) -> b58enc d v = s) /\
  (forall n v d, In n nets -> In v (versions n) -> (length d = 20 \/ length d = 54)%nat ->
     net_by_hrp (b58enc d v) = None) /\
  (forall m hrp data s, bech_enc m hrp data = Some s ->
     exists cs, s = map to_lower hrp ++ sep :: cs /\ Forall (fun c => beqb c sep = false) cs) /\
  (forall m hrp data, syms_ok data -> exists s, bech_enc m hrp data = Some s) /\
  (forall m hrp data s, In hrp all_hrps -> (length data <= 70)%nat ->
     bech_enc m hrp data = Some s -> bech_dec s = Some (hrp, data, m)) /\
  (forall d, exists c, bcb d 8 5 true = Some c /\ syms_ok c /\ bcb c 5 8 false = Some d /\ (length c <= 2 * length d)%nat) /\
  (forall s h d m, bech_dec s = Some (h, d, m) -> bech_enc m h d = Some (map to_lower s) /\ syms_ok d) /\
  (forall c d, syms_ok c -> bcb c 5 8 false = Some d -> bcb d 8 5 true = Some c).

(* the two regrouping laws of the repository's own blech32.ConvertBits, as propositions.  Both hold
   (regroup_roundtrip, regroup_back in Proofs/Regroup.v) and the theorems of this file use those directly;
   Props/C14.v also states three theorems with these propositions as a premise. *)
Definition regroup_law : Prop :=
  forall d, exists c, convert_bits d 8 5 true = Some c /\ syms_ok c /\
                      convert_bits c 5 8 false = Some d /\ (length c <= 2 * length d)%nat.
Definition regroup_back_law : Prop :=
  forall c d, syms_ok c -> convert_bits c 5 8 false = Some d -> convert_bits d 8 5 true = Some c.

Section Codecs.
Variable b58enc : bytes -> byte -> bytes.
Variable b58dec : bytes -> option (bytes * byte).
Variable bech_dec : bytes -> option (bytes * bytes * bool).
Variable bech_enc : bool -> bytes -> bytes -> option bytes.
Variable bcb : bytes -> N -> N -> bool -> option bytes.
Hypothesis L : ext_laws b58enc b58dec bech_dec bech_enc bcb.

Lemma b58_dec_enc d v : b58dec (b58enc d v) = Some (d, v).
Proof. apply L. Qed.
Lemma b58_enc_dec s d v : b58dec s = Some (d, v) -> b58enc d v = s.
Proof. apply L. Qed.
(* base58check strings of the nine versions with 20- or 54-byte payloads never begin with a segwit prefix *)
Lemma b58_not_hrp n v d : In n nets -> In v (versions n) -> (length d = 20 \/ length d = 54)%nat ->
  net_by_hrp (b58enc d v) = None.
Proof. apply L. Qed.
(* Encode / EncodeM: lower(hrp) ++ "1" ++ alphabet characters; total on 5-bit data *)
Lemma bech_shape m hrp data s : bech_enc m hrp data = Some s ->
  exists cs, s = map to_lower hrp ++ sep :: cs /\ no_sep cs.
Proof. apply L. Qed.
Lemma bech_total m hrp data : syms_ok data -> exists s, bech_enc m hrp data = Some s.
Proof. apply L. Qed.
(* DecodeGeneric after Encode / EncodeM (within the 90-character limit) reports hrp, data and the constant used *)
Lemma bech_dec_enc m hrp data s : In hrp all_hrps -> (length data <= 70)%nat ->
  bech_enc m hrp data = Some s -> bech_dec s = Some (hrp, data, m).
Proof. apply L. Qed.
(* DecodeGeneric then Encode/EncodeM with the constant that matched gives the lower-case spelling back *)
Lemma bech_enc_dec s h d m : bech_dec s = Some (h, d, m) -> bech_enc m h d = Some (map to_lower s) /\ syms_ok d.
Proof. apply L. Qed.
(* bech32.ConvertBits: 8 -> 5 with padding, then 5 -> 8 without, is the identity *)
Lemma bcb_roundtrip d : exists c, bcb d 8 5 true = Some c /\ syms_ok c /\
  bcb c 5 8 false = Some d /\ (length c <= 2 * length d)%nat.
Proof. apply L. Qed.
(* bech32.ConvertBits: 5 -> 8 without padding accepts only what 8 -> 5 with padding produces *)
Lemma bcb_back c d : syms_ok c -> bcb c 5 8 false = Some d -> bcb d 8 5 true = Some c.
Proof. apply L. Qed.

Notation from_base58 := (from_base58 b58dec).
Notation to_base58 := (to_base58 b58enc).
Notation from_base58_conf := (from_base58_conf b58dec).
Notation to_base58_conf := (to_base58_conf b58enc).
Notation network_for_address := (network_for_address b58dec).
Notation decode_type := (decode_type b58dec bech_dec bcb).
Notation to_output_script := (to_output_script b58dec bech_dec bcb).
Notation is_confidential := (is_confidential b58dec bech_dec bcb).
Notation from_bech32 := (from_bech32 bech_dec bcb).
Notation to_bech32 := (to_bech32 bech_enc bcb).
Notation from_confidential := (from_confidential b58enc b58dec bech_dec bech_enc bcb).
Notation to_confidential := (to_confidential b58enc b58dec bech_dec bcb).

Theorem from_to_base58 v d : length d = 20%nat -> from_base58 (to_base58 v d) = Ok (v, d).
Proof. intro Ld. unfold Addr.from_base58, Addr.to_base58, lenb. rewrite b58_dec_enc, Ld. reflexivity. Qed.

Theorem to_from_base58 s v d : from_base58 s = Ok (v, d) -> to_base58 v d = s.
Proof.
  unfold Addr.from_base58, Addr.to_base58. destruct (b58dec s) as [[d' v']|] eqn:E; [|discriminate].
  destruct (lenb d' 20); [|discriminate]. intro H; inversion H; subst. apply b58_enc_dec. exact E.
Qed.

Theorem from_to_base58_conf cv v key d : length key = 33%nat -> length d = 20%nat ->
  from_base58_conf (to_base58_conf cv v key d) = Ok (cv, v, key, d).
Proof.
  intros Lk Ld. unfold Addr.from_base58_conf, Addr.to_base58_conf. rewrite b58_dec_enc.
  destruct (conf_layout v key d Lk) as [E1 E2]. rewrite E1, E2.
  unfold lenb. rewrite !app_length, Lk, Ld. reflexivity.
Qed.

Theorem to_from_base58_conf s cv v key d : from_base58_conf s = Ok (cv, v, key, d) -> to_base58_conf cv v key d = s.
Proof.
  unfold Addr.from_base58_conf, Addr.to_base58_conf. destruct (b58dec s) as [[dd v']|] eqn:E; [|discriminate].
  destruct (lenb dd 54); [|discriminate]. destruct dd as [|d0 r]; [discriminate|].
  (* `injection` and `inversion` would unfold `firstn 33`; `congruence` compares the components as they are *)
  intro H. apply b58_enc_dec in E. rewrite <- (split_54 d0 r) in E. congruence.
Qed.

(* a base58 string of network n: its network, and DecodeType and ToConfidential take the base58 branch *)
Lemma base58_shape n v d : In n nets -> In v (versions n) -> (length d = 20 \/ length d = 54)%nat ->
  let s := b58enc d v in
  network_for_address s = Ok n /\ is_hrp s (n_bech32 n) = false /\ decode_type s = decode_base58 b58dec s n.
Proof.
  intros Hn Hv Hd s. pose proof (b58_not_hrp n v d Hn Hv Hd) as NH. fold s in NH.
  assert (NW : network_for_address s = Ok n).
  { unfold Addr.network_for_address. rewrite NH. unfold s. rewrite b58_dec_enc, (net_by_version_ok n v Hn Hv). reflexivity. }
  pose proof (find_none _ _ NH n Hn) as Q. cbv beta in Q. apply orb_false_iff in Q as [P1 P2].
  split; [exact NW|]. split; [exact P1|]. unfold Addr.decode_type. rewrite NW, P1, P2. reflexivity.
Qed.

Theorem type_of_base58 n pkh d : In n nets -> length d = 20%nat ->
  let s := to_base58 (ver_of n pkh) d in
  network_for_address s = Ok n /\ decode_type s = Ok (is_pkh_type pkh) /\
  is_confidential s = Ok false /\ to_output_script s = of_opt (script_of pkh d).
Proof.
  intros Hn Ld s. subst s. unfold Addr.to_base58.
  destruct (base58_shape n _ d Hn (ver_in n pkh) (or_introl Ld)) as (NW & _ & DB).
  destruct (pick_ver n pkh P2Pkh P2Sh Hn) as [NC PT].
  assert (DT : decode_type (b58enc d (ver_of n pkh)) = Ok (is_pkh_type pkh)).
  { rewrite DB. unfold decode_base58, lenb. rewrite b58_dec_enc, NC, Ld. exact PT. }
  split; [exact NW|]. split; [exact DT|]. split.
  - unfold Addr.is_confidential. rewrite DT. destruct pkh; reflexivity.
  - unfold Addr.to_output_script. rewrite DT, b58_dec_enc. destruct pkh; reflexivity.
Qed.

Theorem type_of_base58_conf n pkh key d : In n nets -> length key = 33%nat -> length d = 20%nat ->
  let s := to_base58_conf (n_conf n) (ver_of n pkh) key d in
  network_for_address s = Ok n /\ decode_type s = Ok (is_cpkh_type pkh) /\
  is_confidential s = Ok true /\ to_output_script s = of_opt (script_of pkh d).
Proof.
  intros Hn Lk Ld s. subst s. unfold Addr.to_base58_conf. set (dd := [ver_of n pkh] ++ key ++ d).
  assert (L54 : length dd = 54%nat) by (unfold dd; rewrite !app_length, Lk, Ld; reflexivity).
  assert (SK : skipn 34 dd = d) by (apply (conf_layout (ver_of n pkh) key d Lk)).
  destruct (base58_shape n (n_conf n) dd Hn ltac:(cbn; tauto) (or_intror L54)) as (NW & _ & DB).
  destruct (pick_ver n pkh ConfidentialP2Pkh ConfidentialP2Sh Hn) as [_ PT].
  assert (DT : decode_type (b58enc dd (n_conf n)) = Ok (is_cpkh_type pkh)).
  { rewrite DB. unfold decode_base58, lenb. rewrite b58_dec_enc, beqb_refl, L54, SK, Ld. exact PT. }
  split; [exact NW|]. split; [exact DT|]. split.
  - unfold Addr.is_confidential. rewrite DT. destruct pkh; reflexivity.
  - unfold Addr.to_output_script. rewrite DT, b58_dec_enc, L54, SK. destruct pkh; reflexivity.
Qed.

Lemma bech32_shape n cs : In n nets -> no_sep cs ->
  let s := n_bech32 n ++ sep :: cs in
  network_for_address s = Ok n /\ is_hrp s (n_bech32 n) = true /\ decode_type s = decode_bech32 bech_dec bcb s.
Proof.
  intros Hn NS s.
  assert (NW : network_for_address s = Ok n).
  { unfold Addr.network_for_address, s. rewrite (net_by_hrp_ok n _ cs Hn (bech_in n) NS). reflexivity. }
  assert (H1 : is_hrp s (n_bech32 n) = true) by (unfold s; rewrite (is_hrp_canon _ cs _ NS); apply bytes_eqb_refl).
  assert (H2 : is_hrp s (n_blech32 n) = false) by (unfold s; rewrite (is_hrp_canon _ cs _ NS); apply (hrps_differ n Hn)).
  split; [exact NW|]. split; [exact H1|]. unfold Addr.decode_type. rewrite NW, H2, H1. reflexivity.
Qed.

Lemma blech32_shape n cs : In n nets -> no_sep cs ->
  let s := n_blech32 n ++ sep :: cs in
  network_for_address s = Ok n /\ decode_type s = decode_blech32 s.
Proof.
  intros Hn NS s.
  assert (NW : network_for_address s = Ok n).
  { unfold Addr.network_for_address, s. rewrite (net_by_hrp_ok n _ cs Hn (blech_in n) NS). reflexivity. }
  split; [exact NW|]. unfold Addr.decode_type. rewrite NW. unfold s. rewrite (is_hrp_canon _ cs _ NS), bytes_eqb_refl. reflexivity.
Qed.

(* a witness program regroups into data that Encode and DecodeGeneric take *)
Lemma seg_regroup tr prog : seg_ok tr prog -> exists c, bcb prog 8 5 true = Some c /\
  syms_ok (seg_ver tr :: c) /\ bcb c 5 8 false = Some prog /\ (length (seg_ver tr :: c) <= 70)%nat.
Proof.
  intro Hp. destruct (bcb_roundtrip prog) as (c & C1 & C2 & C3 & C4). exists c.
  split; [exact C1|]. split; [exact (seg_ver_sym tr c C2)|]. split; [exact C3|].
  apply seg_ok_length in Hp. cbn [length]. lia.
Qed.

(* what FromBech32 accepts, test by test *)
Lemma from_bech32_ok s p v prog : from_bech32 s = Ok (p, v, prog) <->
  exists one rest m, last_index sep s = Some one /\ (one <=? 1)%nat = false /\
    bech_dec s = Some (p, v :: rest, m) /\ (16 <? n8 v) = false /\ Bool.eqb (n8 v =? 0) (negb m) = true /\
    bcb rest 5 8 false = Some prog /\ ((length prog <? 2) || (40 <? length prog))%nat = false /\
    ((n8 v =? 0) && negb (lenb prog 20) && negb (lenb prog 32)) = false.
Proof.
  unfold Addr.from_bech32. split.
  - destruct (last_index sep s) as [one|]; [|discriminate]. destruct (one <=? 1)%nat eqn:O1; [discriminate|].
    destruct (bech_dec s) as [[[h [|v' rest]] m]|]; try discriminate.
    destruct (16 <? n8 v') eqn:V16; [discriminate|]. destruct (Bool.eqb _ _) eqn:Ck; [|discriminate].
    destruct (bcb rest 5 8 false) as [rg|] eqn:Cb; [|discriminate].
    destruct (_ || _)%bool eqn:B1; [discriminate|]. destruct (_ && _)%bool eqn:B2; [discriminate|].
    intro H. injection H as <- <- <-. exists one, rest, m. repeat split; assumption || reflexivity.
  - intros (one & rest & m & -> & -> & -> & -> & -> & -> & -> & ->). reflexivity.
Qed.

(* a string that Encode / EncodeM produced under the bech32 prefix of network n *)
Lemma bech_enc_shape n m data s : In n nets -> bech_enc m (n_bech32 n) data = Some s ->
  exists cs, s = n_bech32 n ++ sep :: cs /\ no_sep cs.
Proof.
  intros Hn Es. destruct (bech_shape _ _ _ _ Es) as (cs & Sh & NS).
  destruct (hrp_facts _ (hrps_in n _ Hn (bech_in n))) as (LO & _). rewrite LO in Sh. exists cs. split; assumption.
Qed.

Lemma bech_enc_string n m data s : In n nets -> (length data <= 70)%nat -> bech_enc m (n_bech32 n) data = Some s ->
  network_for_address s = Ok n /\ decode_type s = decode_bech32 bech_dec bcb s /\
  exists one, last_index sep s = Some one /\ (one <=? 1)%nat = false /\ bech_dec s = Some (n_bech32 n, data, m).
Proof.
  intros Hn Len Es. pose proof (hrps_in n _ Hn (bech_in n)) as I.
  pose proof (bech_dec_enc _ _ _ _ I Len Es) as De. destruct (bech_enc_shape n _ _ _ Hn Es) as (cs & -> & NS).
  destruct (bech32_shape n cs Hn NS) as (NW & _ & DT). split; [exact NW|]. split; [exact DT|].
  exists (length (n_bech32 n)). split; [apply last_index_canon; exact NS|]. split; [|exact De].
  apply Nat.leb_gt. apply (hrp_facts _ I).
Qed.

Lemma to_bech32_seg p tr prog : to_bech32 p (seg_ver tr) prog =
  match bcb prog 8 5 true with
  | None => Err
  | Some c => match bech_enc tr p (seg_ver tr :: c) with Some s => Ok s | None => Err end
  end.
Proof. destruct tr; reflexivity. Qed.

Theorem bech32_forms n tr prog : In n nets -> seg_ok tr prog ->
  exists s, to_bech32 (n_bech32 n) (seg_ver tr) prog = Ok s /\
    from_bech32 s = Ok (n_bech32 n, seg_ver tr, prog) /\
    network_for_address s = Ok n /\ decode_type s = Ok (seg_type tr prog) /\
    is_confidential s = Ok false /\
    to_output_script s = of_opt (script_segwit (seg_ver tr) prog).
Proof.
  intros Hn Hp. destruct (seg_regroup tr prog Hp) as (c & C1 & Sy & C3 & Len).
  destruct (bech_total tr (n_bech32 n) _ Sy) as [s Es].
  destruct (bech_enc_string n tr _ s Hn Len Es) as (NW & DB & one & LI & O1 & De).
  destruct (seg_len_checks tr prog Hp) as (K1 & K2 & K3 & _).
  assert (FB : from_bech32 s = Ok (n_bech32 n, seg_ver tr, prog)).
  { apply from_bech32_ok. exists one, c, tr. repeat split; try assumption; destruct tr; reflexivity. }
  assert (DT : decode_type s = Ok (seg_type tr prog)) by (rewrite DB; unfold decode_bech32; rewrite FB; exact K3).
  exists s. split; [rewrite to_bech32_seg, C1, Es; reflexivity|]. split; [exact FB|]. split; [exact NW|].
  split; [exact DT|]. split.
  - unfold Addr.is_confidential. rewrite DT. unfold seg_type. destruct tr; [|destruct (lenb prog 20)]; reflexivity.
  - unfold Addr.to_output_script. rewrite DT, FB. unfold seg_type. destruct tr; [|destruct (lenb prog 20)]; reflexivity.
Qed.

(* the checksum constant is bound to the witness version (fix e7c9f3c) *)
Theorem other_constant_rejected n tr prog s' : In n nets -> seg_ok tr prog ->
  (forall c, bcb prog 8 5 true = Some c -> bech_enc (negb tr) (n_bech32 n) (seg_ver tr :: c) = Some s') ->
  from_bech32 s' = Err /\ decode_type s' = Err.
Proof.
  intros Hn Hp Hs. destruct (seg_regroup tr prog Hp) as (c & C1 & _ & _ & Len). specialize (Hs c C1).
  destruct (bech_enc_string n _ _ s' Hn Len Hs) as (_ & DB & one & LI & O1 & De).
  assert (FB : from_bech32 s' = Err) by (unfold Addr.from_bech32; rewrite LI, O1, De; destruct tr; reflexivity).
  split; [exact FB|]. rewrite DB. unfold decode_bech32. rewrite FB. reflexivity.
Qed.

(* whatever FromBech32 accepts with version 0 or 1 re-encodes to its lower-case spelling *)
Theorem bech32_recognised_reencodes s p v prog : from_bech32 s = Ok (p, v, prog) -> n8 v <= 1 ->
  to_bech32 p v prog = Ok (map to_lower s).
Proof.
  intros F Hv. apply from_bech32_ok in F as (one & rest & m & _ & _ & De & _ & Ck & Cb & _).
  destruct (bech_enc_dec _ _ _ _ De) as [En Sy]. apply Forall_inv_tail in Sy.
  unfold Addr.to_bech32. rewrite (bcb_back _ _ Sy Cb). apply Bool.eqb_prop in Ck.
  destruct (N.eqb_spec (n8 v) 0) as [E0|E0]; destruct m; try discriminate Ck; [rewrite En; reflexivity|].
  replace (n8 v =? 1) with true by (symmetry; apply N.eqb_eq; lia). rewrite En. reflexivity.
Qed.

Lemma to_bech32_ok p v prog s : to_bech32 p v prog = Ok s -> exists m c, bech_enc m p (v :: c) = Some s.
Proof.
  unfold Addr.to_bech32. destruct (bcb prog 8 5 true) as [c|]; [|discriminate].
  destruct (n8 v =? 0); [exists false, c | destruct (n8 v =? 1); [exists true, c | discriminate]];
    destruct (bech_enc _ p (v :: c)); congruence.
Qed.

Theorem blech32_forms n tr key prog : In n nets -> seg_ok tr prog -> length key = 33%nat ->
  exists s, to_blech32 (n_blech32 n) (seg_ver tr) key prog = Ok s /\
    from_blech32 s = Ok (n_blech32 n, seg_ver tr, key, prog) /\
    network_for_address s = Ok n /\ decode_type s = Ok (cseg_type tr prog) /\
    is_confidential s = Ok true /\
    to_output_script s = of_opt (script_segwit (seg_ver tr) prog).
Proof.
  intros Hn Hp Lk. destruct (hrp_facts _ (hrps_in n _ Hn (blech_in n))) as (LO & L2 & CO).
  destruct (regroup_roundtrip (key ++ prog)) as (c & C1 & C2 & C3 & C4).
  set (v := seg_ver tr) in *.
  assert (Ev : exists e, encoding_of_version v = Some e) by (destruct tr; eexists; reflexivity).
  destruct Ev as [e Ev].
  assert (P : pre (n_blech32 n) (length (v :: c) + 12) = true).
  { unfold pre. rewrite CO. rewrite app_length, Lk in C4. apply seg_ok_length in Hp. cbn [length]. lia. }
  destruct (encode_decode (n_blech32 n) v c e LO P (seg_ver_sym tr c C2) Ev) as (s & En & De).
  destruct (encode_shape _ _ _ _ En) as (cs & Sh & NS).
  destruct (conf_len_checks tr key prog Hp Lk) as [B1 B2].
  assert (FB : from_blech32 s = Ok (n_blech32 n, v, firstn 33 (key ++ prog), skipn 33 (key ++ prog))).
  { apply from_blech32_ok. exists (length (n_blech32 n)), c, (key ++ prog).
    repeat split; try assumption; [rewrite Sh; apply last_index_canon; exact NS | apply Nat.leb_gt; lia | destruct tr; reflexivity]. }
  destruct (key_split key prog Lk) as [K1 K2]. rewrite K1, K2 in FB.
  assert (TB : to_blech32 (n_blech32 n) v key prog = Ok s).
  { unfold Addr.to_blech32. rewrite C1, Ev, En, FB, beqb_refl, bytes_eqb_refl. reflexivity. }
  destruct (blech32_shape n cs Hn NS) as (NW & DB). rewrite <- Sh in NW, DB.
  destruct (seg_len_checks tr prog Hp) as (_ & _ & _ & K4).
  assert (DT : decode_type s = Ok (cseg_type tr prog)) by (rewrite DB; unfold decode_blech32; rewrite FB; exact K4).
  exists s. split; [exact TB|]. split; [exact FB|]. split; [exact NW|]. split; [exact DT|]. split.
  - unfold Addr.is_confidential. rewrite DT. unfold cseg_type. destruct tr; [|destruct (lenb prog 20)]; reflexivity.
  - unfold Addr.to_output_script. rewrite DT, FB. unfold cseg_type. destruct tr; [|destruct (lenb prog 20)]; reflexivity.
Qed.

Theorem conf_unconf_base58 n pkh key d scr : In n nets -> length key = 33%nat -> length d = 20%nat ->
  script_of pkh d = Some scr ->
  let u := to_base58 (ver_of n pkh) d in
  let c := to_base58_conf (n_conf n) (ver_of n pkh) key d in
  to_confidential u key = Ok c /\ from_confidential c = Ok (u, key, scr).
Proof.
  intros Hn Lk Ld Hs u c.
  destruct (type_of_base58 n pkh d Hn Ld) as (NWu & _ & _ & OSu).
  destruct (type_of_base58_conf n pkh key d Hn Lk Ld) as (NWc & DTc & _ & _).
  fold u in NWu, OSu. fold c in NWc, DTc. split.
  - unfold Addr.to_confidential. rewrite NWu.
    destruct (base58_shape n _ d Hn (ver_in n pkh) (or_introl Ld)) as (_ & P1 & _).
    change (is_hrp u (n_bech32 n) = false) in P1. rewrite P1.
    unfold u. rewrite from_to_base58 by exact Ld. reflexivity.
  - unfold Addr.from_confidential. rewrite NWc, DTc.
    replace ((is_cpkh_type pkh =? ConfidentialP2Pkh) || (is_cpkh_type pkh =? ConfidentialP2Sh)) with true by (destruct pkh; reflexivity).
    unfold c. rewrite from_to_base58_conf by assumption. fold u. rewrite OSu, Hs. reflexivity.
Qed.

Theorem conf_unconf_segwit n tr key prog : In n nets -> seg_ok tr prog -> length key = 33%nat ->
  exists u c scr, to_bech32 (n_bech32 n) (seg_ver tr) prog = Ok u /\
    to_blech32 (n_blech32 n) (seg_ver tr) key prog = Ok c /\
    script_segwit (seg_ver tr) prog = Some scr /\
    to_output_script u = Ok scr /\ to_output_script c = Ok scr /\
    to_confidential u key = Ok c /\ from_confidential c = Ok (u, key, scr).
Proof.
  intros Hn Hp Lk.
  destruct (bech32_forms n tr prog Hn Hp) as (u & TU & FU & NWu & _ & _ & OSu).
  destruct (blech32_forms n tr key prog Hn Hp Lk) as (c & TC & FC & NWc & DTc & _ & OSc).
  destruct (seg_script tr prog Hp) as [scr Hs]. rewrite Hs in OSu, OSc.
  exists u, c, scr. split; [exact TU|]. split; [exact TC|]. split; [exact Hs|]. split; [exact OSu|]. split; [exact OSc|]. split.
  - unfold Addr.to_confidential. rewrite NWu, FU. destruct (to_bech32_ok _ _ _ _ TU) as (m & c0 & Es).
    destruct (bech_enc_shape n _ _ _ Hn Es) as (cs & -> & NS).
    destruct (bech32_shape n cs Hn NS) as (_ & -> & _). exact TC.
  - unfold Addr.from_confidential. rewrite NWc, DTc, FC, TU, OSu.
    unfold cseg_type. destruct tr; [|destruct (lenb prog 20)]; reflexivity.
Qed.

End Codecs.

(* whatever FromBlech32 accepts (any case) re-encodes to its lower-case spelling: Decode/Encode of C15
   plus the regrouping law *)
Theorem blech32_recognised_reencodes s p v k pr :
  from_blech32 s = Ok (p, v, k, pr) -> to_blech32 p v k pr = Ok (map to_lower s).
Proof.
  intro F. apply from_blech32_ok in F as (one & rest & rg & LI & O1 & D & V16 & Cb & B1 & B2 & -> & ->).
  destruct (decode_encode s p _ D) as (v2 & r2 & e & Ed & Ev & En). injection Ed as <- <-.
  pose proof (Forall_inv_tail (decode_data_syms s p _ D)) as Sr.
  destruct (accepted_case_spellings s p _ D) as [Dl _].
  assert (FL : from_blech32 (map to_lower s) = Ok (p, v, firstn 33 rg, skipn 33 rg)).
  { apply from_blech32_ok. exists one, rest, rg. rewrite last_index_lower. repeat split; assumption. }
  unfold Addr.to_blech32. rewrite firstn_skipn, (regroup_back _ _ Sr Cb), Ev, En, FL, beqb_refl, firstn_skipn, bytes_eqb_refl.
  reflexivity.
Qed.

(* non-vacuity: the premises of the segwit theorems are met by every network and both versions *)
Example seg_ok_examples : seg_ok false (repeat x00 20) /\ seg_ok false (repeat x00 32) /\ seg_ok true (repeat x00 32) /\
  In liquid nets /\ In regtest nets /\ In testnet nets.
Proof. cbn. tauto. Qed.
