(* Proofs/AddressRegroup.v — C14, statements about EVERY string (they rest on blech32_recognised_reencodes
   of Proofs/Address.v and so on the regrouping laws of Proofs/Regroup.v): network attribution is exclusive,
   a recognised confidential segwit string is the canonical encoding of what it decodes to, and a
   recognised confidential base58 address carries an inner prefix of its own network. *)
From GE Require Import Lib.Bytes Model.Blech32 Proofs.Blech32 Model.Address Proofs.Address.
Import B32 Addr.
Open Scope N_scope.

(* the whole human-readable part is compared (fix 233bf85) *)
Theorem attribution_exclusive (b58dec : bytes -> option (bytes * byte)) s n :
  network_for_address b58dec s = Ok n ->
  In n nets /\
  ((In (segwit_prefix s) (hrps n) /\ forall n', In n' nets -> In (segwit_prefix s) (hrps n') -> n' = n) \/
   (net_by_hrp s = None /\ exists d v, b58dec s = Some (d, v) /\ In v (versions n) /\
      forall n', In n' nets -> In v (versions n') -> n' = n)).
Proof.
  unfold network_for_address. destruct (net_by_hrp s) as [m|] eqn:E.
  - intro H. injection H as ->. destruct (net_by_hrp_in s n E) as [I Ih]. split; [exact I|]. left.
    split; [exact Ih|]. intros n' I' Ih'. exact (hrps_exclusive _ n' n I' I Ih' Ih).
  - destruct (b58dec s) as [[d v]|]; [|discriminate].
    destruct (net_by_version v) as [m|] eqn:V; [|discriminate]. intro H. injection H as ->.
    destruct (net_by_version_in v n V) as [I Iv]. split; [exact I|]. right. split; [reflexivity|].
    exists d, v. split; [reflexivity|]. split; [exact Iv|].
    intros n' I' Iv'. exact (version_bytes_disjoint n' n v I' I Iv' Iv).
Qed.

Lemma accepted_single_case s hrp data : decode s = DOk hrp data -> map to_lower s = s \/ map to_upper s = s.
Proof.
  unfold decode. rewrite decode_generic_unfold.
  destruct (len_bad s); [discriminate|]. destruct (negb (forallb char_ok s)); [discriminate|].
  destruct (case_bad s) eqn:C; [discriminate|]. intros _. unfold case_bad in C.
  apply andb_false_iff in C as [C|C]; apply negb_false_iff, bytes_eqb_eq in C; [left | right]; symmetry; exact C.
Qed.

Lemma hrp_not_upper n : In n nets -> map to_upper (n_blech32 n) <> n_blech32 n.
Proof. intro H. apply in_nets in H as [-> | [-> | ->]]; vm_compute; discriminate. Qed.

Lemma segwit_prefix_upper s : segwit_prefix (map to_upper s) = map to_upper (segwit_prefix s).
Proof.
  unfold segwit_prefix.
  (* s and its upper-case spelling have the same lower-case spelling: `last_index_lower` on each *)
  rewrite <- (last_index_lower (map to_upper s)), map_map, (map_ext _ _ to_lower_upper), last_index_lower.
  destruct (last_index sep s); [apply firstn_map | reflexivity].
Qed.

Theorem blech32_recognised_canonical s n p v k pr : In n nets ->
  is_hrp s (n_blech32 n) = true -> from_blech32 s = Ok (p, v, k, pr) ->
  p = n_blech32 n /\ to_blech32 (n_blech32 n) v k pr = Ok s.
Proof.
  intros Hn Hh F. pose proof (blech32_recognised_reencodes s p v k pr F) as R.
  apply bytes_eqb_eq in Hh. apply from_blech32_ok in F as (_ & rest & _ & _ & _ & D & _).
  (* the prefix has lower-case letters, so the single case of s is the lower case *)
  assert (Low : map to_lower s = s).
  { destruct (accepted_single_case s p _ D) as [Lo|Up]; [exact Lo|]. exfalso.
    apply (hrp_not_upper n Hn). rewrite <- Hh, <- segwit_prefix_upper, Up. reflexivity. }
  destruct (accepted_shape s p _ D) as (syms & cs & TC & Sh & _ & _). rewrite Low in Sh, R.
  assert (Ep : p = n_blech32 n).
  { rewrite <- Hh, Sh. symmetry. apply segwit_prefix_canon. apply to_chars_facts in TC. tauto. }
  split; [exact Ep|]. rewrite <- Ep. exact R.
Qed.

Lemma segwit_type_cases a b c v p t : decode_segwit_type a b c v p = Ok t ->
  t = a \/ t = b \/ t = c.
Proof.
  unfold decode_segwit_type. destruct (n8 v =? 0).
  - destruct (lenb p 20); [intro H; inversion H; tauto|]. destruct (lenb p 32); [intro H; inversion H; tauto | discriminate].
  - destruct (n8 v =? 1); [intro H; inversion H; tauto | discriminate].
Qed.

Theorem conf_base58_inner_prefix
  (b58dec : bytes -> option (bytes * byte)) (bech_dec : bytes -> option (bytes * bytes * bool))
  (bcb : bytes -> N -> N -> bool -> option bytes) s t :
  decode_type b58dec bech_dec bcb s = Ok t -> t = ConfidentialP2Pkh \/ t = ConfidentialP2Sh ->
  exists n p rest, network_for_address b58dec s = Ok n /\ In n nets /\
    b58dec s = Some (p :: rest, n_conf n) /\ length (p :: rest) = 54%nat /\
    ((p = n_pkh n /\ t = ConfidentialP2Pkh) \/ (p = n_sh n /\ t = ConfidentialP2Sh)).
Proof.
  intros D T. unfold decode_type in D.
  destruct (network_for_address b58dec s) as [n| |] eqn:NW; try discriminate.
  destruct (attribution_exclusive b58dec s n NW) as [In_n _].
  destruct (is_hrp s (n_blech32 n)); [|destruct (is_hrp s (n_bech32 n))].
  1: unfold decode_blech32 in D; destruct (from_blech32 s) as [[[[? v] ?] p]| |]; try discriminate.
  2: unfold decode_bech32 in D; destruct (from_bech32 bech_dec bcb s) as [[[? v] p]| |]; try discriminate.
  (* a segwit string has one of the six segwit types *)
  1, 2: apply segwit_type_cases in D; exfalso;
    destruct T as [-> | ->]; destruct D as [D|[D|D]]; vm_compute in D; discriminate D.
  unfold decode_base58 in D. destruct (b58dec s) as [[d id]|] eqn:B; [|discriminate].
  destruct (beqb id (n_conf n)) eqn:Ec.
  - apply beqb_eq in Ec. subst id.
    destruct (Nat.ltb_spec (length d) 34) as [|L34]; [discriminate|].
    destruct (lenb (skipn 34 d) 20) eqn:L20; [|discriminate].
    destruct d as [|p rest]; [discriminate|].
    exists n, p, rest. split; [reflexivity|]. split; [exact In_n|]. split; [reflexivity|]. split.
    + unfold lenb in L20. apply Nat.eqb_eq in L20. rewrite skipn_length in L20. lia.
    + unfold pick_type in D. destruct (beqb p (n_pkh n)) eqn:E1, (beqb p (n_sh n)) eqn:E2; cbn [andb] in D; try discriminate;
        inversion D; subst t; [left | right]; (split; [apply beqb_eq; assumption | reflexivity]).
  - exfalso. destruct (lenb d 20); [|discriminate]. unfold pick_type in D.
    destruct (beqb id (n_pkh n)), (beqb id (n_sh n)); cbn [andb] in D; try discriminate; inversion D; subst t;
      destruct T as [T|T]; vm_compute in T; discriminate T.
Qed.
