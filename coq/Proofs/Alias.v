(* Proofs/Alias.v — C18 on the heap model of Lib/Heap.v.
   Frame: for EVERY heap, growth policy and argument slices (any array, offset, length, capacity — no
   well-formedness needed) each call site of Model/Alias.v leaves every array that existed before it unchanged:
   `ext (length h) h h'` (run_call_step), hence `firstn (length h) h' = h` (calls_only_allocate) and
   `caller_view h' args = caller_view h args`, where the caller's view of an argument is its WHOLE array (bytes
   in front of the slice, the slice, and the spare capacity behind it).  Package-level values are arrays of the
   initial heap, so the same holds of them (constants_never_written).  Input.GetUtxo works on an object store
   (get_utxo_result).  Copy(): equal contents, no shared array, writes through one value invisible in the other.
   Values: `concat2_rd`, `copy_bytes_rd`, `tap_script_sigs_spec`, `compute_asset_reads`, `b32_encode_reads` say
   what the results read.  Model definitions named `*_prefix` are the call sites as they were BEFORE the fix
   ("pre-fix", not a leading part); the Examples on them show the write the frame theorem excludes.  At the end,
   Transaction.Copy on the pure values of Model/Tx.v. *)
From GE Require Import Lib.Heap Lib.Varint Lib.Sha256 Model.Blech32 Model.AddrCodecs Model.Address Model.Alias.
From Coq Require Import ZifyBool ZifyN ZifyNat.
Open Scope nat_scope.
Import Al.

(* Every step lemma reads `call = (h', r) -> ext n h0 h -> .. -> ext n h0 h' [/\ fresh n r]` and
   sits in the hint database `frame`.  In a goal `let '(h', r) := call in ..` whose heap h
   has `ext n h0 h`, [fstep] names the result of the call and replaces that hypothesis by
   what the database gives for the result (fresh n r for a slice r, Forall (fresh n) r for a
   list of slices). *)
Ltac fstep :=
  match goal with
  | X : ext ?n ?h0 _ |- context [match ?c with pair _ _ => _ end] =>
      let h' := fresh "h" in let r := fresh "r" in let E := fresh "E" in
      destruct c as [h' r] eqn:E;
      first [ assert (ext n h0 h' /\ fresh n r) as [? ?] by eauto with frame nocore
            | assert (ext n h0 h' /\ Forall (fresh n) r) as [? ?] by eauto with frame nocore
            | assert (ext n h0 h') by eauto with frame nocore ];
      clear E X
  end.

Lemma concat2_step {g h a b h' s n h0} : concat2 g h a b = (h', s) -> ext n h0 h -> ext n h0 h' /\ fresh n s.
Proof. unfold concat2. intros E X; revert E. repeat fstep. eauto with frame nocore. Qed.

Lemma append_byte_step {g h s b h' s' n h0} : append_byte g h s b = (h', s') -> ext n h0 h ->
  ext n h0 h' /\ fresh n s'.
Proof. unfold append_byte. intros E X; revert E. repeat fstep. eauto with frame nocore. Qed.

#[local] Hint Resolve concat2_step append_byte_step : frame.

Lemma b32_encode_step {g h hrp data enc h' r n h0} : b32_encode g h hrp data enc = (h', r) -> ext n h0 h ->
  ext n h0 h'.
Proof.
  unfold b32_encode. intros E X; revert E. repeat fstep.
  destruct (B32.to_chars _); repeat fstep; now intros [= <- _].
Qed.

Lemma tap_script_sigs_step g sigs : forall {h h' l n h0}, tap_script_sigs g h sigs = (h', l) ->
  ext n h0 h -> ext n h0 h'.
Proof.
  unfold tap_script_sigs.
  induction sigs as [|[pk leaf] r IH]; intros h h' l n h0 E X; revert E; cbn [tap_script_sigs_gen];
    repeat fstep; now intros [= <- _].
Qed.

Lemma tap_leaf_scripts_step g ls : forall {h h' l n h0}, tap_leaf_scripts g h ls = (h', l) ->
  ext n h0 h -> ext n h0 h'.
Proof.
  unfold tap_leaf_scripts.
  induction ls as [|[scr ver] r IH]; intros h h' l n h0 E X; revert E; cbn [tap_leaf_scripts_gen];
    repeat fstep; now intros [= <- _].
Qed.

(* the swap loop of ReverseBytes works on the copy *)
Lemma rev_loop_step tmp k : forall {h h' n h0}, rev_loop h tmp k = Some h' -> ext n h0 h -> fresh n tmp ->
  ext n h0 h'.
Proof.
  induction k as [|i IH]; intros h h' n h0 E X F; cbn [rev_loop] in E.
  - injection E as <-. exact X.
  - destruct (go_get h tmp i) as [bi|]; [|discriminate].
    destruct (go_get h tmp _) as [bj|]; [|discriminate].
    destruct (go_set h tmp i bj) as [h1|] eqn:E1; [|discriminate].
    destruct (go_set h1 tmp _ bi) as [h2|] eqn:E2; [|discriminate].
    eauto with frame nocore.
Qed.

#[local] Hint Resolve rev_loop_step : frame.

Lemma reverse_bytes_step {h buf h' r n h0} : reverse_bytes h buf = (h', r) -> ext n h0 h -> ext n h0 h'.
Proof.
  unfold reverse_bytes. intros E X; revert E.
  destruct (_ <? 1); [now intros [= <- _]|].
  repeat fstep.
  destruct (rev_loop _ _ _) as [h3|] eqn:EL; intros [= <- _]; eauto with frame nocore.
Qed.

Lemma ser_write_varint_step {g h sb v h' sb' n h0} : ser_write_varint g h sb v = (h', sb') ->
  ext n h0 h -> fresh n sb -> ext n h0 h' /\ fresh n sb'.
Proof. unfold ser_write_varint. intros E X F; revert E. fstep. eauto with frame nocore. Qed.

#[local] Hint Resolve ser_write_varint_step : frame.

Lemma ser_write_var_slice_step {g h sb val h' sb' n h0} : ser_write_var_slice g h sb val = (h', sb') ->
  ext n h0 h -> fresh n sb -> ext n h0 h' /\ fresh n sb'.
Proof.
  unfold ser_write_var_slice, ser_write_slice. intros E X F; revert E. fstep. eauto with frame nocore.
Qed.

#[local] Hint Resolve ser_write_var_slice_step : frame.

Lemma ser_write_items_step g v : forall {h sb h' sb' n h0}, ser_write_items g h sb v = (h', sb') ->
  ext n h0 h -> fresh n sb -> ext n h0 h' /\ fresh n sb'.
Proof.
  induction v as [|x r IH]; intros h sb h' sb' n h0 E X F; revert E; cbn [ser_write_items].
  - intros [= <- <-]. auto.
  - fstep. eauto with frame nocore.
Qed.

Lemma copy_bytes_step {h s h' d n h0} : copy_bytes h s = (h', d) -> ext n h0 h -> ext n h0 h' /\ fresh n d.
Proof. unfold copy_bytes. intros E X; revert E. repeat fstep. intros [= <- <-]. auto. Qed.

#[local] Hint Resolve copy_bytes_step : frame.

Lemma copy_all_step l : forall {h h' ds n h0}, copy_all h l = (h', ds) -> ext n h0 h ->
  ext n h0 h' /\ Forall (fresh n) ds.
Proof.
  induction l as [|s r IH]; intros h h' ds n h0 E X; revert E; cbn [copy_all].
  - intros [= <- <-]. auto.
  - repeat fstep. intros [= <- <-]. auto.
Qed.

#[local] Hint Resolve b32_encode_step tap_script_sigs_step tap_leaf_scripts_step reverse_bytes_step
  ser_write_items_step copy_all_step : frame.

(* all modelled calls at once *)
Inductive call :=
  | CAsset (e : slice) | CToken (e : slice) (flag : N)
  | CFinalVbf (inv outv : slice) | CRangeProofMsg (asset abf : slice)
  | CB32Encode (hrp : bytes) (data : slice) (enc : N) | CB32Decode (s : bytes)
  | CBase58Conf (ver cver : byte) (pk data : slice)
  | CBlech32 (prefix : bytes) (v : byte) (pk prog : slice)
  | CTapScriptSigs (sigs : list (slice * slice)) | CTapLeafScripts (ls : list (slice * byte))
  | CReverse (buf : slice) | CValueFromBytes (val : slice) | CAssetHashFromBytes (buf : slice) | CTxIDFromBytes (buf : slice)
  | CSerVector (v : list slice) | CCopy (l : list slice)
  | CTweakPriv (key : slice) (result : bytes).

Definition run_call (g : policy) (h : heap) (c : call) : heap :=
  match c with
  | CAsset e => fst (compute_asset h e)
  | CToken e f => fst (compute_token g h e f)
  | CFinalVbf a b => fst (final_vbf_values g h a b)
  | CRangeProofMsg a b => fst (range_proof_message g h a b)
  | CB32Encode hrp d enc => fst (b32_encode g h hrp d enc)
  | CB32Decode s => fst (b32_decode g h s)
  | CBase58Conf v cv pk d => fst (to_base58_conf g h v cv pk d)
  | CBlech32 p v pk prog => fst (to_blech32 g h p v pk prog)
  | CTapScriptSigs sigs => fst (tap_script_sigs g h sigs)
  | CTapLeafScripts ls => fst (tap_leaf_scripts g h ls)
  | CReverse b => fst (reverse_bytes h b)
  | CValueFromBytes v => fst (value_from_bytes h v)
  | CAssetHashFromBytes b => fst (asset_hash_from_bytes h b)
  | CTxIDFromBytes b => fst (txid_from_bytes h b)
  | CSerVector v => fst (ser_vector g h v)
  | CCopy l => fst (copy_all h l)
  | CTweakPriv k r => fst (tweak_priv_writes h k r)
  end.

(* Sites built from one idiom have their step lemma in the database and are closed by the first
   `try` (final_vbf_values, range_proof_message, b32_encode, the two tap emitters, reverse_bytes,
   txid_from_bytes, copy_all); the others are walked through in the order of the constructors of
   `call`, one heap operation after the other. *)
Theorem run_call_step g n h0 h c : ext n h0 h -> ext n h0 (run_call g h c).
Proof.
  intros X. destruct c; cbn [run_call]; try (unfold fst; fstep; assumption).
  - (* ComputeAsset *)
    unfold compute_asset. destruct (negb _); repeat fstep; assumption.
  - (* ComputeReissuanceToken *)
    unfold compute_token. destruct (negb _); [assumption|]. destruct (negb _); [assumption|].
    fstep. destruct (go_set _ _ _ _) as [h2|] eqn:ES; [|assumption].
    assert (ext n h0 h2) by eauto with frame nocore. repeat fstep. assumption.
  - (* blech32 Decode *)
    unfold b32_decode. destruct (B32.decode_generic s) as [hrp data ck| |]; try assumption.
    repeat fstep.
    destruct (go_sub _ 0 _) as [sdata|] eqn:E1; [|assumption].
    assert (fresh n sdata) by eauto with frame nocore. clear E1.
    destruct (go_sub _ _ _) as [sck|]; [|assumption].
    destruct (rd _ sdata) as [|v ?]; [assumption|].
    destruct (B32.encoding_of_version v); [|assumption].
    fstep. destruct (B32.verify_checksum _ _ _); assumption.
  - (* ToBase58Confidential *)
    unfold to_base58_conf. repeat fstep. unfold fst. fstep. assumption.
  - (* ToBlech32 *)
    unfold to_blech32, to_blech32_gen. fstep.
    destruct (B32.convert_bits _ 8 5 true) as [conv|]; [|assumption].
    repeat fstep.
    destruct (go_set _ _ 0 v) as [h4|] eqn:ES; [|assumption].
    assert (ext n h0 h4) by eauto with frame nocore.
    destruct (go_sub _ 1 _) as [tail|] eqn:E1; [|assumption].
    assert (fresh n tail) by eauto with frame nocore. clear E1.
    fstep.
    destruct (B32.encoding_of_version v) as [enc|]; [|assumption].
    destruct (b32_encode _ _ _ _ _) as [h6 [addr|]] eqn:E6;
      assert (ext n h0 h6) by eauto with frame nocore; [|assumption].
    destruct (Addr.from_blech32 _) as [[[[pf v'] k'] p']| |]; try assumption.
    fstep.
    destruct (go_sub _ 0 33) as [bk|]; [|assumption].
    destruct (go_sub _ 33 _) as [bp|]; [|assumption].
    repeat fstep. destruct (_ && _); assumption.
  - (* ValueFromBytes *)
    unfold value_from_bytes. destruct (negb _); [assumption|].
    destruct (go_get h val 0); [|assumption].
    destruct (negb _); [assumption|].
    destruct (go_sub _ _ _) as [tl|]; [|assumption].
    destruct (reverse_bytes h tl) as [h1 [rev|]] eqn:E1;
      assert (ext n h0 h1) by eauto with frame nocore; assumption.
  - (* AssetHashFromBytes *)
    unfold asset_hash_from_bytes. destruct (go_sub _ _ _); [|assumption]. unfold fst. fstep. assumption.
  - (* Serializer: NewSerializer, WriteVector *)
    unfold ser_vector, ser_new, ser_write_vector. repeat fstep. unfold fst. fstep. assumption.
  - (* TweakTaprootPrivKey *)
    unfold tweak_priv_writes. repeat fstep. assumption.
Qed.

Lemma run_calls_step g cs : forall n h0 h, ext n h0 h -> ext n h0 (fold_left (run_call g) cs h).
Proof. induction cs as [|c r IH]; intros n h0 h X; cbn [fold_left]; auto using run_call_step. Qed.

(* the main theorem, for every site, every policy, every argument configuration and every
   sequence of calls: whatever existed before is unchanged afterwards *)
Theorem calls_only_allocate g h cs : firstn (length h) (fold_left (run_call g) cs h) = h.
Proof. apply ext_firstn, run_calls_step, ext_self. Qed.

Lemma ext_caller_view h h' args : ext (length h) h h' ->
  Forall (fun s => s_arr s < length h) args -> caller_view h' args = caller_view h args.
Proof.
  intros (_ & _ & E) W. unfold caller_view. apply map_ext_in. intros s Hs.
  rewrite Forall_forall in W. apply E. apply W; auto.
Qed.

(* caller_view = the whole array of each argument: in front of the slice, the slice, and the
   spare capacity behind it *)
Theorem args_and_spare_capacity_unchanged g h c args :
  Forall (fun s => s_arr s < length h) args ->
  caller_view (run_call g h c) args = caller_view h args.
Proof. intros W. apply ext_caller_view; auto. apply run_call_step, ext_self. Qed.

(* package-level values: they sit in the heap before any call; no sequence of modelled calls,
   with any arguments (even the package-level values themselves), changes them *)
Theorem constants_never_written g rest cs :
  firstn (length pkg_globals) (fold_left (run_call g) cs (pkg_globals ++ rest)) = pkg_globals.
Proof.
  pose proof (calls_only_allocate g (pkg_globals ++ rest) cs) as E.
  rewrite <- (firstn_skipn (length (pkg_globals ++ rest)) (fold_left (run_call g) cs (pkg_globals ++ rest))).
  rewrite E, <- app_assoc. apply firstn_app_exact. reflexivity.
Qed.

(* Input.GetUtxo works on the object store: the object handed out carries the input's range
   proof, the stored one keeps its own *)
Theorem get_utxo_result os i p : snd (get_utxo os i) = GPtr p ->
  exists q u, pick_utxo i = GPtr q /\ nth_error os q = Some u /\
              nth_error (fst (get_utxo os i)) p = Some (mk_txo (txo_rest u) (i_utxo_rp i)) /\
              nth_error (fst (get_utxo os i)) q = Some u.
Proof.
  unfold get_utxo. destruct (pick_utxo i) as [|q|] eqn:E; cbn [fst snd]; try discriminate.
  destruct (nth_error os q) as [u|] eqn:N; cbn [fst snd]; try discriminate.
  intros H. inversion H; subst. exists q, u. repeat split; auto.
  - rewrite nth_error_app2, Nat.sub_diag by lia. reflexivity.
  - rewrite nth_error_app1; auto. apply nth_error_Some. congruence.
Qed.

Example tweak_priv_prefix_writes_callers_key :
  let h : heap := [[x01; x02; x03]] in
  let key := mk_slice 0 0 3 3 in
  arr (fst (tweak_priv_writes_prefix h key [x0a; x0b; x0c])) 0 = [x0a; x0b; x0c] /\
  arr (fst (tweak_priv_writes h key [x0a; x0b; x0c])) 0 = [x01; x02; x03] /\
  rd (fst (tweak_priv_writes h key [x0a; x0b; x0c])) (snd (tweak_priv_writes h key [x0a; x0b; x0c])) = [x0a; x0b; x0c].
Proof. repeat split; reflexivity. Qed.

Lemma copy_bytes_rd {h s h' d} : copy_bytes h s = (h', d) -> wf_slice h s -> wf_slice h' d /\ rd h' d = rd h s.
Proof.
  unfold copy_bytes. intros E W.
  destruct (go_make h (s_len s) (s_len s)) as [h1 dst] eqn:E1.
  destruct (go_copy h1 dst s) as [h2 k] eqn:E2. injection E as <- <-.
  destruct (go_make_rd E1) as (W1 & _ & L1).
  destruct (go_make_step E1 (ext_self h)) as [X1 _].
  destruct (sees_rd X1 W) as [Ws Rs].
  destruct (go_copy_rd E2 W1 Ws) as [W2 R2].
  split; [exact W2|]. rewrite R2, L1, Nat.min_id, Rs.
  rewrite firstn_all2, skipn_all2 by (rewrite rd_length; auto; lia). apply app_nil_r.
Qed.

(* Started from any heap h that extends h0, Copy() reads what the originals read in h0; every
   copy lies below the end of the heap it was made in and the later ones at or above it, so no
   two share an array. *)
Lemma copy_all_spec l : forall h0 h h' ds, ext (length h0) h0 h -> Forall (wf_slice h0) l ->
  copy_all h l = (h', ds) -> read_all h' ds = read_all h0 l /\ NoDup (map s_arr ds).
Proof.
  induction l as [|s r IH]; intros h0 h h' ds X W; cbn [copy_all].
  - intros [= <- <-]. split; constructor.
  - inversion W as [|? ? Ws Wr]; subst.
    destruct (copy_bytes h s) as [h1 d] eqn:E1. destruct (copy_all h1 r) as [h2 ds'] eqn:E2. intros [= <- <-].
    destruct (sees_rd X Ws) as [Ws' Rs].
    destruct (copy_bytes_rd E1 Ws') as [Wd Rd].
    destruct (copy_bytes_step E1 X) as [X1 _].
    destruct (IH _ _ _ _ X1 Wr E2) as [R N].
    destruct (copy_all_step _ E2 (ext_self h1)) as [X2 F2].
    unfold read_all in *. cbn [map]. split.
    + rewrite R, (proj2 (sees_rd X2 Wd)), Rd, Rs. reflexivity.
    + constructor; [|exact N]. intros Hin. apply in_map_iff in Hin. destruct Hin as (d' & Ed & Hd).
      rewrite Forall_forall in F2. specialize (F2 d' Hd). destruct Wd as (Wd & _). unfold fresh in F2. lia.
Qed.

(* Copy(): equal contents; and fully independent: no later write through either value is
   visible in the other, nor through one copied slice in another copied slice *)
Theorem copy_equal h l : Forall (wf_slice h) l ->
  read_all (fst (copy_all h l)) (snd (copy_all h l)) = read_all h l.
Proof. intros W. destruct (copy_all h l) as [h' ds] eqn:E. eapply copy_all_spec; eauto using ext_self. Qed.

Theorem copy_shares_no_array h l : Forall (wf_slice h) l ->
  NoDup (map s_arr (snd (copy_all h l))) /\
  forall d s, In d (snd (copy_all h l)) -> In s l -> s_arr d <> s_arr s.
Proof.
  intros W. destruct (copy_all h l) as [h' ds] eqn:E. cbn [snd]. split.
  - eapply copy_all_spec; eauto using ext_self.
  - destruct (copy_all_step _ E (ext_self h)) as [_ F]. rewrite Forall_forall in W, F.
    intros d s Hd Hs. specialize (F d Hd). destruct (W s Hs) as (Ws & _). unfold fresh in F. lia.
Qed.

Theorem write_to_copy_invisible_in_original h l a pos d : Forall (wf_slice h) l ->
  length h <= a ->
  read_all (wr (fst (copy_all h l)) a pos d) l = read_all h l.
Proof.
  intros W Ha. destruct (copy_all h l) as [h' ds] eqn:E. cbn [fst].
  destruct (copy_all_step _ E (ext_self h)) as [X _].
  unfold read_all. apply map_ext_in. intros s Hs.
  rewrite Forall_forall in W. destruct (W s Hs) as (Ws & _).
  rewrite rd_wr_other by lia. eapply rd_ext; eauto.
Qed.

Theorem write_to_original_invisible_in_copy h l a pos d : Forall (wf_slice h) l ->
  a < length h ->
  read_all (wr (fst (copy_all h l)) a pos d) (snd (copy_all h l)) = read_all h l.
Proof.
  intros W Ha. rewrite <- (copy_equal h l W). destruct (copy_all h l) as [h' ds] eqn:E. cbn [fst snd].
  destruct (copy_all_step _ E (ext_self h)) as [_ F]. rewrite Forall_forall in F.
  unfold read_all. apply map_ext_in. intros s Hs. apply rd_wr_other.
  specialize (F s Hs). unfold fresh in F. lia.
Qed.

(* the mutant shape: copying slice headers shares every array *)
Example shallow_copy_is_not_independent :
  let h := [[x01; x02; x03]] in
  let l := [mk_slice 0 0 3 3] in
  let '(h', c) := shallow_copy_all h l in
  read_all h' c = read_all h l /\
  read_all (wr h' 0 1 [xff]) l <> read_all h l.
Proof. cbn. split; [reflexivity|discriminate]. Qed.

Example copy_all_nonvacuous :
  let h := [[xa5; x01; x02; xa5; xa5]; [x07]] in
  let l := [mk_slice 0 1 2 4; mk_slice 1 0 1 1; nil_slice] in
  Forall (wf_slice h) l /\ read_all (fst (copy_all h l)) (snd (copy_all h l)) = [[x01; x02]; [x07]; []].
Proof. split; [repeat constructor; cbn; lia | reflexivity]. Qed.

Lemma concat2_rd {g h a b h' s} : concat2 g h a b = (h', s) -> wf_slice h a -> wf_slice h b ->
  wf_slice h' s /\ rd h' s = rd h a ++ rd h b.
Proof.
  unfold concat2. intros E Wa Wb.
  destruct (go_lit h []) as [h1 t] eqn:E1. destruct (go_append g h1 t _) as [h2 t1] eqn:E2.
  destruct (go_lit_rd E1) as [W1 R1].
  destruct (go_lit_step E1 (ext_self h)) as [X1 F1].
  destruct (go_append_rd E2 W1) as [W2 R2].
  destruct (go_append_step E2 X1 F1) as [X2 _].
  destruct (go_append_rd E W2) as [W3 R3].
  split; [exact W3|].
  rewrite R3, R2, R1, (proj2 (sees_rd X1 Wa)), (proj2 (sees_rd X2 Wb)). reflexivity.
Qed.

(* every emitted TapScriptSig key is pubkey ++ leaf hash, READ AFTER ALL pairs were built: an append
   in place for a later pair must not reach an earlier pair's key (fix 7d6e201; the Example
   tap_script_sigs_prefix_corrupts_shared_keys below has two public keys sharing an array) *)
Lemma tap_script_sigs_spec g sigs : forall h0 h h' kds, ext (length h0) h0 h ->
  Forall (fun p => wf_slice h0 (fst p) /\ wf_slice h0 (snd p)) sigs ->
  tap_script_sigs g h sigs = (h', kds) ->
  map (rd h') kds = map (fun p => rd h0 (fst p) ++ rd h0 (snd p)) sigs.
Proof.
  unfold tap_script_sigs.
  induction sigs as [|[pk leaf] r IH]; intros h0 h h' kds X W; cbn [tap_script_sigs_gen].
  - intros [= <- <-]. reflexivity.
  - inversion W as [|? ? [Wp Wl] Wr]; subst. cbn [fst snd] in Wp, Wl.
    destruct (concat2 g h pk leaf) as [h1 kd] eqn:E1.
    destruct (tap_script_sigs_gen concat2 g h1 r) as [h2 kds'] eqn:E2. intros [= <- <-].
    destruct (sees_rd X Wp) as [Wp' Rp]. destruct (sees_rd X Wl) as [Wl' Rl].
    destruct (concat2_rd E1 Wp' Wl') as [W1 R1].
    destruct (concat2_step E1 X) as [X1 _].
    pose proof (tap_script_sigs_step g r E2 (ext_self h1)) as X2.
    cbn [map fst snd]. f_equal.
    + rewrite (proj2 (sees_rd X2 W1)), R1, Rp, Rl. reflexivity.
    + eapply IH; eauto.
Qed.

Theorem compute_asset_reads h e : wf_slice h e -> s_len e = 32 ->
  exists out, snd (compute_asset h e) = Some out /\
              rd (fst (compute_asset h e)) out = midstate256 (rd h e ++ zeros 32).
Proof.
  intros W L. unfold compute_asset. rewrite L. cbn [Nat.eqb negb].
  destruct (go_make h (32 + 32) (32 + 32)) as [h1 buf] eqn:E1.
  destruct (go_copy h1 buf e) as [h2 k] eqn:E2.
  destruct (go_lit h2 _) as [h3 out] eqn:E3. cbn [fst snd].
  exists out. split; [reflexivity|].
  destruct (go_make_rd E1) as (W1 & R1 & L1).
  destruct (go_make_step E1 (ext_self h)) as [X1 _].
  destruct (sees_rd X1 W) as [We Re].
  destruct (go_copy_rd E2 W1 We) as [_ R2].
  rewrite (proj2 (go_lit_rd E3)), R2, L1, L, Re, R1. cbn [Nat.min].
  rewrite firstn_all2 by (rewrite rd_length; auto; lia). reflexivity.
Qed.

Theorem b32_encode_reads g h hrp data enc : wf_slice h data ->
  match snd (b32_encode g h hrp data enc) with
  | Some out => B32.encode hrp (rd h data) enc = Some (rd (fst (b32_encode g h hrp data enc)) out)
  | None => B32.encode hrp (rd h data) enc = None
  end.
Proof.
  intros W. unfold b32_encode, B32.encode.
  destruct (go_lit h _) as [h1 ck] eqn:E1. destruct (concat2 g h1 data ck) as [h2 combined] eqn:E2.
  destruct (go_lit_rd E1) as [W1 R1].
  destruct (go_lit_step E1 (ext_self h)) as [X1 _].
  destruct (sees_rd X1 W) as [Wd Rd].
  destruct (concat2_rd E2 Wd W1) as [_ R2]. rewrite R2, R1, Rd.
  destruct (B32.to_chars _) as [cs|]; cbn [snd fst]; [|reflexivity].
  destruct (go_lit h2 _) as [h3 out] eqn:E3. cbn [fst snd].
  rewrite (proj2 (go_lit_rd E3)). reflexivity.
Qed.

(* blech32.Decode: its append lands in place and rewrites the checksum with itself *)
Example b32_decode_self_append :
  (* "lq1" ++ 14 x 'q' is rejected by the checksum, but the append already happened *)
  let h0 : heap := [[xa5]] in
  let s := of_codes [108; 113; 49; 113; 113; 113; 113; 113; 113; 113; 113; 113; 113; 113; 113; 113; 113]%N in
  let '(h1, r) := b32_decode go_policy h0 s in
  firstn 1 h1 = h0 /\ arr h1 1 = zeros 14.
Proof. vm_compute. split; reflexivity. Qed.

(* a slice with spare capacity behind it, on which the pre-fix call sites write outside their argument *)
Definition sub_with_spare : heap * slice :=        (* 32 bytes 0x11 inside a 72-byte array of 0xa5 *)
  ([repeat xa5 4 ++ repeat x11 32 ++ repeat xa5 36], mk_slice 0 4 32 68).

Lemma sub_with_spare_wf : wf_slice (fst sub_with_spare) (snd sub_with_spare).
Proof. unfold wf_slice. cbn. lia. Qed.

(* the pre-fix call site computes the same asset; only the write differs *)
Lemma compute_asset_prefix_same g h e : wf_slice h e -> s_len e = 32 ->
  option_map (rd (fst (compute_asset_prefix g h e))) (snd (compute_asset_prefix g h e)) =
  option_map (rd (fst (compute_asset h e))) (snd (compute_asset h e)).
Proof.
  intros W L. destruct (compute_asset_reads h e W L) as (o2 & -> & R2). cbn [option_map]. rewrite R2.
  unfold compute_asset_prefix. rewrite L. cbn [Nat.eqb negb].
  destruct (go_append g h e (zeros 32)) as [h1 buf] eqn:E1.
  destruct (go_lit h1 _) as [h2 out] eqn:E2. cbn [fst snd option_map].
  rewrite (proj2 (go_lit_rd E2)), (proj2 (go_append_rd E1 W)). reflexivity.
Qed.

Example compute_asset_prefix_writes_spare_capacity :
  let '(h, e) := sub_with_spare in
  arr (fst (compute_asset_prefix go_policy h e)) 0 = repeat xa5 4 ++ repeat x11 32 ++ zeros 32 ++ repeat xa5 4 /\
  arr (fst (compute_asset h e)) 0 = arr h 0 /\
  (* same result bytes either way *)
  option_map (rd (fst (compute_asset_prefix go_policy h e))) (snd (compute_asset_prefix go_policy h e)) =
  option_map (rd (fst (compute_asset h e))) (snd (compute_asset h e)).
Proof.
  pose proof sub_with_spare_wf as W. unfold sub_with_spare in *. cbn [fst snd] in W.
  split; [vm_compute; reflexivity|]. split; [vm_compute; reflexivity|].
  exact (compute_asset_prefix_same go_policy _ _ W eq_refl).
Qed.

Example b32_encode_prefix_writes_spare_capacity :
  let h : heap := [[x00; x01; x02; xa5; xa5; xa5; xa5; xa5; xa5; xa5; xa5; xa5; xa5; xa5; xa5; xa5]] in
  let d := mk_slice 0 0 3 16 in
  arr (fst (b32_encode_prefix go_policy h [x6c; x71] d B32.BLECH32)) 0 <> arr h 0 /\
  arr (fst (b32_encode go_policy h [x6c; x71] d B32.BLECH32)) 0 = arr h 0.
Proof. vm_compute. split; [discriminate|reflexivity]. Qed.

(* two TapScriptSigs whose public keys are sub-slices of one buffer: in the pre-fix call site the
   second append overwrites the first pair's key data *)
Example tap_script_sigs_prefix_corrupts_shared_keys :
  let h : heap := [[x01; x01; xa5; xa5; xa5; xa5]; [x0a; x0a]; [x0b; x0b]] in
  let pk := mk_slice 0 0 2 6 in
  let sigs := [(pk, mk_slice 1 0 2 2); (pk, mk_slice 2 0 2 2)] in
  map (rd (fst (tap_script_sigs_prefix go_policy h sigs))) (snd (tap_script_sigs_prefix go_policy h sigs))
    = [[x01; x01; x0b; x0b]; [x01; x01; x0b; x0b]] /\
  map (rd (fst (tap_script_sigs go_policy h sigs))) (snd (tap_script_sigs go_policy h sigs))
    = [[x01; x01; x0a; x0a]; [x01; x01; x0b; x0b]] /\
  Forall (fun p => wf_slice h (fst p) /\ wf_slice h (snd p)) sigs.
Proof. vm_compute. repeat split; try reflexivity. repeat constructor; cbn; lia. Qed.

Example get_utxo_prefix_writes_stored_utxo :
  let os : ostore := [mk_txo [] (mk_slice 0 0 3 3)] in
  let i := mk_v2in (Some 0) None 0 nil_slice in
  fst (get_utxo_prefix os i) = [mk_txo [] nil_slice] /\ fst (get_utxo os i) = os ++ [mk_txo [] nil_slice].
Proof. split; reflexivity. Qed.

Corollary compute_asset_repeatable g h cs e : wf_slice h e -> s_len e = 32 ->
  let h' := fold_left (run_call g) cs h in
  option_map (rd (fst (compute_asset h' e))) (snd (compute_asset h' e)) =
  option_map (rd (fst (compute_asset h e))) (snd (compute_asset h e)).
Proof.
  intros W L h'.
  destruct (sees_rd (run_calls_step g cs _ _ _ (ext_self h)) W) as [W' R]. fold h' in W', R.
  destruct (compute_asset_reads h e W L) as (o1 & -> & R1).
  destruct (compute_asset_reads h' e W' L) as (o2 & -> & R2).
  cbn [option_map]. rewrite R1, R2, R. reflexivity.
Qed.

Example frame_hypotheses_satisfiable :
  let '(h, e) := sub_with_spare in
  wf_slice h e /\ s_len e = 32 /\ Forall (fun s => s_arr s < length h) [e] /\
  snd (compute_asset h e) <> None.
Proof.
  pose proof sub_with_spare_wf as W. unfold sub_with_spare in *. cbn [fst snd] in W.
  split; [exact W|]. split; [reflexivity|]. split; [repeat constructor|].
  destruct (compute_asset_reads _ _ W eq_refl) as (out & -> & _). discriminate.
Qed.

(* Transaction.Copy on model values.  Model.Tx is imported here and not at the top: it defines a
   wf_slice of its own, which from here on hides the one of Lib.Heap used above. *)
From GE Require Import Model.Tx.

Theorem copy_eq t : copy_tx t = t.
Proof. destruct t. unfold copy_tx. cbn. f_equal. unfold copy_in. apply map_id. Qed.

Theorem copy_norm_eq t : norm_tx (copy_tx t) = norm_tx t.
Proof. rewrite copy_eq. reflexivity. Qed.

Theorem ser_copy t : ser_full (copy_tx t) = ser_full t /\ ser_txid (copy_tx t) = ser_txid t /\ ser_wtxid (copy_tx t) = ser_wtxid t.
Proof. rewrite copy_eq. auto. Qed.

(* Copy with make([][]byte, n) followed by append (the code before fix 5085a24): n empty items in front *)
Definition copy_in_prefix (i : txin) : txin :=
  mk_in (in_hash i) (in_index i) (in_seq i) (in_script i) (in_witness i) (in_pegin i)
        (repeat [] (length (in_pegwit i)) ++ in_pegwit i) (in_iss i) (in_irp i) (in_inrp i).
Example copy_prefix_was_not_equal :
  let i := mk_in (repeat x00 32) 0%N 0%N [] [] true [[x01]] None [] [] in
  copy_in_prefix i <> i /\ copy_in i = i.
Proof. split; [discriminate|reflexivity]. Qed.
