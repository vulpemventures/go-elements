(* Proofs/Blech32.v — C15 for the data part of a blech32 string (the human-readable part is in Blech32Hrp.v):
   polymod is GF(2)-linear and stays below 2^60; a checksum made by create_checksum verifies; on a canonical
   spelling hrp ++ "1" ++ chars, decode is decode_spec; every 1- and 2-symbol substitution of an accepted string is
   rejected (any hrp, any length the decoder accepts); the constant is selected by the witness version; Encode and
   Decode are inverse to each other; case rules.

   Error detection.  By linearity, a symbol y replaced by x at distance d from the end xors the syndrome
   shift d (x xor y) into the polymod, where shift d e runs d steps with input 0 from e (polymod_upd).  The changed
   string is rejected if the xor of its one or two syndromes is not 0 and, when the version symbol flipped between
   0 and 1, not BM = BLECH32 xor BLECH32M either (reject_by_syndrome).  One step with input 0 is injective on 60-bit
   words (step0_inj: the low five bits of the feedback tell which five bits were shifted out, 32 cases).  Hence a
   syndrome of e <> 0 is non-zero, and shift d1 e1 = shift d2 e2 with d1 < d2 would give e1 = shift (d2 - d1) e2.
   What is left is finite, and it is what `far e` says of each of the 31 non-zero five-bit values e: shifted by
   1..1000 steps e is never below 32 (a single symbol again), and shifted by 0..1000 steps it never equals
   shift j 1 xor BM, j < 1000 (it never meets a version flip, which is error value 1 at the version symbol).  1000 is
   the longest string DecodeGeneric accepts, so every distance from the end is below it (pre_bound); 60 bits are
   the twelve five-bit symbols of a checksum, the width polymod keeps (a 55-bit mask, then a shift by five).
   seeds_far proves far for a list of seeds from one scan of 1000 steps per seed, run on bit-reversed words;
   vals_checked is that scan for the 31 values, Blech32Hrp.v runs it again for 64 words of the prefix. *)
From Coq Require Import FMapPositive.
From GE Require Import Lib.Bytes Gen.Blech32Consts Model.Blech32.
Import B32.
From Coq Require Import ZifyBool ZifyN ZifyNat.
Open Scope N_scope.

Arguments polymod_step : simpl never.
Arguments N.shiftl : simpl never.
Arguments N.shiftr : simpl never.
Arguments N.land : simpl never.
Arguments N.lxor : simpl never.
Arguments N.testbit : simpl never.

Lemma gen_length : length gen = 5%nat. Proof. reflexivity. Qed.
Lemma charset_length : length charset = 32%nat. Proof. reflexivity. Qed.
Lemma consts_nonneg : (0 <= g_BLECH32)%Z /\ (0 <= g_BLECH32M)%Z /\ Forall (fun z => 0 <= z)%Z g_gen.
Proof. repeat split; try (vm_compute; discriminate). repeat constructor; vm_compute; discriminate. Qed.
Lemma gen_bound : Forall (fun g => g < 2 ^ 60) gen.
Proof. repeat constructor. Qed.
Lemma consts_bound : BLECH32 < 2 ^ 60 /\ BLECH32M < 2 ^ 60 /\ BLECH32 <> BLECH32M.
Proof. repeat split; try reflexivity. vm_compute; discriminate. Qed.

Ltac xor_bits :=
  let k := fresh "k" in
  apply N.bits_inj; intro k;
  repeat rewrite ?N.lxor_spec, ?N.land_spec;
  repeat match goal with |- context [N.testbit ?a k] =>
    is_var a; destruct (N.testbit a k) end; reflexivity.

Lemma lxor_swap4 a b c d : N.lxor (N.lxor a b) (N.lxor c d) = N.lxor (N.lxor a c) (N.lxor b d).
Proof. xor_bits. Qed.
Lemma land_lxor_l a b m : N.land (N.lxor a b) m = N.lxor (N.land a m) (N.land b m).
Proof. xor_bits. Qed.
Lemma lxor_subst x y : N.lxor y (N.lxor x y) = x.
Proof. xor_bits. Qed.
Lemma lxor_move a b c : N.lxor a b = c -> N.lxor a c = b.
Proof. intros <-. xor_bits. Qed.

Lemma apply_gen_linear gs : forall b b' i a a',
  apply_gen (N.lxor b b') gs i (N.lxor a a') = N.lxor (apply_gen b gs i a) (apply_gen b' gs i a').
Proof.
  induction gs as [|g gs IH]; intros b b' i a a'; cbn [apply_gen]; [reflexivity|].
  rewrite N.lxor_spec, <- IH. f_equal.
  destruct (N.testbit b i), (N.testbit b' i); cbn [xorb]; xor_bits.
Qed.

Theorem polymod_step_linear c c' v v' :
  polymod_step (N.lxor c c') (N.lxor v v') = N.lxor (polymod_step c v) (polymod_step c' v').
Proof.
  unfold polymod_step.
  rewrite N.shiftr_lxor, land_lxor_l, N.shiftl_lxor, lxor_swap4.
  apply apply_gen_linear.
Qed.

Lemma apply_gen_zero gs : forall i a, apply_gen 0 gs i a = a.
Proof. induction gs as [|g gs IH]; intros i a; cbn [apply_gen]; [reflexivity|]. rewrite N.bits_0. apply IH. Qed.

Lemma polymod_step_0 v : polymod_step 0 v = v.
Proof. unfold polymod_step. rewrite N.shiftr_0_l, N.land_0_l, N.shiftl_0_l, N.lxor_0_l. apply apply_gen_zero. Qed.

Fixpoint xor_list (a b : list N) : list N :=
  match a, b with
  | x :: a', y :: b' => N.lxor x y :: xor_list a' b'
  | _, _ => []
  end.

Theorem polymod_linear : forall vs ws c d, length vs = length ws ->
  polymod_from (N.lxor c d) (xor_list vs ws) = N.lxor (polymod_from c vs) (polymod_from d ws).
Proof.
  unfold polymod_from.
  induction vs as [|v vs IH]; intros [|w ws] c d L; cbn in L; try discriminate; cbn [xor_list fold_left].
  - reflexivity.
  - rewrite polymod_step_linear. apply IH. congruence.
Qed.

(* one step with input 0, and j of them: by linearity a change e of the running value, followed by j more
   symbols, changes the result by shift j e whatever the symbols are (polymod_from_xor) *)
Definition step0 (c : N) : N := polymod_step c 0.
Fixpoint shift (j : nat) (e : N) : N :=
  match j with O => e | S k => shift k (step0 e) end.

Lemma step0_lxor a b : step0 (N.lxor a b) = N.lxor (step0 a) (step0 b).
Proof. unfold step0. rewrite <- (N.lxor_0_r 0) at 1. apply polymod_step_linear. Qed.

Lemma polymod_from_xor : forall vs c d,
  polymod_from (N.lxor c d) vs = N.lxor (polymod_from c vs) (shift (length vs) d).
Proof.
  unfold polymod_from.
  induction vs as [|v vs IH]; intros c d; cbn [fold_left length shift].
  - reflexivity.
  - replace (polymod_step (N.lxor c d) v) with (N.lxor (polymod_step c v) (step0 d)).
    + apply IH.
    + unfold step0. rewrite <- polymod_step_linear, N.lxor_0_r. reflexivity.
Qed.

Lemma shift_0 j : shift j 0 = 0.
Proof. induction j as [|j IH]; cbn [shift]; [reflexivity|]. unfold step0. rewrite polymod_step_0. exact IH. Qed.

Lemma shift_lxor j : forall a b, shift j (N.lxor a b) = N.lxor (shift j a) (shift j b).
Proof. induction j as [|j IH]; intros a b; cbn [shift]; [reflexivity|]. rewrite step0_lxor. apply IH. Qed.

(* no int64 overflow in the Go code: every running value stays below 2^60 *)
Lemma lxor_lt_pow2 a b n : a < 2 ^ n -> b < 2 ^ n -> N.lxor a b < 2 ^ n.
Proof.
  rewrite <- !N.div_small_iff, <- !N.shiftr_div_pow2 by (apply N.pow_nonzero; discriminate).
  intros Ha Hb. rewrite N.shiftr_lxor, Ha, Hb. reflexivity.
Qed.

Lemma apply_gen_bound gs : forall b i a, Forall (fun g => g < 2 ^ 60) gs -> a < 2 ^ 60 -> apply_gen b gs i a < 2 ^ 60.
Proof.
  induction gs as [|g gs IH]; intros b i a F Ha; cbn [apply_gen]; [exact Ha|].
  inversion F as [|g' gs' Hg F']; subst. apply IH; [exact F'|].
  destruct (N.testbit b i); [apply lxor_lt_pow2; assumption | exact Ha].
Qed.

Lemma land_mask55 c : N.land c mask55 = c mod 2 ^ 55.
Proof. change mask55 with (N.ones 55). apply N.land_ones. Qed.

Theorem polymod_step_bound c v : v < 2 ^ 60 -> polymod_step c v < 2 ^ 60.
Proof.
  intro Hv. unfold polymod_step. apply apply_gen_bound; [exact gen_bound|].
  apply lxor_lt_pow2; [|exact Hv].
  rewrite land_mask55, N.shiftl_mul_pow2.
  assert (c mod 2 ^ 55 < 2 ^ 55) by (apply N.mod_lt; discriminate).
  change (2 ^ 60) with (2 ^ 55 * 2 ^ 5). apply N.mul_lt_mono_pos_r; [reflexivity | assumption].
Qed.

Theorem polymod_from_bound vs : forall c, c < 2 ^ 60 -> Forall (fun v => v < 2 ^ 60) vs -> polymod_from c vs < 2 ^ 60.
Proof.
  unfold polymod_from. induction vs as [|v vs IH]; intros c Hc F; cbn [fold_left]; [exact Hc|].
  inversion F as [|v' vs' Hv F']; subst. apply IH; [apply polymod_step_bound; exact Hv | exact F'].
Qed.

(* the feedback of one step: the xor of the generators selected by the five bits shifted out *)
Definition gen_comb (hi : N) : N := apply_gen hi gen 0 0.

Lemma apply_gen_acc b gs i a : apply_gen b gs i a = N.lxor (apply_gen b gs i 0) a.
Proof.
  rewrite <- (N.lxor_0_r b) at 1. rewrite <- (N.lxor_0_l a) at 1.
  rewrite apply_gen_linear, apply_gen_zero. reflexivity.
Qed.

Lemma in_upto n v : v < N.of_nat n -> In v (map N.of_nat (seq 0 n)).
Proof. intro H. apply in_map_iff. exists (N.to_nat v). split; [lia | apply in_seq; lia]. Qed.

(* the low five bits of the generator combination identify the five feedback bits *)
Lemma gen_low_bits_checked :
  forallb (fun hi => (hi =? 0) || negb (N.land (gen_comb hi) 31 =? 0)) (map N.of_nat (seq 0 32)) = true.
Proof. vm_compute. reflexivity. Qed.

Lemma gen_low_bits hi : hi < 32 -> N.land (gen_comb hi) 31 = 0 -> hi = 0.
Proof.
  intros H E. pose proof gen_low_bits_checked as F. rewrite forallb_forall in F.
  specialize (F hi (in_upto 32 hi H)). rewrite E in F. cbn in F. rewrite orb_false_r in F. apply N.eqb_eq in F. exact F.
Qed.

Lemma shiftl5_low x : N.land (N.shiftl x 5) 31 = 0.
Proof.
  change 31 with (N.ones 5). rewrite N.land_ones, N.shiftl_mul_pow2. apply N.mod_mul. discriminate.
Qed.

Lemma step0_kernel c : c < 2 ^ 60 -> step0 c = 0 -> c = 0.
Proof.
  intros Hc E. unfold step0, polymod_step in E. rewrite N.lxor_0_r, apply_gen_acc in E.
  fold (gen_comb (N.shiftr c 55)) in E.
  assert (Hhi : N.shiftr c 55 < 32).
  { rewrite N.shiftr_div_pow2. apply N.div_lt_upper_bound; [discriminate|]. exact Hc. }
  assert (L : N.land (gen_comb (N.shiftr c 55)) 31 = 0).
  { apply (f_equal (fun x => N.land x 31)) in E. rewrite land_lxor_l, shiftl5_low, N.lxor_0_r in E.
    rewrite E. reflexivity. }
  pose proof (gen_low_bits _ Hhi L) as H0.
  rewrite H0 in E. change (gen_comb 0) with 0 in E. rewrite N.lxor_0_l in E.
  rewrite land_mask55, N.shiftl_mul_pow2 in E.
  rewrite N.shiftr_div_pow2 in H0.
  assert (c mod 2 ^ 55 = 0) by (destruct (c mod 2 ^ 55); [reflexivity | discriminate]).
  pose proof (N.div_mod c (2 ^ 55) ltac:(discriminate)). lia.
Qed.

Lemma step0_bound c : step0 c < 2 ^ 60.
Proof. unfold step0. apply polymod_step_bound. reflexivity. Qed.

Lemma shift_bound j : forall c, c < 2 ^ 60 -> shift j c < 2 ^ 60.
Proof. induction j as [|j IH]; intros c H; cbn [shift]; [exact H | apply IH, step0_bound]. Qed.

Lemma step0_inj a b : a < 2 ^ 60 -> b < 2 ^ 60 -> step0 a = step0 b -> a = b.
Proof.
  intros Ha Hb E. apply N.lxor_eq. apply step0_kernel; [apply lxor_lt_pow2; assumption|].
  rewrite step0_lxor, E. apply N.lxor_nilpotent.
Qed.

Theorem shift_inj j : forall a b, a < 2 ^ 60 -> b < 2 ^ 60 -> shift j a = shift j b -> a = b.
Proof.
  induction j as [|j IH]; intros a b Ha Hb E; cbn [shift] in E; [exact E|].
  apply step0_inj; try assumption. apply IH; [apply step0_bound | apply step0_bound | exact E].
Qed.

Lemma shift_nonzero j c : c < 2 ^ 60 -> c <> 0 -> shift j c <> 0.
Proof. intros H N0 E. apply N0. apply (shift_inj j); [exact H | reflexivity | rewrite shift_0; exact E]. Qed.

Lemma shift_add a : forall b c, shift (a + b) c = shift b (shift a c).
Proof. induction a as [|a IH]; intros b c; cbn [shift Nat.add]; [reflexivity | apply IH]. Qed.

Lemma step_small c v : c < 2 ^ 55 -> v < 32 -> polymod_step c v = c * 32 + v.
Proof.
  intros Hc Hv. unfold polymod_step.
  rewrite N.shiftr_div_pow2, (N.div_small c) by exact Hc. rewrite apply_gen_zero.
  rewrite land_mask55, N.mod_small by exact Hc. rewrite N.shiftl_mul_pow2. change (2 ^ 5) with 32.
  symmetry. apply N.add_nocarry_lxor.
  apply N.bits_inj; intro k. rewrite N.land_spec, N.bits_0.
  destruct (N.ltb_spec k 5) as [Hk|Hk].
  - change 32 with (2 ^ 5). rewrite <- N.shiftl_mul_pow2, N.shiftl_spec_low by exact Hk. reflexivity.
  - rewrite (testbit_small_le v 5 k) by (assumption || (change (2^5) with 32; exact Hv)). apply andb_false_r.
Qed.

Lemma polymod_from_app c a b : polymod_from c (a ++ b) = polymod_from (polymod_from c a) b.
Proof. unfold polymod_from. apply fold_left_app. Qed.

(* base-32 digits, most significant first: on up to twelve small values polymod_from 0 is
   their positional value, and digits is its inverse *)
Fixpoint digits (k : nat) (X : N) : list N :=
  match k with O => [] | S k' => digits k' (X / 32) ++ [X mod 32] end.

Lemma digits_length k : forall X, length (digits k X) = k.
Proof. induction k as [|k IH]; intro X; cbn [digits]; [reflexivity|]. rewrite app_length, IH. cbn. lia. Qed.

Lemma pow32_le k : (k <= 11)%nat -> 32 ^ N.of_nat k <= 2 ^ 55.
Proof. intro H. change 32 with (2 ^ 5). rewrite <- N.pow_mul_r. apply N.pow_le_mono_r; lia. Qed.

Lemma polymod_digits k : forall X, (k <= 12)%nat -> X < 32 ^ N.of_nat k -> polymod_from 0 (digits k X) = X.
Proof.
  induction k as [|k IH]; intros X L B; cbn [digits].
  - change (32 ^ N.of_nat 0) with 1 in B. cbn. lia.
  - rewrite Nnat.Nat2N.inj_succ, N.pow_succ_r' in B. pose proof (pow32_le k ltac:(lia)).
    assert (B' : X / 32 < 32 ^ N.of_nat k) by (apply N.div_lt_upper_bound; lia).
    rewrite polymod_from_app, IH by (lia || exact B'). unfold polymod_from. cbn [fold_left].
    rewrite step_small by (try apply N.mod_lt; lia). pose proof (N.div_mod X 32). lia.
Qed.

Lemma pack_digits : forall l, (length l <= 12)%nat -> Forall (fun v => v < 32) l ->
  polymod_from 0 l < 32 ^ N.of_nat (length l) /\ digits (length l) (polymod_from 0 l) = l.
Proof.
  induction l as [|s l IH] using rev_ind; intros L F.
  - split; reflexivity.
  - rewrite app_length in *. cbn [length] in *. apply Forall_app in F as [F Fs]. inversion Fs as [|s' t Hs _]; subst.
    destruct (IH ltac:(lia) F) as [B D]. pose proof (pow32_le (length l) ltac:(lia)).
    rewrite polymod_from_app. unfold polymod_from at 1 3. cbn [fold_left].
    rewrite step_small by (assumption || lia).
    replace (length l + 1)%nat with (S (length l)) by lia. split.
    + rewrite Nnat.Nat2N.inj_succ, N.pow_succ_r'. lia.
    + cbn [digits]. replace ((polymod_from 0 l * 32 + s) / 32) with (polymod_from 0 l) by lia.
      replace ((polymod_from 0 l * 32 + s) mod 32) with s by lia. rewrite D. reflexivity.
Qed.

Definition syms12 (X : N) : list N := map (fun i => N.land (N.shiftr X (5 * (11 - i))) 31) idx12.

Lemma syms12_digits X : syms12 X = digits 12 X.
Proof.
  unfold syms12, idx12. cbn [map digits app].
  repeat (f_equal; [change 31 with (N.ones 5); rewrite N.land_ones, N.shiftr_div_pow2, ?N.div_div by discriminate; reflexivity|]).
  f_equal. change (5 * (11 - 11)) with 0. rewrite N.shiftr_0_r. change 31 with (N.ones 5). apply N.land_ones.
Qed.

Lemma land31_lt x : N.land x 31 < 32.
Proof. change 31 with (N.ones 5). rewrite N.land_ones. apply (N.mod_lt x (2 ^ 5)). discriminate. Qed.

Lemma n8_land31 x : n8 (b8 (N.land x 31)) = N.land x 31.
Proof. apply n8_b8_small. pose proof (land31_lt x). lia. Qed.

Lemma syms12_lt X : Forall (fun v => v < 32) (syms12 X).
Proof. unfold syms12. apply Forall_forall. intros v Hv. apply in_map_iff in Hv as [i [<- _]]. apply land31_lt. Qed.

Lemma ints_checksum_symbols X : ints (checksum_symbols X) = syms12 X.
Proof. unfold ints, checksum_symbols, syms12. rewrite map_map. apply map_ext. intro i. apply n8_land31. Qed.

Lemma checksum_symbols_lt X : Forall (fun b => n8 b < 32) (checksum_symbols X).
Proof.
  unfold checksum_symbols. apply Forall_forall. intros b Hb. apply in_map_iff in Hb as [i [<- _]].
  rewrite n8_land31. apply land31_lt.
Qed.

Lemma xor_list_zeros l : xor_list (repeat 0 (length l)) l = l.
Proof. induction l as [|a l IH]; cbn [length repeat xor_list]; [reflexivity|]. rewrite N.lxor_0_l, IH. reflexivity. Qed.

(* appending twelve values to a prefix with running value c: by linearity the result is what
   twelve zeros give, xor the positional value of the twelve *)
Lemma polymod_from_12 c l : length l = 12%nat -> Forall (fun v => v < 32) l ->
  polymod_from c l = N.lxor (polymod_from c (repeat 0 12)) (polymod_from 0 l).
Proof.
  intros L F. rewrite <- (xor_list_zeros l) at 1. rewrite L, <- (N.lxor_0_r c) at 1.
  apply polymod_linear. rewrite L. reflexivity.
Qed.

Lemma small_lt60 v : v < 256 -> v < 2 ^ 60.
Proof. change (2 ^ 60) with 1152921504606846976. lia. Qed.

Lemma values_bound hrp data : Forall (fun v => v < 2 ^ 60) (hrp_expand hrp ++ ints data).
Proof.
  unfold hrp_expand, ints. rewrite !Forall_app, !Forall_forall. repeat split; intros v Hv.
  - apply in_map_iff in Hv as [c [<- _]]. apply small_lt60. rewrite N.shiftr_div_pow2.
    pose proof (n8_lt c). apply N.div_lt_upper_bound; [discriminate | change (2 ^ 5) with 32; lia].
  - destruct Hv as [<-|[]]. reflexivity.
  - apply in_map_iff in Hv as [c [<- _]]. pose proof (land31_lt (n8 c)). apply small_lt60. lia.
  - apply in_map_iff in Hv as [c [<- _]]. apply small_lt60, n8_lt.
Qed.

Theorem checksum_correct hrp data enc : enc < 2 ^ 60 ->
  verify_checksum hrp (data ++ create_checksum hrp data enc) enc = true.
Proof.
  intro He. unfold verify_checksum, create_checksum. apply N.eqb_eq.
  unfold ints at 1. rewrite map_app. fold (ints data). rewrite ints_checksum_symbols.
  rewrite !app_assoc. set (vs := hrp_expand hrp ++ ints data). unfold polymod. rewrite !polymod_from_app.
  set (P := polymod_from (polymod_from 1 vs) (repeat 0 12)).
  assert (HP : P < 2 ^ 60).
  { apply polymod_from_bound; [apply polymod_from_bound; [reflexivity | apply values_bound] | repeat constructor]. }
  rewrite polymod_from_12 by (reflexivity || apply syms12_lt). fold P.
  rewrite syms12_digits, polymod_digits
    by (lia || (change (32 ^ N.of_nat 12) with (2 ^ 60); apply lxor_lt_pow2; assumption)).
  rewrite <- N.lxor_assoc, N.lxor_nilpotent. apply N.lxor_0_l.
Qed.

(* l with position i replaced by x (l itself if i is out of range) *)
Fixpoint upd {A} (l : list A) (i : nat) (x : A) : list A :=
  match l, i with
  | [], _ => []
  | _ :: r, O => x :: r
  | y :: r, S k => y :: upd r k x
  end.

Lemma upd_length {A} (l : list A) : forall i x, length (upd l i x) = length l.
Proof. induction l as [|a l IH]; intros [|i] x; cbn; try reflexivity. rewrite IH. reflexivity. Qed.

Lemma upd_map {A B} (f : A -> B) (l : list A) : forall i x, map f (upd l i x) = upd (map f l) i (f x).
Proof. induction l as [|a l IH]; intros [|i] x; cbn; try reflexivity. rewrite IH. reflexivity. Qed.

Lemma upd_app_r {A} (a l : list A) i x : upd (a ++ l) (length a + i) x = a ++ upd l i x.
Proof. induction a as [|b a IH]; cbn; [reflexivity|]. rewrite IH. reflexivity. Qed.

Lemma nth_error_upd_other {A} (l : list A) : forall i j x, i <> j -> nth_error (upd l i x) j = nth_error l j.
Proof.
  induction l as [|a l IH]; intros [|i] [|j] x H; cbn; try reflexivity; try congruence.
  apply IH. congruence.
Qed.

Lemma polymod_step_subst c x y : polymod_step c x = N.lxor (polymod_step c y) (N.lxor x y).
Proof.
  rewrite <- (polymod_step_0 (N.lxor x y)), <- polymod_step_linear, N.lxor_0_r, lxor_subst. reflexivity.
Qed.

Theorem polymod_from_upd : forall l c i x y, nth_error l i = Some y ->
  polymod_from c (upd l i x) = N.lxor (polymod_from c l) (shift (length l - 1 - i) (N.lxor x y)).
Proof.
  induction l as [|a l IH]; intros c [|i] x y H; cbn in H; try discriminate.
  - inversion H; subst a. cbn [upd length]. unfold polymod_from. cbn [fold_left].
    rewrite (polymod_step_subst c x y). fold (polymod_from (N.lxor (polymod_step c y) (N.lxor x y)) l).
    rewrite polymod_from_xor. replace (S (length l) - 1 - 0)%nat with (length l) by lia. reflexivity.
  - cbn [upd length]. unfold polymod_from. cbn [fold_left]. fold (polymod_from (polymod_step c a) (upd l i x)).
    rewrite (IH _ _ _ _ H). replace (S (length l) - 1 - S i)%nat with (length l - 1 - i)%nat by lia. reflexivity.
Qed.

(* the non-zero five-bit values: what a substituted symbol xors into its position (subst_sym) *)
Definition vals : list N := map N.of_nat (seq 1 31).

Lemma in_vals v : In v vals <-> 1 <= v < 32.
Proof.
  unfold vals. rewrite in_map_iff. split.
  - intros [k [<- Hk]]. apply in_seq in Hk. lia.
  - intro H. exists (N.to_nat v). split; [lia | apply in_seq; lia].
Qed.

(* distances 0..999 from the end cover every string DecodeGeneric accepts (<= 1000 characters) *)
Definition NMAX : nat := 1000.

(* what an accepted string of one version is away from being accepted with the constant of the other *)
Definition BM : N := N.lxor BLECH32 BLECH32M.

(* The scans below follow a seed through 1000 steps on bit-reversed words.  step0 shifts left by five under a
   mask, takes the five top bits out with a second shift and tests them one by one against the five generators.
   In the reversed word (bit i is bit 59 - i) the five top bits are the five low bits: a step is one shift right by
   five, which also drops them, and one xor with a table entry they select (rstep; rstep_rev relates it to step0).
   Under lazy reduction, which is how the scans are evaluated again outside the virtual machine, that is several
   times less work per step than step0 itself. *)
Fixpoint revb (k : nat) (c acc : N) : N :=
  match k with
  | O => acc
  | S k' => revb k' (N.div2 c) (if N.odd c then N.succ_double acc else N.double acc)
  end.
Definition rev60 (c : N) : N := revb 60 c 0.

Lemma revb_bit k : forall c acc i, N.testbit (revb k c acc) i =
  if i <? N.of_nat k then N.testbit c (N.of_nat k - 1 - i) else N.testbit acc (i - N.of_nat k).
Proof.
  induction k as [|k IH]; intros c acc i; cbn [revb].
  - change (N.of_nat 0) with 0. destruct (N.ltb_spec i 0); [lia|]. rewrite N.sub_0_r. reflexivity.
  - rewrite IH, Nnat.Nat2N.inj_succ. set (K := N.of_nat k).
    destruct (N.ltb_spec i K) as [L|L]; destruct (N.ltb_spec i (N.succ K)) as [L'|L']; try lia.
    + rewrite N.div2_spec, N.shiftr_spec'. f_equal. lia.
    + replace (i - K) with 0 by lia. replace (N.succ K - 1 - i) with 0 by lia. rewrite (N.bit0_odd c).
      destruct (N.odd c); [rewrite N.succ_double_spec; apply N.testbit_odd_0 | rewrite N.double_spec; apply N.testbit_even_0].
    + replace (i - K) with (N.succ (i - N.succ K)) by lia.
      destruct (N.odd c); [rewrite N.succ_double_spec; apply N.testbit_odd_succ | rewrite N.double_spec; apply N.testbit_even_succ]; lia.
Qed.

Lemma rev60_bit c i : N.testbit (rev60 c) i = (i <? 60) && N.testbit c (59 - i).
Proof.
  unfold rev60. rewrite revb_bit. change (N.of_nat 60) with 60.
  destruct (i <? 60); cbn [andb]; [f_equal; lia | apply N.bits_0].
Qed.

Lemma rev60_0 : rev60 0 = 0.
Proof. vm_compute. reflexivity. Qed.

Lemma rev60_lxor a b : rev60 (N.lxor a b) = N.lxor (rev60 a) (rev60 b).
Proof.
  apply N.bits_inj; intro i. rewrite N.lxor_spec, !rev60_bit, N.lxor_spec. destruct (i <? 60); reflexivity.
Qed.

(* a five-bit value has nothing in the low 55 bits of its reversal *)
Lemma rev60_small x : x < 32 -> N.land (rev60 x) mask55 = 0.
Proof.
  intro H. apply N.bits_inj; intro i. rewrite N.land_spec, rev60_bit, N.bits_0. change mask55 with (N.ones 55).
  destruct (N.ltb_spec i 55) as [L|L].
  - rewrite (testbit_small_le x 5 (59 - i)) by (try exact H; lia). rewrite andb_false_r. reflexivity.
  - rewrite N.ones_spec_high by exact L. apply andb_false_r.
Qed.

Lemma step0_nf c : step0 c = N.lxor (N.shiftl (N.land c mask55) 5) (gen_comb (N.shiftr c 55)).
Proof. unfold step0, polymod_step. rewrite N.lxor_0_r, apply_gen_acc. apply N.lxor_comm. Qed.

(* the reversed feedback for each of the 32 values of the five top bits, under the key by which the reversed word
   shows them (its five low bits); 0 needs no entry.  rtab_checked reads every entry back. *)
Definition rtab : PositiveMap.t N := Eval vm_compute in
  fold_left (fun m hi => match N.land (rev60 (N.shiftl hi 55)) 31 with
                         | N0 => m
                         | Npos p => PositiveMap.add p (rev60 (gen_comb hi)) m
                         end) (map N.of_nat (seq 0 32)) (PositiveMap.empty N).
Definition rlook (k : N) : N :=
  match k with
  | N0 => 0
  | Npos p => match PositiveMap.find p rtab with Some t => t | None => 0 end
  end.
Definition rstep (r : N) : N := N.lxor (N.shiftr r 5) (rlook (N.land r 31)).

Lemma rtab_checked :
  forallb (fun hi => rlook (N.land (rev60 (N.shiftl hi 55)) 31) =? rev60 (gen_comb hi)) (map N.of_nat (seq 0 32)) = true.
Proof. vm_compute. reflexivity. Qed.

Lemma rstep_rev c : c < 2 ^ 60 -> rstep (rev60 c) = rev60 (step0 c).
Proof.
  intro Hc. unfold rstep. rewrite step0_nf, rev60_lxor. f_equal.
  - apply N.bits_inj; intro i. rewrite N.shiftr_spec', !rev60_bit. change mask55 with (N.ones 55).
    destruct (N.ltb_spec i 55) as [L|L].
    + destruct (N.ltb_spec (i + 5) 60); [|lia]. destruct (N.ltb_spec i 60); [|lia]. cbn [andb].
      rewrite N.shiftl_spec_high' by lia. rewrite N.land_spec, N.ones_spec_low by lia.
      rewrite andb_true_r. f_equal. lia.
    + destruct (N.ltb_spec (i + 5) 60); [lia|]. cbn [andb].
      destruct (N.ltb_spec i 60); [|reflexivity]. cbn [andb]. symmetry. apply N.shiftl_spec_low. lia.
  - assert (Hhi : N.shiftr c 55 < 32).
    { rewrite N.shiftr_div_pow2. apply N.div_lt_upper_bound; [discriminate | exact Hc]. }
    replace (N.land (rev60 c) 31) with (N.land (rev60 (N.shiftl (N.shiftr c 55) 55)) 31).
    + pose proof rtab_checked as T. rewrite forallb_forall in T. apply N.eqb_eq, T, (in_upto 32), Hhi.
    + apply N.bits_inj; intro i. rewrite !N.land_spec, !rev60_bit. change 31 with (N.ones 5).
      destruct (N.ltb_spec i 5) as [L|L].
      * rewrite N.shiftl_spec_high' by lia. rewrite N.shiftr_spec'. do 3 f_equal. lia.
      * rewrite N.ones_spec_high by exact L. rewrite !andb_false_r. reflexivity.
Qed.

Fixpoint iter (f : N -> N) (j : nat) (c : N) : N :=
  match j with O => c | S k => iter f k (f c) end.

Lemma iter_0 f c : iter f 0 c = c.
Proof. reflexivity. Qed.
Lemma iter_S f j c : iter f (S j) c = iter f j (f c).
Proof. reflexivity. Qed.

Lemma rev60_shift j : forall c, c < 2 ^ 60 -> rev60 (shift j c) = iter rstep j (rev60 c).
Proof.
  induction j as [|j IH]; intros c Hc.
  - change (shift 0 c) with c. rewrite iter_0. reflexivity.
  - change (shift (S j) c) with (shift j (step0 c)).
    rewrite iter_S, (rstep_rev c Hc). apply IH, step0_bound.
Qed.

(* scan f k c p: p holds of c, f c, ..., iter f (k-1) c *)
Fixpoint scan (f : N -> N) (k : nat) (c : N) (p : N -> bool) : bool :=
  match k with O => true | S k' => p c && scan f k' (f c) p end.

Lemma scan_spec f p : forall k c, scan f k c p = true -> forall j, (j < k)%nat -> p (iter f j c) = true.
Proof.
  induction k as [|k IH]; intros c H j Hj; [lia|]. cbn [scan] in H. apply andb_true_iff in H as [H0 H1].
  destruct j as [|j]; cbn [iter]; [exact H0 | apply IH; [exact H1 | lia]].
Qed.

(* the set of the reversed words shift j 1 xor BM, j < k: what a syndrome must not be when the version symbol at
   distance j flipped as well (r runs through the reversed shift j 1, b is the reversed BM); None if some shift j 1 is
   BM itself.  A set of positives, 0 being excluded: one lookup per scanned word. *)
Fixpoint flips (k : nat) (r b : N) (m : PositiveMap.t unit) : option (PositiveMap.t unit) :=
  match k with
  | O => Some m
  | S k' => match N.lxor r b with
            | N0 => None
            | Npos p => flips k' (rstep r) b (PositiveMap.add p tt m)
            end
  end.
Definition flipset : option (PositiveMap.t unit) := flips NMAX (rev60 1) (rev60 BM) (PositiveMap.empty unit).

Lemma flips_spec b : forall k r m m', flips k r b m = Some m' ->
  (forall q, PositiveMap.find q m = Some tt -> PositiveMap.find q m' = Some tt) /\
  forall j, (j < k)%nat -> exists q, N.lxor (iter rstep j r) b = Npos q /\ PositiveMap.find q m' = Some tt.
Proof.
  induction k as [|k IH]; intros r m m' H; cbn [flips] in H.
  - inversion H; subst m'. split; [tauto | lia].
  - destruct (N.lxor r b) as [|p] eqn:E; [discriminate|].
    destruct (IH _ _ _ H) as [Mono Hit].
    assert (Add : forall q, PositiveMap.find q m = Some tt -> PositiveMap.find q (PositiveMap.add p tt m) = Some tt).
    { intros q Hq. destruct (Pos.eq_dec q p) as [->|Ne]; [apply PositiveMap.gss | rewrite PositiveMap.gso; assumption]. }
    split; [intros q Hq; apply Mono, Add, Hq|].
    intros [|j] Hj; cbn [iter].
    + exists p. split; [exact E | apply Mono, PositiveMap.gss].
    + apply Hit. lia.
Qed.

(* on reversed words: r is neither 0 nor in the set (unflipped); r is moreover not a single symbol, that is, its original
   has a bit above the low five (isolated, cf. rev60_small); both along 1000 steps from r (rseed_ok) *)
Definition unflipped (A : PositiveMap.t unit) (r : N) : bool :=
  match r with
  | N0 => false
  | Npos p => match PositiveMap.find p A with None => true | Some _ => false end
  end.
Definition isolated (A : PositiveMap.t unit) (r : N) : bool := negb (N.land r mask55 =? 0) && unflipped A r.
Definition rseed_ok (A : PositiveMap.t unit) (r : N) : bool := unflipped A r && scan rstep NMAX (rstep r) (isolated A).
Definition seed_ok (A : PositiveMap.t unit) (c : N) : bool := (c <? 2 ^ 60) && rseed_ok A (rev60 c).

(* stated for a variable r: conversion must never be asked to look inside rev60 of something *)
Lemma isolated_spec A r : isolated A r = true -> N.land r mask55 <> 0 /\ unflipped A r = true.
Proof.
  unfold isolated. intro H. apply andb_true_iff in H as [H1 H2]. apply negb_true_iff, N.eqb_neq in H1. split; assumption.
Qed.

Lemma rseed_ok_spec A r : rseed_ok A r = true ->
  unflipped A r = true /\ forall m, (m < NMAX)%nat -> isolated A (iter rstep (S m) r) = true.
Proof.
  unfold rseed_ok. intro H. apply andb_true_iff in H as [H1 H2]. split; [exact H1|].
  intros m Hm. rewrite iter_S. exact (scan_spec _ _ _ _ H2 m Hm).
Qed.

(* no shift of c is a single symbol, and none differs from BM by a version flip *)
Definition far (c : N) : Prop :=
  forall m, (m <= NMAX)%nat ->
    (forall j, (j < NMAX)%nat -> shift m c <> N.lxor (shift j 1) BM) /\ ((1 <= m)%nat -> 32 <= shift m c).

Lemma flipset_spec A : flipset = Some A -> forall j, (j < NMAX)%nat ->
  exists q, rev60 (N.lxor (shift j 1) BM) = Npos q /\ PositiveMap.find q A = Some tt.
Proof.
  intros E j Hj. rewrite rev60_lxor, rev60_shift by reflexivity.
  exact (proj2 (flips_spec _ _ _ _ _ E) j Hj).
Qed.

Lemma unflipped_spec A x j : flipset = Some A -> (j < NMAX)%nat -> unflipped A (rev60 x) = true ->
  x <> N.lxor (shift j 1) BM.
Proof.
  intros E Hj Hx Ex. destruct (flipset_spec A E j Hj) as (q & Eq & Fq). rewrite Ex, Eq in Hx. cbn [unflipped] in Hx.
  rewrite Fq in Hx. discriminate Hx.
Qed.

Lemma seeds_far seeds :
  match flipset with Some A => forallb (seed_ok A) seeds | None => false end = true ->
  (forall j, (j < NMAX)%nat -> shift j 1 <> BM) /\ forall c, In c seeds -> far c.
Proof.
  destruct flipset as [A|] eqn:E; [|intro F; discriminate F]. intro F. split.
  - intros j Hj Ej. destruct (flipset_spec A E j Hj) as (q & Eq & _).
    rewrite Ej, N.lxor_nilpotent, rev60_0 in Eq. discriminate Eq.
  - intros c Hc. rewrite forallb_forall in F. specialize (F c Hc). apply andb_true_iff in F as [B F].
    apply N.ltb_lt in B. apply rseed_ok_spec in F as [U0 Sc].
    intros [|m] Hm.
    + split; [intros j Hj; exact (unflipped_spec A c j E Hj U0) | lia].
    + specialize (Sc m ltac:(lia)). rewrite <- rev60_shift in Sc by exact B. apply isolated_spec in Sc as [Q1 Q2].
      split; [intros j Hj; exact (unflipped_spec A _ j E Hj Q2) | intros _].
      destruct (N.lt_ge_cases (shift (S m) c) 32) as [Lt|Ge]; [|exact Ge].
      destruct (Q1 (rev60_small _ Lt)).
Qed.

(* the finite check for the data part: 31 seeds, 1000 steps each *)
Lemma vals_checked : match flipset with Some A => forallb (seed_ok A) vals | None => false end = true.
Proof. vm_compute. reflexivity. Qed.
(* from here on NMAX is a name: nothing may unfold it to a unary 1000; NMAX_eq where the number is needed *)
Global Opaque NMAX.
Lemma NMAX_eq : NMAX = 1000%nat. Proof. reflexivity. Qed.

Lemma vals_far v : In v vals -> far v.
Proof. apply (proj2 (seeds_far vals vals_checked)). Qed.

Lemma vals_lt60 v : In v vals -> v < 2 ^ 60.
Proof. intro H. apply in_vals in H. change (2 ^ 60) with 1152921504606846976. lia. Qed.

(* by injectivity alone: the bound on d is not used *)
Theorem syndrome_nonzero d v : (d < NMAX)%nat -> In v vals -> shift d v <> 0.
Proof. intros _ Hv. apply shift_nonzero; [apply vals_lt60; exact Hv | apply in_vals in Hv; lia]. Qed.

Lemma syndromes_ordered d1 v1 d2 v2 : (d1 <= d2)%nat -> (d2 < NMAX)%nat -> In v1 vals -> In v2 vals ->
  shift d1 v1 = shift d2 v2 -> d1 = d2 /\ v1 = v2.
Proof.
  intros Le H2 V1 V2 E. replace d2 with ((d2 - d1) + d1)%nat in E by lia. rewrite shift_add in E.
  apply shift_inj in E; [| apply vals_lt60; exact V1 | apply shift_bound, vals_lt60; exact V2].
  destruct (Nat.eq_dec (d2 - d1) 0) as [Z|Z].
  - rewrite Z in E. split; [lia | exact E].
  - exfalso. destruct (vals_far v2 V2 (d2 - d1)%nat ltac:(lia)) as [_ Big].
    specialize (Big ltac:(lia)). rewrite <- E in Big. apply in_vals in V1. lia.
Qed.

Theorem syndromes_distinct d1 v1 d2 v2 : (d1 < NMAX)%nat -> (d2 < NMAX)%nat -> In v1 vals -> In v2 vals ->
  shift d1 v1 = shift d2 v2 -> d1 = d2 /\ v1 = v2.
Proof.
  intros H1 H2 V1 V2 E. destruct (Nat.le_ge_cases d1 d2) as [Le|Le].
  - apply syndromes_ordered; assumption.
  - destruct (syndromes_ordered d2 v2 d1 v1 Le H1 V2 V1 (eq_sym E)) as [-> ->]. split; reflexivity.
Qed.

(* a version flip is error value 1 at the version symbol, distance d from the end *)
Theorem flip_not_BM d : (d < NMAX)%nat -> shift d 1 <> BM.
Proof. apply (proj1 (seeds_far vals vals_checked)). Qed.

Theorem flip_pair_not_BM d d2 v2 : (d < NMAX)%nat -> (d2 < d)%nat -> In v2 vals ->
  N.lxor (shift d 1) (shift d2 v2) <> BM.
Proof.
  intros Hd H2 V2 E. apply lxor_move in E.
  destruct (vals_far v2 V2 d2 ltac:(lia)) as [Q _]. apply (Q d Hd). symmetry. exact E.
Qed.

Lemma charset_ok : forallb char_ok charset = true. Proof. reflexivity. Qed.
Lemma charset_lower : forallb (fun c => beqb (to_lower c) c) charset = true. Proof. reflexivity. Qed.
Lemma charset_no_sep : forallb (fun c => negb (beqb c sep)) charset = true. Proof. reflexivity. Qed.
Lemma charset_index :
  forallb (fun i => match nth_opt charset i with
                    | Some c => match index_of c charset 0 with Some j => i =? j | None => false end
                    | None => false
                    end) (map N.of_nat (seq 0 32)) = true.
Proof. reflexivity. Qed.

Lemma nth_opt_In {A} (l : list A) : forall i c, nth_opt l i = Some c -> In c l.
Proof.
  induction l as [|a l IH]; intros i c H; cbn in H; [discriminate|].
  destruct (i =? 0); [inversion H; left; reflexivity | right; eapply IH; exact H].
Qed.

Lemma nth_opt_lt {A} (l : list A) : forall i c, nth_opt l i = Some c -> i < N.of_nat (length l).
Proof.
  induction l as [|a l IH]; intros i c H; cbn [nth_opt] in H; [discriminate|].
  cbn [length]. destruct (N.eqb_spec i 0) as [->|Hi]; [lia|].
  apply IH in H. lia.
Qed.

Lemma charset_prop (P : byte -> bool) i c : forallb P charset = true -> nth_opt charset i = Some c -> P c = true.
Proof. intros F H. rewrite forallb_forall in F. apply F. eapply nth_opt_In; exact H. Qed.

Lemma charset_index_of i c : nth_opt charset i = Some c -> index_of c charset 0 = Some i.
Proof.
  intro H. pose proof (nth_opt_lt _ _ _ H) as L. rewrite charset_length in L.
  pose proof charset_index as F. rewrite forallb_forall in F.
  specialize (F i (in_upto 32 i L)). rewrite H in F. destruct (index_of c charset 0) as [j|]; [|discriminate].
  apply N.eqb_eq in F. congruence.
Qed.

Lemma to_chars_facts : forall syms cs, to_chars syms = Some cs ->
  length cs = length syms /\ to_bytes cs = Some syms /\
  Forall (fun b => n8 b < 32) syms /\
  forallb char_ok cs = true /\ map to_lower cs = cs /\ Forall (fun c => beqb c sep = false) cs.
Proof.
  induction syms as [|b syms IH]; intros cs H; cbn [to_chars] in H.
  - inversion H; subst. cbn. repeat split; constructor.
  - destruct (nth_opt charset (n8 b)) as [c|] eqn:E; [|discriminate].
    destruct (to_chars syms) as [cs'|] eqn:E'; [|discriminate]. inversion H; subst cs.
    destruct (IH cs' eq_refl) as (L & TB & FB & OK & LO & NS).
    pose proof (nth_opt_lt _ _ _ E) as Lt. rewrite charset_length in Lt.
    repeat split.
    + cbn. rewrite L. reflexivity.
    + cbn [to_bytes]. rewrite (charset_index_of _ _ E), TB, b8_n8. reflexivity.
    + constructor; [change (N.of_nat 32) with 32 in Lt; exact Lt | exact FB].
    + cbn [forallb]. rewrite (charset_prop char_ok _ _ charset_ok E), OK. reflexivity.
    + cbn [map]. rewrite LO. f_equal. apply beqb_eq. exact (charset_prop _ _ _ charset_lower E).
    + constructor; [|exact NS]. pose proof (charset_prop _ _ _ charset_no_sep E) as Q. cbv beta in Q.
      destruct (beqb c sep); [discriminate | reflexivity].
Qed.

Lemma last_index_from_nosep c : forall s i acc, Forall (fun x => beqb x c = false) s ->
  last_index_from c s i acc = acc.
Proof.
  induction s as [|x s IH]; intros i acc F; cbn [last_index_from]; [reflexivity|].
  inversion F as [|x' s' Hx F']; subst. rewrite Hx. apply IH. exact F'.
Qed.

Lemma last_index_from_app c : forall a b i acc,
  last_index_from c (a ++ b) i acc = last_index_from c b (i + length a) (last_index_from c a i acc).
Proof.
  induction a as [|x a IH]; intros b i acc; cbn [app last_index_from length].
  - rewrite Nat.add_0_r. reflexivity.
  - rewrite IH. f_equal. lia.
Qed.

Lemma last_index_canon hrp cs : Forall (fun c => beqb c sep = false) cs ->
  last_index sep (hrp ++ sep :: cs) = Some (length hrp).
Proof.
  intro F. unfold last_index. rewrite last_index_from_app. cbn [last_index_from].
  replace (beqb sep sep) with true by reflexivity. apply last_index_from_nosep. exact F.
Qed.

(* the guards of DecodeGeneric on hrp ++ "1" ++ n data characters: total length 8..1000, printable prefix,
   at least one prefix character and twelve checksum characters; decode_spec is Decode on such a string, in
   terms of the prefix and the symbols (decode_canon).  Twelve symbols exactly leave no version symbol. *)
Definition pre (hrp : bytes) (n : nat) : bool :=
  negb ((length hrp + 1 + n <? 8)%nat || (1000 <? length hrp + 1 + n)%nat) &&
  forallb char_ok hrp && negb ((length hrp <? 1)%nat || (n <? 12)%nat).

Definition decode_spec (hrp syms : bytes) : dres :=
  if negb (pre hrp (length syms)) then DErr else
  if (length syms =? 12)%nat then DErr else
  match syms with
  | [] => DErr
  | v :: _ =>
      match encoding_of_version v with
      | None => DErr
      | Some enc => if polymod (hrp_expand hrp ++ ints syms) =? enc
                    then DOk hrp (firstn (length syms - 12) syms) else DErr
      end
  end.

Lemma decode_generic_canon hrp syms cs : to_chars syms = Some cs -> map to_lower hrp = hrp ->
  decode_generic (hrp ++ sep :: cs) =
    if negb (pre hrp (length syms)) then GErr
    else GOk hrp (firstn (length syms - 12) syms) (skipn (length syms - 12) syms).
Proof.
  intros TC LH. destruct (to_chars_facts _ _ TC) as (L & TB & FB & OK & LO & NS).
  unfold decode_generic, pre.
  assert (Len : length (hrp ++ sep :: cs) = (length hrp + 1 + length syms)%nat).
  { rewrite app_length. cbn [length]. rewrite L. lia. }
  rewrite Len.
  destruct ((length hrp + 1 + length syms <? 8)%nat || (1000 <? length hrp + 1 + length syms)%nat) eqn:E1;
    [reflexivity|].
  rewrite forallb_app. cbn [forallb]. rewrite OK. replace (char_ok sep) with true by reflexivity.
  rewrite andb_true_r. cbn [negb andb].
  destruct (forallb char_ok hrp) eqn:E2; [|reflexivity]. cbn [negb andb].
  assert (Low : map to_lower (hrp ++ sep :: cs) = hrp ++ sep :: cs).
  { rewrite map_app. cbn [map]. rewrite LH, LO. reflexivity. }
  rewrite Low, bytes_eqb_refl. cbn [negb andb].
  rewrite (last_index_canon hrp cs NS). rewrite Len.
  replace (length hrp + 1 + length syms <? length hrp + 13)%nat with (length syms <? 12)%nat
    by (destruct (Nat.ltb_spec (length syms) 12), (Nat.ltb_spec (length hrp + 1 + length syms) (length hrp + 13)); lia).
  destruct ((length hrp <? 1)%nat || (length syms <? 12)%nat) eqn:E3; [reflexivity|]. cbn [negb].
  rewrite firstn_app, Nat.sub_diag, firstn_all. cbn [firstn]. rewrite app_nil_r.
  replace (length hrp + 1)%nat with (length (hrp ++ [sep])) by (rewrite app_length; reflexivity).
  replace (hrp ++ sep :: cs) with ((hrp ++ [sep]) ++ cs) by (rewrite <- app_assoc; reflexivity).
  rewrite skipn_app, Nat.sub_diag, skipn_all. cbn [skipn app]. rewrite TB.
  apply orb_false_iff in E3 as [_ E3]. rewrite E3. reflexivity.
Qed.

Theorem decode_canon hrp syms cs : to_chars syms = Some cs -> map to_lower hrp = hrp ->
  decode (hrp ++ sep :: cs) = decode_spec hrp syms.
Proof.
  intros TC LH. unfold decode, decode_spec. rewrite (decode_generic_canon hrp syms cs TC LH).
  destruct (negb (pre hrp (length syms))) eqn:P; [reflexivity|].
  assert (L12 : (12 <= length syms)%nat).
  { unfold pre in P. apply negb_false_iff in P. apply andb_true_iff in P as [_ P].
    apply negb_true_iff, orb_false_iff in P as [_ P]. apply Nat.ltb_ge in P. exact P. }
  destruct (Nat.eqb_spec (length syms) 12) as [E|E].
  - rewrite E, Nat.sub_diag. reflexivity.
  - destruct syms as [|v r]; [cbn in L12; lia|].
    replace (length (v :: r) - 12)%nat with (S (length r - 12)) by (cbn [length] in *; lia).
    cbn [firstn]. destruct (encoding_of_version v) as [enc|]; [|reflexivity].
    unfold verify_checksum.
    replace ((v :: firstn (length r - 12) r) ++ skipn (S (length r - 12)) (v :: r)) with (v :: r); [reflexivity|].
    cbn [skipn app]. rewrite firstn_skipn. reflexivity.
Qed.

Lemma lxor_in_vals a b : a < 32 -> b < 32 -> a <> b -> In (N.lxor a b) vals.
Proof.
  intros Ha Hb Hab. apply in_vals.
  assert (N.lxor a b < 2 ^ 5) by (apply lxor_lt_pow2; assumption).
  assert (N.lxor a b <> 0) by (intro E; apply N.lxor_eq in E; contradiction).
  change (2 ^ 5) with 32 in *. lia.
Qed.

Lemma encoding_inv v e : encoding_of_version v = Some e ->
  (n8 v = 0 /\ e = BLECH32) \/ (n8 v = 1 /\ e = BLECH32M).
Proof.
  unfold encoding_of_version. destruct (N.eqb_spec (n8 v) 0) as [E0|E0].
  - intro H; inversion H. left; split; [assumption | reflexivity].
  - destruct (N.eqb_spec (n8 v) 1) as [E1|E1]; [|discriminate].
    intro H; inversion H. right; split; [assumption | reflexivity].
Qed.

Lemma decode_spec_ok hrp syms h data : decode_spec hrp syms = DOk h data ->
  pre hrp (length syms) = true /\
  exists v e, nth_error syms 0 = Some v /\ encoding_of_version v = Some e /\
              polymod (hrp_expand hrp ++ ints syms) = e.
Proof.
  unfold decode_spec. destruct (pre hrp (length syms)); [|discriminate]. cbn [negb].
  destruct (length syms =? 12)%nat; [discriminate|]. destruct syms as [|v r]; [discriminate|].
  destruct (encoding_of_version v) as [e|] eqn:Ev; [|discriminate].
  destruct (N.eqb_spec (polymod (hrp_expand hrp ++ ints (v :: r))) e) as [Ee|]; [|discriminate].
  intros _. split; [reflexivity|]. exists v, e. split; [reflexivity|]. split; [exact Ev | exact Ee].
Qed.

(* the rejection argument shared by all substitution theorems: the polymod of the
   changed string is the old one xor a syndrome Sy; Sy is non-zero, and differs from
   BLECH32 xor BLECH32M whenever the version symbol changed *)
Lemma reject_by_syndrome hrp hrp' syms syms' data Sy :
  decode_spec hrp syms = DOk hrp data ->
  polymod (hrp_expand hrp' ++ ints syms') = N.lxor (polymod (hrp_expand hrp ++ ints syms)) Sy ->
  Sy <> 0 ->
  (forall v v', nth_error syms 0 = Some v -> nth_error syms' 0 = Some v' ->
                n8 v <= 1 -> n8 v' <= 1 -> n8 v' <> n8 v -> Sy <> BM) ->
  decode_spec hrp' syms' = DErr.
Proof.
  intros D PM S0 SBM. destruct (decode_spec_ok _ _ _ _ D) as (_ & v & e & Hv & Ev & Ee).
  unfold decode_spec. destruct (negb (pre hrp' (length syms'))); [reflexivity|].
  destruct (length syms' =? 12)%nat; [reflexivity|]. destruct syms' as [|v' r']; [reflexivity|].
  destruct (encoding_of_version v') as [e'|] eqn:Ev'; [|reflexivity].
  rewrite PM, Ee. destruct (N.eqb_spec (N.lxor e Sy) e') as [Eq|]; [exfalso|reflexivity].
  apply lxor_move in Eq. subst Sy. specialize (SBM v v' Hv eq_refl).
  apply encoding_inv in Ev, Ev'. destruct Ev as [[H0 ->]|[H0 ->]], Ev' as [[H0' ->]|[H0' ->]].
  - apply S0, N.lxor_nilpotent.
  - apply SBM; try lia. reflexivity.
  - apply SBM; try lia. apply N.lxor_comm.
  - apply S0, N.lxor_nilpotent.
Qed.

Lemma pre_bound hrp n : pre hrp n = true -> (12 <= n /\ length hrp + n < NMAX)%nat.
Proof.
  rewrite NMAX_eq. unfold pre. intro P. apply andb_true_iff in P as [P P3]. apply andb_true_iff in P as [P1 _].
  apply negb_true_iff, orb_false_iff in P1 as [_ P1]. apply Nat.ltb_ge in P1.
  apply negb_true_iff, orb_false_iff in P3 as [_ P3]. apply Nat.ltb_ge in P3. lia.
Qed.

Lemma polymod_upd hrp syms i x y : nth_error syms i = Some y ->
  polymod (hrp_expand hrp ++ ints (upd syms i x)) =
  N.lxor (polymod (hrp_expand hrp ++ ints syms)) (shift (length syms - 1 - i) (N.lxor (n8 x) (n8 y))).
Proof.
  intro H. unfold polymod. rewrite !polymod_from_app. unfold ints. rewrite upd_map.
  rewrite (polymod_from_upd _ _ i (n8 x) (n8 y)) by (rewrite nth_error_map, H; reflexivity).
  rewrite map_length. reflexivity.
Qed.

Lemma to_chars_sym_lt syms cs : to_chars syms = Some cs -> Forall (fun b => n8 b < 32) syms.
Proof. intro H. apply to_chars_facts in H. tauto. Qed.

Lemma upd_hd {A} (v : A) r i x : i <> O -> exists r', upd (v :: r) i x = v :: r' /\ length r' = length r.
Proof. destruct i as [|i]; [congruence|]. intros _. exists (upd r i x). split; [reflexivity | apply upd_length]. Qed.

Lemma nth_error_upd_same {A} (l : list A) : forall i x, (i < length l)%nat -> nth_error (upd l i x) i = Some x.
Proof. induction l as [|a l IH]; intros [|i] x H; cbn in *; try lia; [reflexivity | apply IH; lia]. Qed.

Lemma lxor_01 a b : a <= 1 -> b <= 1 -> a <> b -> N.lxor a b = 1.
Proof.
  intros Ha Hb Hab. assert (Ca : a = 0 \/ a = 1) by lia. assert (Cb : b = 0 \/ b = 1) by lia.
  destruct Ca, Cb; subst; try congruence; reflexivity.
Qed.

(* a substituted symbol xors a non-zero five-bit value into its position *)
Lemma subst_sym syms syms' i x y : Forall (fun b => n8 b < 32) syms -> Forall (fun b => n8 b < 32) syms' ->
  nth_error syms i = Some y -> nth_error syms' i = Some x -> x <> y -> In (N.lxor (n8 x) (n8 y)) vals.
Proof.
  intros F F' Hy Hx Hxy. apply lxor_in_vals; [exact (Forall_nth_error _ _ _ _ F' Hx) | exact (Forall_nth_error _ _ _ _ F Hy) |].
  intro E. apply n8_inj in E. contradiction.
Qed.

(* if the version symbol changed between 0 and 1, the substitution is at position 0 and its value is 1 *)
Lemma flip_at syms i x y v v' : nth_error syms i = Some y ->
  nth_error syms 0 = Some v -> nth_error (upd syms i x) 0 = Some v' ->
  n8 v <= 1 -> n8 v' <= 1 -> n8 v' <> n8 v -> i = O /\ N.lxor (n8 x) (n8 y) = 1.
Proof.
  intros Hy Hv Hv' B B' Ne. destruct i as [|i].
  - rewrite nth_error_upd_same in Hv' by (apply nth_error_Some; congruence).
    split; [reflexivity|]. apply lxor_01; congruence.
  - rewrite nth_error_upd_other in Hv' by discriminate. congruence.
Qed.

(* ONE substituted symbol of the data part (version symbol, payload or checksum) *)
Theorem detects_one hrp syms cs data i x y cs' :
  map to_lower hrp = hrp -> to_chars syms = Some cs ->
  decode (hrp ++ sep :: cs) = DOk hrp data ->
  nth_error syms i = Some y -> x <> y -> to_chars (upd syms i x) = Some cs' ->
  decode (hrp ++ sep :: cs') = DErr.
Proof.
  intros LH TC D Hy Hxy TC'.
  rewrite (decode_canon _ _ _ TC LH) in D. rewrite (decode_canon _ _ _ TC' LH).
  assert (Hi : (i < length syms)%nat) by (apply nth_error_Some; congruence).
  pose proof (subst_sym _ _ i x y (to_chars_sym_lt _ _ TC) (to_chars_sym_lt _ _ TC') Hy
                (nth_error_upd_same _ _ _ Hi) Hxy) as V.
  destruct (decode_spec_ok _ _ _ _ D) as [P _]. apply pre_bound in P as [_ BN].
  eapply reject_by_syndrome; [exact D | exact (polymod_upd hrp syms i x y Hy) | |].
  - apply syndrome_nonzero; [lia | exact V].
  - intros v v' Hv Hv' B B' Ne. destruct (flip_at _ _ _ _ _ _ Hy Hv Hv' B B' Ne) as [-> ->].
    apply flip_not_BM. lia.
Qed.

Lemma pair_nonzero d1 d2 e1 e2 : (d1 < NMAX)%nat -> (d2 < NMAX)%nat -> d1 <> d2 -> In e1 vals -> In e2 vals ->
  N.lxor (shift d1 e1) (shift d2 e2) <> 0.
Proof.
  intros H1 H2 Hd V1 V2 E. apply N.lxor_eq in E.
  destruct (syndromes_distinct _ _ _ _ H1 H2 V1 V2 E) as [Ed _]. contradiction.
Qed.

(* TWO substituted symbols of the data part, at different positions *)
Theorem detects_two hrp syms cs data i1 x1 y1 i2 x2 y2 cs' :
  map to_lower hrp = hrp -> to_chars syms = Some cs ->
  decode (hrp ++ sep :: cs) = DOk hrp data ->
  i1 <> i2 ->
  nth_error syms i1 = Some y1 -> x1 <> y1 ->
  nth_error syms i2 = Some y2 -> x2 <> y2 ->
  to_chars (upd (upd syms i1 x1) i2 x2) = Some cs' ->
  decode (hrp ++ sep :: cs') = DErr.
Proof.
  intros LH TC D Hi12 Hy1 Hx1 Hy2 Hx2 TC'.
  rewrite (decode_canon _ _ _ TC LH) in D. rewrite (decode_canon _ _ _ TC' LH).
  destruct (decode_spec_ok _ _ _ _ D) as [P _]. apply pre_bound in P as [_ BN].
  assert (Hi1 : (i1 < length syms)%nat) by (apply nth_error_Some; congruence).
  assert (Hi2 : (i2 < length syms)%nat) by (apply nth_error_Some; congruence).
  assert (Hy2' : nth_error (upd syms i1 x1) i2 = Some y2) by (rewrite nth_error_upd_other by exact Hi12; exact Hy2).
  pose proof (to_chars_sym_lt _ _ TC) as F. pose proof (to_chars_sym_lt _ _ TC') as F'.
  assert (V1 : In (N.lxor (n8 x1) (n8 y1)) vals).
  { apply (subst_sym syms _ i1 x1 y1 F F' Hy1); [|exact Hx1].
    rewrite nth_error_upd_other by congruence. apply nth_error_upd_same, Hi1. }
  assert (V2 : In (N.lxor (n8 x2) (n8 y2)) vals).
  { apply (subst_sym syms _ i2 x2 y2 F F' Hy2); [|exact Hx2]. apply nth_error_upd_same. rewrite upd_length. exact Hi2. }
  pose proof (polymod_upd hrp (upd syms i1 x1) i2 x2 y2 Hy2') as PM.
  rewrite (polymod_upd hrp syms i1 x1 y1 Hy1), upd_length, N.lxor_assoc in PM.
  eapply reject_by_syndrome; [exact D | exact PM | apply pair_nonzero; try assumption; lia |].
  intros v v' Hv Hv' B B' Ne.
  destruct i1 as [|i1], i2 as [|i2]; [congruence | | |].
  - rewrite nth_error_upd_other in Hv' by discriminate.
    destruct (flip_at _ _ _ _ _ _ Hy1 Hv Hv' B B' Ne) as [_ ->].
    apply flip_pair_not_BM; [lia | lia | exact V2].
  - assert (Hv1 : nth_error (upd syms (S i1) x1) 0 = Some v) by (rewrite nth_error_upd_other by discriminate; exact Hv).
    destruct (flip_at _ _ _ _ _ _ Hy2' Hv1 Hv' B B' Ne) as [_ ->].
    rewrite N.lxor_comm. apply flip_pair_not_BM; [lia | lia | exact V1].
  - rewrite !nth_error_upd_other in Hv' by discriminate. congruence.
Qed.

Lemma nth_opt_some {A} (l : list A) : forall i, i < N.of_nat (length l) -> exists c, nth_opt l i = Some c.
Proof.
  induction l as [|a l IH]; intros i H; cbn [length] in H; [lia|]. cbn [nth_opt].
  destruct (N.eqb_spec i 0); [eexists; reflexivity|]. apply IH. lia.
Qed.

Lemma to_chars_total : forall syms, Forall (fun b => n8 b < 32) syms -> exists cs, to_chars syms = Some cs.
Proof.
  induction syms as [|b syms IH]; intro F; [exists []; reflexivity|].
  inversion F as [|b' s' Hb F']; subst. destruct (IH F') as [cs E].
  destruct (nth_opt_some charset (n8 b)) as [c Ec]; [rewrite charset_length; exact Hb|].
  exists (c :: cs). cbn [to_chars]. rewrite Ec, E. reflexivity.
Qed.

Lemma checksum_length hrp data enc : length (create_checksum hrp data enc) = 12%nat.
Proof. reflexivity. Qed.

Lemma polymod_data_checksum hrp data enc : enc < 2 ^ 60 ->
  polymod (hrp_expand hrp ++ ints (data ++ create_checksum hrp data enc)) = enc.
Proof.
  intro He. pose proof (checksum_correct hrp data enc He) as H. unfold verify_checksum in H.
  apply N.eqb_eq in H. exact H.
Qed.

(* Decode of data followed by a checksum made with constant e': accepted iff e' is the constant of the version *)
Lemma decode_spec_checksummed hrp v r e' : e' < 2 ^ 60 ->
  decode_spec hrp ((v :: r) ++ create_checksum hrp (v :: r) e') =
  if negb (pre hrp (length (v :: r) + 12)) then DErr else
  match encoding_of_version v with
  | None => DErr
  | Some e => if e' =? e then DOk hrp (v :: r) else DErr
  end.
Proof.
  intro He. unfold decode_spec. rewrite app_length, checksum_length, polymod_data_checksum by exact He.
  destruct (negb (pre hrp (length (v :: r) + 12))); [reflexivity|].
  destruct (Nat.eqb_spec (length (v :: r) + 12) 12) as [E|_]; [cbn [length] in E; lia|].
  rewrite Nat.add_sub, <- (Nat.add_0_r (length (v :: r))), firstn_app_2. cbn [firstn app]. rewrite app_nil_r. reflexivity.
Qed.

Lemma encoding_bound v e : encoding_of_version v = Some e -> e < 2 ^ 60.
Proof. intro Ev. apply encoding_inv in Ev as [[_ ->]|[_ ->]]; apply consts_bound. Qed.

(* Encode then Decode returns the data (version symbol 0 with BLECH32, 1 with BLECH32M) *)
Theorem encode_decode hrp v r e :
  map to_lower hrp = hrp -> pre hrp (length (v :: r) + 12) = true ->
  Forall (fun b => n8 b < 32) (v :: r) -> encoding_of_version v = Some e ->
  exists s, encode hrp (v :: r) e = Some s /\ decode s = DOk hrp (v :: r).
Proof.
  intros LH P F Ev. unfold encode.
  destruct (to_chars_total ((v :: r) ++ create_checksum hrp (v :: r) e)) as [cs TC].
  { apply Forall_app; split; [exact F | apply checksum_symbols_lt]. }
  rewrite TC. eexists; split; [reflexivity|]. change (hrp ++ [sep] ++ cs) with (hrp ++ sep :: cs).
  rewrite (decode_canon _ _ _ TC LH), decode_spec_checksummed, P, Ev, N.eqb_refl by exact (encoding_bound _ _ Ev).
  reflexivity.
Qed.

Theorem wrong_constant_rejected hrp v r e e' cs :
  map to_lower hrp = hrp ->
  encoding_of_version v = Some e -> (e' = BLECH32 \/ e' = BLECH32M) -> e' <> e ->
  to_chars ((v :: r) ++ create_checksum hrp (v :: r) e') = Some cs ->
  decode (hrp ++ sep :: cs) = DErr.
Proof.
  intros LH Ev He' Hne TC.
  rewrite (decode_canon _ _ _ TC LH), decode_spec_checksummed, Ev by (destruct He' as [-> | ->]; apply consts_bound).
  destruct (negb (pre hrp _)); [reflexivity|]. destruct (N.eqb_spec e' e); [contradiction | reflexivity].
Qed.

(* decode_generic cut into its guards, for the case rules and for the shape of accepted strings *)
Definition len_bad (s : bytes) : bool := ((length s <? 8) || (1000 <? length s))%nat.
Definition case_bad (s : bytes) : bool :=
  negb (bytes_eqb s (map to_lower s)) && negb (bytes_eqb s (map to_upper s)).
Definition dg_rest (lower : bytes) : gres :=
  match last_index sep lower with
  | None => GErr
  | Some one =>
      if ((one <? 1) || (length lower <? one + 13))%nat then GErr else
      match to_bytes (skipn (one + 1) lower) with
      | None => GErr
      | Some decoded =>
          if (length decoded <? 12)%nat then GPanic else
          GOk (firstn one lower) (firstn (length decoded - 12) decoded) (skipn (length decoded - 12) decoded)
      end
  end.

Lemma decode_generic_unfold s : decode_generic s =
  if len_bad s then GErr else if negb (forallb char_ok s) then GErr else
  if case_bad s then GErr else dg_rest (map to_lower s).
Proof. reflexivity. Qed.

Lemma to_lower_upper c : to_lower (to_upper c) = to_lower c. Proof. destruct c; reflexivity. Qed.
Lemma to_lower_idem c : to_lower (to_lower c) = to_lower c. Proof. destruct c; reflexivity. Qed.
Lemma to_upper_idem c : to_upper (to_upper c) = to_upper c. Proof. destruct c; reflexivity. Qed.
Lemma char_ok_upper c : char_ok (to_upper c) = char_ok c. Proof. destruct c; reflexivity. Qed.
Lemma char_ok_lower c : char_ok (to_lower c) = char_ok c. Proof. destruct c; reflexivity. Qed.

Lemma forallb_map {A B} (f : A -> B) (p : B -> bool) l : forallb p (map f l) = forallb (fun x => p (f x)) l.
Proof. induction l as [|a l IH]; cbn; [reflexivity | rewrite IH; reflexivity]. Qed.

Lemma decode_generic_lower s : decode_generic (map to_lower s) =
  if len_bad s then GErr else if negb (forallb char_ok s) then GErr else dg_rest (map to_lower s).
Proof.
  rewrite decode_generic_unfold. unfold len_bad, case_bad. rewrite map_length.
  rewrite forallb_map, (forallb_ext _ char_ok s char_ok_lower).
  rewrite !map_map, (map_ext _ _ to_lower_idem), bytes_eqb_refl. reflexivity.
Qed.

Lemma decode_generic_upper s : decode_generic (map to_upper s) =
  if len_bad s then GErr else if negb (forallb char_ok s) then GErr else dg_rest (map to_lower s).
Proof.
  rewrite decode_generic_unfold. unfold len_bad, case_bad. rewrite map_length.
  rewrite forallb_map, (forallb_ext _ char_ok s char_ok_upper).
  rewrite !map_map, (map_ext _ _ to_upper_idem), (map_ext _ _ to_lower_upper), bytes_eqb_refl, andb_false_r. reflexivity.
Qed.

Theorem case_insensitive s : decode (map to_upper s) = decode (map to_lower s).
Proof. unfold decode. rewrite decode_generic_upper, decode_generic_lower. reflexivity. Qed.

Theorem accepted_case_spellings s hrp data : decode s = DOk hrp data ->
  decode (map to_lower s) = DOk hrp data /\ decode (map to_upper s) = DOk hrp data.
Proof.
  intro H. rewrite case_insensitive. assert (E : decode (map to_lower s) = decode s); [|rewrite E; tauto].
  unfold decode in *. rewrite decode_generic_lower. rewrite decode_generic_unfold in *.
  destruct (len_bad s); [discriminate|]. destruct (negb (forallb char_ok s)); [discriminate|].
  destruct (case_bad s); [discriminate | reflexivity].
Qed.

Definition is_lower_letter (c : byte) : bool := (97 <=? n8 c) && (n8 c <=? 122).
Definition is_upper_letter (c : byte) : bool := (65 <=? n8 c) && (n8 c <=? 90).

Lemma map_fix_in {A} (f : A -> A) l : map f l = l -> forall x, In x l -> f x = x.
Proof.
  induction l as [|a l IH]; intros E x Hx; [destruct Hx|]. cbn [map] in E. inversion E as [[E1 E2]].
  destruct Hx as [<-|Hx]; [exact E1 | apply IH; assumption].
Qed.

Lemma upper_letter_moves c : is_upper_letter c = true -> to_lower c <> c.
Proof. destruct c; cbn; intro H; try discriminate H; discriminate. Qed.
Lemma lower_letter_moves c : is_lower_letter c = true -> to_upper c <> c.
Proof. destruct c; cbn; intro H; try discriminate H; discriminate. Qed.

Theorem mixed_case_rejected s a b : In a s -> is_lower_letter a = true -> In b s -> is_upper_letter b = true ->
  decode s = DErr.
Proof.
  intros Ha La Hb Ub. unfold decode. rewrite decode_generic_unfold.
  destruct (len_bad s); [reflexivity|]. destruct (negb (forallb char_ok s)); [reflexivity|].
  assert (C : case_bad s = true); [|rewrite C; reflexivity].
  unfold case_bad. apply andb_true_iff; split; apply negb_true_iff.
  - destruct (bytes_eqb s (map to_lower s)) eqn:E; [|reflexivity]. apply bytes_eqb_eq in E.
    exfalso. apply (upper_letter_moves b Ub). apply (map_fix_in to_lower s); [symmetry; exact E | exact Hb].
  - destruct (bytes_eqb s (map to_upper s)) eqn:E; [|reflexivity]. apply bytes_eqb_eq in E.
    exfalso. apply (lower_letter_moves a La). apply (map_fix_in to_upper s); [symmetry; exact E | exact Ha].
Qed.

(* the hypotheses are satisfiable: a testnet address produced by the implementation
   (v0, 20-byte program, 33-byte blinding key) *)
Definition ex_hrp : bytes := map b8 [116; 108; 113].   (* "tlq" *)
Definition ex_syms : bytes := map b8 [0; 23; 21; 22; 29; 15; 13; 5; 4; 11; 5; 0; 20; 12; 26; 31; 31; 6; 6; 30; 14; 15; 31; 8; 3; 31; 25; 22; 28; 14; 10; 26; 13; 13; 22; 2; 19; 30; 27; 25; 14; 24; 3; 1; 8; 31; 29; 18; 14; 21; 10; 19; 22; 5; 13; 19; 0; 14; 5; 3; 17; 2; 15; 4; 21; 29; 23; 12; 17; 23; 20; 12; 20; 22; 9; 29; 5; 21; 4; 20; 26; 16; 22; 1; 10; 18; 10; 22; 11; 8; 22; 30; 4; 0; 4; 21; 5; 13].
Definition ex_addr : option bytes := encode ex_hrp (firstn 86 ex_syms) BLECH32.

Example ex_valid : exists cs, to_chars ex_syms = Some cs /\ map to_lower ex_hrp = ex_hrp /\
  ex_addr = Some (ex_hrp ++ sep :: cs) /\
  decode (ex_hrp ++ sep :: cs) = DOk ex_hrp (firstn 86 ex_syms) /\
  nth_error ex_syms 5 = Some (b8 15) /\
  (exists cs', to_chars (upd ex_syms 5 (b8 22)) = Some cs' /\ decode (ex_hrp ++ sep :: cs') = DErr).
Proof.
  eexists. split; [vm_compute; reflexivity|]. split; [reflexivity|]. split; [vm_compute; reflexivity|].
  split; [vm_compute; reflexivity|]. split; [reflexivity|].
  eexists. split; vm_compute; reflexivity.
Qed.

Lemma index_of_nth c : forall l k i, index_of c l k = Some i -> k <= i /\ nth_opt l (i - k) = Some c.
Proof.
  induction l as [|x l IH]; intros k i H; cbn [index_of] in H; [discriminate|].
  destruct (beqb x c) eqn:E.
  - inversion H; subst i. apply beqb_eq in E. subst x. split; [lia|]. rewrite N.sub_diag. reflexivity.
  - apply IH in H as [H1 H2]. split; [lia|]. cbn [nth_opt].
    destruct (N.eqb_spec (i - k) 0) as [Z|Z]; [lia|]. replace (i - k - 1) with (i - (k + 1)) by lia. exact H2.
Qed.

Lemma to_bytes_to_chars : forall cs dec, to_bytes cs = Some dec -> to_chars dec = Some cs.
Proof.
  induction cs as [|c cs IH]; intros dec H; cbn [to_bytes] in H.
  - inversion H. reflexivity.
  - destruct (index_of c charset 0) as [i|] eqn:E; [|discriminate].
    destruct (to_bytes cs) as [d|] eqn:E'; [|discriminate]. inversion H; subst dec.
    apply index_of_nth in E as [_ E]. rewrite N.sub_0_r in E.
    pose proof (nth_opt_lt _ _ _ E) as L. rewrite charset_length in L. change (N.of_nat 32) with 32 in L.
    cbn [to_chars]. rewrite n8_b8, N.mod_small by lia. rewrite E, (IH d eq_refl). reflexivity.
Qed.

Lemma last_index_from_some c : forall s i acc k, last_index_from c s i acc = Some k ->
  acc = Some k \/ ((i <= k)%nat /\ nth_error s (k - i) = Some c).
Proof.
  induction s as [|x s IH]; intros i acc k H; cbn [last_index_from] in H; [left; exact H|].
  apply IH in H as [H|[H1 H2]].
  - destruct (beqb x c) eqn:E; [|left; exact H].
    inversion H; subst k. right. split; [lia|]. rewrite Nat.sub_diag. apply beqb_eq in E. subst. reflexivity.
  - right. split; [lia|]. replace (k - i)%nat with (S (k - S i)) by lia. exact H2.
Qed.

Lemma split_at {A} (l : list A) : forall k c, nth_error l k = Some c -> l = firstn k l ++ c :: skipn (k + 1) l.
Proof.
  induction l as [|a l IH]; intros [|k] c H; cbn in H; try discriminate.
  - inversion H. reflexivity.
  - cbn [firstn skipn Nat.add app]. f_equal. apply IH. exact H.
Qed.

Lemma accepted_parts s hrp data : decode s = DOk hrp data ->
  exists chk cs v r e, to_chars (data ++ chk) = Some cs /\ map to_lower s = hrp ++ sep :: cs /\
    map to_lower hrp = hrp /\ length chk = 12%nat /\ data = v :: r /\ encoding_of_version v = Some e /\
    polymod (hrp_expand hrp ++ ints (data ++ chk)) = e.
Proof.
  unfold decode. destruct (decode_generic s) as [h d c| |] eqn:G; try discriminate.
  destruct d as [|v r]; [discriminate|]. destruct (encoding_of_version v) as [e|] eqn:Ev; [|discriminate].
  unfold verify_checksum.
  destruct (N.eqb_spec (polymod (hrp_expand h ++ ints ((v :: r) ++ c))) e) as [PM|]; [|discriminate].
  intro H; inversion H; subst h data. clear H.
  rewrite decode_generic_unfold in G.
  destruct (len_bad s); [discriminate|]. destruct (negb (forallb char_ok s)); [discriminate|].
  destruct (case_bad s); [discriminate|]. unfold dg_rest in G. set (lower := map to_lower s) in *.
  destruct (last_index sep lower) as [one|] eqn:LI; [|discriminate].
  destruct ((one <? 1)%nat || (length lower <? one + 13)%nat); [discriminate|].
  destruct (to_bytes (skipn (one + 1) lower)) as [dec|] eqn:TB; [|discriminate].
  destruct (Nat.ltb_spec (length dec) 12) as [|L12]; [discriminate|]. injection G as G1 G2 G3. subst hrp c.
  assert (Ed : (v :: r) ++ skipn (length dec - 12) dec = dec) by (rewrite <- G2; apply firstn_skipn).
  exists (skipn (length dec - 12) dec), (skipn (one + 1) lower), v, r, e.
  split; [rewrite Ed; apply to_bytes_to_chars; exact TB|].
  split; [|split; [|split; [|split; [reflexivity | split; [exact Ev | exact PM]]]]].
  - unfold last_index in LI. apply last_index_from_some in LI as [LI|[_ LI]]; [discriminate|].
    rewrite Nat.sub_0_r in LI. apply split_at. exact LI.
  - unfold lower. rewrite firstn_map, map_map. apply map_ext. apply to_lower_idem.
  - rewrite skipn_length. lia.
Qed.

Theorem accepted_shape s hrp data : decode s = DOk hrp data ->
  exists syms cs, to_chars syms = Some cs /\ map to_lower s = hrp ++ sep :: cs /\
                  map to_lower hrp = hrp /\ data = firstn (length syms - 12) syms.
Proof.
  intro D. destruct (accepted_parts s hrp data D) as (chk & cs & _ & _ & _ & TC & Sh & LH & Lc & _).
  exists (data ++ chk), cs. repeat split; try assumption.
  rewrite app_length, Lc, Nat.add_sub, <- (Nat.add_0_r (length data)), firstn_app_2. cbn [firstn]. symmetry. apply app_nil_r.
Qed.

Theorem constant_selected_by_version s hrp data : decode s = DOk hrp data ->
  exists v r chk, data = v :: r /\ length chk = 12%nat /\
    ((n8 v = 0 /\ polymod (hrp_expand hrp ++ ints (data ++ chk)) = BLECH32) \/
     (n8 v = 1 /\ polymod (hrp_expand hrp ++ ints (data ++ chk)) = BLECH32M)).
Proof.
  intro D. destruct (accepted_parts s hrp data D) as (chk & cs & v & r & e & _ & _ & _ & Lc & Dv & Ev & PM).
  exists v, r, chk. split; [exact Dv|]. split; [exact Lc|].
  apply encoding_inv in Ev as [[Hv ->]|[Hv ->]]; [left | right]; split; assumption.
Qed.

Lemma ints_inj a b : ints a = ints b -> a = b.
Proof.
  revert b; induction a as [|x a IH]; intros [|y b] H; cbn in H; try discriminate; [reflexivity|].
  inversion H as [[H1 H2]]. apply n8_inj in H1. apply IH in H2. congruence.
Qed.

Theorem checksum_unique hrp data chk e : length chk = 12%nat -> Forall (fun b => n8 b < 32) chk ->
  polymod (hrp_expand hrp ++ ints (data ++ chk)) = e -> create_checksum hrp data e = chk.
Proof.
  intros L F PM. unfold create_checksum. apply ints_inj. rewrite ints_checksum_symbols.
  assert (Fi : Forall (fun v => v < 32) (ints chk)) by (unfold ints; rewrite Forall_map; exact F).
  assert (Li : length (ints chk) = 12%nat) by (unfold ints; rewrite map_length; exact L).
  destruct (pack_digits (ints chk) ltac:(lia) Fi) as [_ D]. rewrite Li in D.
  unfold ints in PM at 1. rewrite map_app in PM. fold (ints data) (ints chk) in PM.
  unfold polymod in *. rewrite app_assoc, polymod_from_app, (polymod_from_12 _ _ Li Fi) in PM.
  rewrite !app_assoc, polymod_from_app, (lxor_move _ _ _ PM), syms12_digits. exact D.
Qed.

Lemma accepted_syms_lt data chk cs : to_chars (data ++ chk) = Some cs ->
  Forall (fun b => n8 b < 32) data /\ Forall (fun b => n8 b < 32) chk.
Proof. intro TC. apply Forall_app. exact (to_chars_sym_lt _ _ TC). Qed.

Theorem decode_encode s hrp data : decode s = DOk hrp data ->
  exists v r e, data = v :: r /\ encoding_of_version v = Some e /\ encode hrp data e = Some (map to_lower s).
Proof.
  intro D. destruct (accepted_parts s hrp data D) as (chk & cs & v & r & e & TC & Sh & _ & Lc & Dv & Ev & PM).
  exists v, r, e. split; [exact Dv|]. split; [exact Ev|].
  unfold encode. rewrite (checksum_unique hrp data chk e Lc (proj2 (accepted_syms_lt _ _ _ TC)) PM), TC, Sh. reflexivity.
Qed.

Lemma decode_data_syms s hrp data : decode s = DOk hrp data -> Forall (fun b => n8 b < 32) data.
Proof.
  intro D. destruct (accepted_parts s hrp data D) as (chk & cs & _ & _ & _ & TC & _).
  exact (proj1 (accepted_syms_lt _ _ _ TC)).
Qed.

Lemma sep_lower x : beqb (to_lower x) sep = beqb x sep.
Proof. destruct x; reflexivity. Qed.

Lemma last_index_lower s : last_index sep (map to_lower s) = last_index sep s.
Proof.
  unfold last_index. generalize O (@None nat). induction s as [|x s IH]; intros i acc; cbn [map last_index_from]; [reflexivity|].
  rewrite sep_lower. apply IH.
Qed.
