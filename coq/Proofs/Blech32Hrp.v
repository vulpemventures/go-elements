(* Proofs/Blech32Hrp.v — C15, substitutions inside the human-readable part.
   One or two substituted HRP characters, or one HRP character together with one data-part
   symbol, of a valid blech32 string with one of the three network prefixes (taken from
   Gen/NetConsts.v) are rejected by Decode's checksum, for every length the decoder accepts.
   A changed character changes two symbols of the expanded prefix (its high bits and, len+1
   places later, its low bits), so by linearity it xors shift k (cdiff ...) into the polymod:
   a shifted two-symbol word, where cdiff depends on the two characters and the length len of
   the prefix only (polymod_hrp_upd).  The prefixes are lower-case letters and the alphabet is
   lower-case letters and digits, whose high bits are 3 and 1: the high bits change by 0 or 2.
   So cdiff is a non-zero five-bit value (vals, as for a data symbol) or one of the 32 words
   hs len = shift (len+1) 2 xor low, and len is 2 or 3 (std_checked evaluates this for the
   three prefixes): 64 words beside the 31 values.
   With the step injective (Proofs/Blech32.v) three finite facts about these words suffice.
   One changed character: cdiff <> 0.  Two: they are at most two places apart, so equal
   syndromes would make one word the other shifted by 1 or 2 (apart, compared directly in
   apart_checked, the cases being few).  One character and one data symbol: the data symbol lies
   later in the string, so what is needed is that no shift of the word is a single symbol or
   meets a version flip: far, by the scan of Proofs/Blech32.v over the 64 words (hs_checked).
   The version symbol is untouched in the first two cases, so BM plays no part there. *)
From GE Require Import Lib.Bytes Gen.NetConsts Model.Blech32 Proofs.Blech32.
From Coq Require Import ZifyBool ZifyN ZifyNat.
Import B32.
Open Scope N_scope.

Arguments polymod_step : simpl never.
Arguments N.shiftl : simpl never.
Arguments N.shiftr : simpl never.
Arguments N.land : simpl never.
Arguments N.lxor : simpl never.
Arguments N.testbit : simpl never.

Definition hi5 (c : byte) : N := N.shiftr (n8 c) 5.
Definition lo5 (c : byte) : N := N.land (n8 c) 31.

Definition cdiff (len : nat) (c c0 : byte) : N :=
  N.lxor (shift (len + 1) (N.lxor (hi5 c) (hi5 c0))) (N.lxor (lo5 c) (lo5 c0)).

Lemma cdiff_bound len c c0 : cdiff len c c0 < 2 ^ 60.
Proof.
  assert (S : forall a b, a < 256 -> b < 256 -> N.lxor a b < 2 ^ 60)
    by (intros; apply lxor_lt_pow2; apply small_lt60; assumption).
  assert (H : forall x, hi5 x < 256).
  { intro x. unfold hi5. rewrite N.shiftr_div_pow2. pose proof (n8_lt x). apply N.div_lt_upper_bound; [discriminate | lia]. }
  assert (L : forall x, lo5 x < 256) by (intro x; pose proof (land31_lt (n8 x)); unfold lo5; lia).
  apply lxor_lt_pow2; [apply shift_bound|]; apply S; auto.
Qed.

Lemma upd_app_l {A} (a l : list A) : forall i x, (i < length a)%nat -> upd (a ++ l) i x = upd a i x ++ l.
Proof.
  induction a as [|b a IH]; intros [|i] x H; cbn [length] in H; try lia; cbn [app upd]; [reflexivity|].
  rewrite IH by lia. reflexivity.
Qed.

Lemma hrp_expand_upd h p c : (p < length h)%nat ->
  hrp_expand (upd h p c) = upd (upd (hrp_expand h) p (hi5 c)) (length h + 1 + p) (lo5 c).
Proof.
  intro H. unfold hrp_expand. rewrite !upd_map. fold (hi5 c) (lo5 c).
  rewrite upd_app_l by (rewrite map_length; exact H).
  set (a := upd (map (fun c => N.shiftr (n8 c) 5) h) p (hi5 c)).
  assert (La : length a = length h) by (unfold a; rewrite upd_length, map_length; reflexivity).
  rewrite !(app_assoc a [0]). replace (length h + 1 + p)%nat with (length (a ++ [0%N]) + p)%nat
    by (rewrite app_length, La; reflexivity).
  rewrite upd_app_r. reflexivity.
Qed.

Lemma hrp_expand_nth h p c0 : nth_error h p = Some c0 ->
  nth_error (hrp_expand h) p = Some (hi5 c0) /\ nth_error (hrp_expand h) (length h + 1 + p) = Some (lo5 c0).
Proof.
  intro H. assert (Hp : (p < length h)%nat) by (apply nth_error_Some; congruence).
  unfold hrp_expand. split.
  - rewrite nth_error_app1 by (rewrite map_length; exact Hp). rewrite nth_error_map, H. reflexivity.
  - rewrite nth_error_app2 by (rewrite map_length; lia). rewrite map_length.
    replace (length h + 1 + p - length h)%nat with (S p) by lia. cbn [app nth_error].
    rewrite nth_error_map, H. reflexivity.
Qed.

Lemma hrp_expand_length h : length (hrp_expand h) = (2 * length h + 1)%nat.
Proof. unfold hrp_expand. rewrite !app_length, !map_length. cbn. lia. Qed.

(* a changed character of the prefix xors one word into the polymod, shifted by what follows *)
Lemma polymod_hrp_upd h p c c0 vs : nth_error h p = Some c0 ->
  polymod (hrp_expand (upd h p c) ++ vs) =
  N.lxor (polymod (hrp_expand h ++ vs)) (shift (length vs + (length h - 1 - p)) (cdiff (length h) c c0)).
Proof.
  intro H. assert (Hp : (p < length h)%nat) by (apply nth_error_Some; congruence).
  destruct (hrp_expand_nth h p c0 H) as [Nh Nl].
  pose proof (hrp_expand_length h) as Le.
  rewrite (hrp_expand_upd h p c Hp), <- !upd_app_l by (rewrite ?upd_length; lia).
  unfold polymod.
  rewrite (polymod_from_upd _ 1 (length h + 1 + p) (lo5 c) (lo5 c0))
    by (rewrite nth_error_upd_other by lia; rewrite nth_error_app1 by lia; exact Nl).
  rewrite (polymod_from_upd _ 1 p (hi5 c) (hi5 c0)) by (rewrite nth_error_app1 by lia; exact Nh).
  rewrite upd_length, app_length, Le, N.lxor_assoc. f_equal. unfold cdiff.
  rewrite (shift_lxor _ (shift _ _)), <- shift_add. f_equal; f_equal; lia.
Qed.

(* the three prefixes; the words cdiff takes for them *)
Definition zs (l : list Z) : bytes := map (fun z => b8 (Z.to_N z)) l.
Definition std_hrps : list bytes := [zs g_Liquid_Blech32; zs g_Testnet_Blech32; zs g_Regtest_Blech32].

Definition lens : list nat := [2; 3]%nat.
(* the high bits changed (by 2: a letter became a digit), the low bits by anything *)
Definition hs (len : nat) : list N := map (fun el => N.lxor (shift (len + 1) 2) el) (map N.of_nat (seq 0 32)).
Definition hseeds (len : nat) : list N := vals ++ hs len.

Definition std_ok (h : bytes) : bool :=
  existsb (Nat.eqb (length h)) lens &&
  forallb (fun c0 => forallb (fun c => beqb c c0 || existsb (N.eqb (cdiff (length h) c c0)) (hseeds (length h))) charset) h &&
  bytes_eqb (map to_lower h) h.

(* each prefix has length 2 or 3, is lower case, and cdiff of each of its characters against every other
   character of the alphabet is in hseeds *)
Lemma std_checked : forallb std_ok std_hrps = true.
Proof. vm_compute. reflexivity. Qed.

(* far for the 2 x 32 words of hs: the scan of seeds_far, 64 seeds of 1000 steps *)
Lemma hs_checked : match flipset with Some A => forallb (seed_ok A) (flat_map hs lens) | None => false end = true.
Proof. vm_compute. reflexivity. Qed.

(* two changed characters are at most two places apart (the prefixes have at most three) *)
Definition apart (s s' : N) : Prop := forall t, (1 <= t <= 2)%nat -> shift t s <> s'.

Lemma apart_checked :
  forallb (fun len => let l := hseeds len in
     forallb (fun s => let s1 := step0 s in let s2 := step0 s1 in
       forallb (fun s' => negb (s1 =? s') && negb (s2 =? s')) l) l) lens = true.
Proof. vm_compute. reflexivity. Qed.

Lemma hseeds_far len s : In len lens -> In s (hseeds len) -> far s.
Proof.
  intros Hl Hs. apply in_app_or in Hs as [Hs|Hs]; [apply vals_far; exact Hs|].
  apply (proj2 (seeds_far (flat_map hs lens) hs_checked)). apply in_flat_map. exists len. split; assumption.
Qed.

Lemma hseeds_apart len s s' : In len lens -> In s (hseeds len) -> In s' (hseeds len) -> apart s s'.
Proof.
  intros Hl Hs Hs' t Ht. pose proof apart_checked as C. rewrite forallb_forall in C. specialize (C len Hl).
  cbv zeta in C. rewrite forallb_forall in C. specialize (C s Hs). rewrite forallb_forall in C. specialize (C s' Hs').
  apply andb_true_iff in C as [C1 C2]. apply negb_true_iff, N.eqb_neq in C1, C2.
  assert (T : t = 1%nat \/ t = 2%nat) by lia. destruct T as [-> | ->]; assumption.
Qed.

Lemma far_nonzero s : far s -> s <> 0.
Proof.
  intros F E. destruct (F 1%nat ltac:(rewrite NMAX_eq; lia)) as [_ B]. specialize (B ltac:(lia)).
  rewrite E, shift_0 in B. lia.
Qed.

Lemma std_cdiff h p c0 c : In h std_hrps -> nth_error h p = Some c0 -> In c charset -> c <> c0 ->
  In (length h) lens /\ In (cdiff (length h) c c0) (hseeds (length h)) /\ map to_lower h = h /\ to_lower c = c.
Proof.
  intros Hh Hp Ic Nc. pose proof std_checked as C. rewrite forallb_forall in C. specialize (C h Hh).
  unfold std_ok in C. apply andb_true_iff in C as [C C3]. apply andb_true_iff in C as [C1 C2].
  split; [|split; [|split]].
  - apply existsb_exists in C1 as (l & Il & El). apply Nat.eqb_eq in El. rewrite El. exact Il.
  - rewrite forallb_forall in C2. specialize (C2 c0 (nth_error_In _ _ Hp)).
    rewrite forallb_forall in C2. specialize (C2 c Ic). apply orb_true_iff in C2 as [E|E].
    + apply beqb_eq in E. contradiction.
    + apply existsb_exists in E as (s & Is & Es). apply N.eqb_eq in Es. rewrite Es. exact Is.
  - apply bytes_eqb_eq. exact C3.
  - pose proof charset_lower as B. rewrite forallb_forall in B. apply beqb_eq, B, Ic.
Qed.

Lemma lens_le len : In len lens -> (len <= 3)%nat.
Proof. intros [<-|[<-|[]]]; lia. Qed.

Lemma lower_upd h p c : map to_lower h = h -> to_lower c = c -> map to_lower (upd h p c) = upd h p c.
Proof. intros L E. rewrite upd_map, L, E. reflexivity. Qed.

(* ONE substituted character of the human-readable part *)
Theorem detects_hrp_one h syms cs data p c0 c :
  In h std_hrps -> to_chars syms = Some cs -> decode (h ++ sep :: cs) = DOk h data ->
  nth_error h p = Some c0 -> In c charset -> c <> c0 ->
  decode (upd h p c ++ sep :: cs) = DErr.
Proof.
  intros Hh TC D Hp Ic Nc. destruct (std_cdiff h p c0 c Hh Hp Ic Nc) as (Hl & Hs & LH & Lc).
  rewrite (decode_canon _ _ _ TC LH) in D. rewrite (decode_canon _ _ _ TC (lower_upd h p c LH Lc)).
  eapply reject_by_syndrome; [exact D | exact (polymod_hrp_upd h p c c0 _ Hp) | |].
  - apply shift_nonzero; [apply cdiff_bound | exact (far_nonzero _ (hseeds_far _ _ Hl Hs))].
  - intros v v' Hv Hv' _ _ Ne. congruence.
Qed.

(* TWO substituted characters of the human-readable part *)
Theorem detects_hrp_two h syms cs data p1 c01 c1 p2 c02 c2 :
  In h std_hrps -> to_chars syms = Some cs -> decode (h ++ sep :: cs) = DOk h data ->
  p1 <> p2 ->
  nth_error h p1 = Some c01 -> In c1 charset -> c1 <> c01 ->
  nth_error h p2 = Some c02 -> In c2 charset -> c2 <> c02 ->
  decode (upd (upd h p1 c1) p2 c2 ++ sep :: cs) = DErr.
Proof.
  intros Hh TC D NE H1 I1 N1 H2 I2 N2.
  destruct (std_cdiff h p1 c01 c1 Hh H1 I1 N1) as (Hl & Hs1 & LH & Lc1).
  destruct (std_cdiff h p2 c02 c2 Hh H2 I2 N2) as (_ & Hs2 & _ & Lc2).
  assert (P1 : (p1 < length h)%nat) by (apply nth_error_Some; congruence).
  assert (P2 : (p2 < length h)%nat) by (apply nth_error_Some; congruence).
  pose proof (lens_le _ Hl) as L3.
  assert (H2' : nth_error (upd h p1 c1) p2 = Some c02) by (rewrite nth_error_upd_other by exact NE; exact H2).
  rewrite (decode_canon _ _ _ TC LH) in D.
  rewrite (decode_canon _ _ _ TC (lower_upd _ p2 c2 (lower_upd h p1 c1 LH Lc1) Lc2)).
  pose proof (polymod_hrp_upd (upd h p1 c1) p2 c2 c02 (ints syms) H2') as PM.
  rewrite (polymod_hrp_upd h p1 c1 c01 _ H1), upd_length, N.lxor_assoc in PM.
  set (G1 := cdiff (length h) c1 c01) in *. set (G2 := cdiff (length h) c2 c02) in *.
  eapply reject_by_syndrome; [exact D | exact PM | | intros v v' Hv Hv' _ _ Ne; congruence].
  intro E. apply N.lxor_eq in E. set (n := length (ints syms)) in *.
  destruct (Nat.lt_ge_cases p1 p2) as [Lt|Ge].
  - replace (n + (length h - 1 - p1))%nat with ((p2 - p1) + (n + (length h - 1 - p2)))%nat in E by lia.
    rewrite (shift_add (p2 - p1)) in E. apply shift_inj in E; [| apply shift_bound | ]; try apply cdiff_bound.
    exact (hseeds_apart _ _ _ Hl Hs1 Hs2 (p2 - p1)%nat ltac:(lia) E).
  - replace (n + (length h - 1 - p2))%nat with ((p1 - p2) + (n + (length h - 1 - p1)))%nat in E by lia.
    rewrite (shift_add (p1 - p2)) in E. apply shift_inj in E; [| | apply shift_bound]; try apply cdiff_bound.
    exact (hseeds_apart _ _ _ Hl Hs2 Hs1 (p1 - p2)%nat ltac:(lia) (eq_sym E)).
Qed.

(* ONE character of the human-readable part AND ONE symbol of the data part *)
Theorem detects_hrp_and_data h syms cs data p c0 c i x y cs' :
  In h std_hrps -> to_chars syms = Some cs -> decode (h ++ sep :: cs) = DOk h data ->
  nth_error h p = Some c0 -> In c charset -> c <> c0 ->
  nth_error syms i = Some y -> x <> y -> to_chars (upd syms i x) = Some cs' ->
  decode (upd h p c ++ sep :: cs') = DErr.
Proof.
  intros Hh TC D Hp Ic Nc Hy Hxy TC'. destruct (std_cdiff h p c0 c Hh Hp Ic Nc) as (Hl & Hs & LH & Lc).
  pose proof (hseeds_far _ _ Hl Hs) as Far. set (G := cdiff (length h) c c0) in *.
  rewrite (decode_canon _ _ _ TC LH) in D. rewrite (decode_canon _ _ _ TC' (lower_upd h p c LH Lc)).
  destruct (decode_spec_ok _ _ _ _ D) as [P _]. apply pre_bound in P as [_ BN].
  assert (Pp : (p < length h)%nat) by (apply nth_error_Some; congruence).
  assert (Hi : (i < length syms)%nat) by (apply nth_error_Some; congruence).
  pose proof (subst_sym _ _ i x y (to_chars_sym_lt _ _ TC) (to_chars_sym_lt _ _ TC') Hy
                (nth_error_upd_same _ _ _ Hi) Hxy) as V.
  set (e := N.lxor (n8 x) (n8 y)) in *. set (n := length syms) in *.
  assert (PM : polymod (hrp_expand (upd h p c) ++ ints (upd syms i x)) =
               N.lxor (polymod (hrp_expand h ++ ints syms)) (N.lxor (shift (n - 1 - i) e) (shift (n + (length h - 1 - p)) G))).
  { rewrite (polymod_hrp_upd h p c c0 _ Hp), (polymod_upd h syms i x y Hy). fold G e n.
    unfold ints. rewrite map_length, upd_length. fold n. apply N.lxor_assoc. }
  eapply reject_by_syndrome; [exact D | exact PM | |].
  - intro E. apply N.lxor_eq in E.
    replace (n + (length h - 1 - p))%nat with ((i + 1 + (length h - 1 - p)) + (n - 1 - i))%nat in E by lia.
    rewrite (shift_add (i + 1 + (length h - 1 - p))) in E.
    apply shift_inj in E; [| apply vals_lt60; exact V | apply shift_bound, cdiff_bound].
    destruct (Far (i + 1 + (length h - 1 - p))%nat ltac:(lia)) as [_ Q]. specialize (Q ltac:(lia)).
    apply in_vals in V. lia.
  - intros v v' Hv Hv' B B' Ne. destruct (flip_at _ _ _ _ _ _ Hy Hv Hv' B B' Ne) as [-> Ee]. fold e in Ee. rewrite Ee.
    intro E. apply lxor_move in E.
    destruct (Far (n + (length h - 1 - p))%nat ltac:(lia)) as [Q _].
    apply (Q (n - 1 - 0)%nat ltac:(lia)). symmetry. exact E.
Qed.

(* a string without the separator (e.g. the "1" replaced by a character of the alphabet,
   whatever else was changed) is rejected before any checksum is computed *)
Theorem no_separator_rejected s : Forall (fun c => beqb c sep = false) s -> decode s = DErr.
Proof.
  intro F. unfold decode. rewrite decode_generic_unfold.
  destruct (len_bad s); [reflexivity|]. destruct (negb (forallb char_ok s)); [reflexivity|].
  destruct (case_bad s); [reflexivity|]. unfold dg_rest. rewrite last_index_lower.
  unfold last_index. rewrite last_index_from_nosep by exact F. reflexivity.
Qed.

(* what DecodeGeneric does with a changed prefix: nothing, it does not look at the checksum *)
Theorem decode_generic_ignores_checksum hrp syms cs : to_chars syms = Some cs -> map to_lower hrp = hrp ->
  pre hrp (length syms) = true ->
  decode_generic (hrp ++ sep :: cs) = GOk hrp (firstn (length syms - 12) syms) (skipn (length syms - 12) syms).
Proof. intros TC LH P. rewrite (decode_generic_canon _ _ _ TC LH), P. reflexivity. Qed.

(* non-vacuity: the example address of Proofs/Blech32.v has the testnet prefix *)
Example ex_hrp_std : In ex_hrp std_hrps /\ nth_error ex_hrp 0 = Some (b8 116) /\ In (b8 113) charset.
Proof. split; [vm_compute; tauto|]. split; [reflexivity | vm_compute; tauto]. Qed.
