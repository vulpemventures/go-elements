(* Proofs/Blind.v — C05.  psetv2: the scalar helpers compute modulo the group order (congruence `eqn`); one
   call of Blinder.blind moves the ledger [ledger_D] (G coefficients committed on outputs minus published
   scalars) by the caller's input scalar (blind_step); summed over any run of parties (run_ledger) this is the
   balance of the final transaction (v2_balance), with a two-party example.  pset v0: the final value blinding
   factor makes the per-output arrays balance (v0_final_vbf_balances).  Surjection-proof tag lists: when the
   prover's list equals the verifier's (tags_agree), and inputs on which they differ (used by Props/C05.v).
   Last, for both versions: the outputs blinded after a successful call are exactly those asked for. *)
From GE Require Import Lib.Bytes Model.Blind.
From Coq Require Import ZifyBool ZifyN ZifyNat Setoid Morphisms.
Open Scope Z_scope.

Lemma bl_n_nz : bl_n <> 0.
Proof. discriminate. Qed.
Lemma bl_n_lt : (Z.to_N bl_n < 256 ^ N.of_nat 32)%N.
Proof. reflexivity. Qed.

(* congruence modulo n as a setoid *)
Definition eqn (a b : Z) : Prop := a mod bl_n = b mod bl_n.
#[global] Instance eqn_equiv : Equivalence eqn.
Proof. split; unfold eqn; [intro x | intros x y | intros x y z]; congruence. Qed.
#[global] Instance eqn_add : Proper (eqn ==> eqn ==> eqn) Z.add.
Proof. intros a b H c d H'. unfold eqn in *. rewrite (Z.add_mod a c), (Z.add_mod b d) by apply bl_n_nz. now rewrite H, H'. Qed.
#[global] Instance eqn_mul : Proper (eqn ==> eqn ==> eqn) Z.mul.
Proof. intros a b H c d H'. unfold eqn in *. rewrite (Z.mul_mod a c), (Z.mul_mod b d) by apply bl_n_nz. now rewrite H, H'. Qed.
#[global] Instance eqn_opp : Proper (eqn ==> eqn) Z.opp.
Proof. intros a b H. rewrite !Z.opp_eq_mul_m1. apply eqn_mul; [exact H | reflexivity]. Qed.
#[global] Instance eqn_sub : Proper (eqn ==> eqn ==> eqn) Z.sub.
Proof. intros a b H c d H'. unfold Z.sub. now rewrite H, H'. Qed.
Lemma eqn_mod a : eqn (a mod bl_n) a.
Proof. unfold eqn. apply Z.mod_mod, bl_n_nz. Qed.
Lemma eqn_of_eq a b : a = b -> eqn a b.
Proof. intros ->; reflexivity. Qed.
Global Opaque eqn.

Ltac eqn_ring := apply eqn_of_eq; ring.

Lemma bl_sc_enc z : 0 <= z < bl_n -> bl_sc (bl_enc z) = z.
Proof.
  intros H. unfold bl_sc, bl_enc. rewrite be_dec_enc.
  - apply Z2N.id. lia.
  - pose proof bl_n_lt. assert (Z.to_N z < Z.to_N bl_n)%N by (apply Z2N.inj_lt; lia). lia.
Qed.
Lemma bl_sc_enc_mod z : eqn (bl_sc (bl_enc (z mod bl_n))) z.
Proof. rewrite bl_sc_enc; [apply eqn_mod | apply Z.mod_pos_bound; reflexivity]. Qed.
Lemma bl_sc_nonneg b : 0 <= bl_sc b.
Proof. unfold bl_sc. lia. Qed.
Lemma bl_sc_zero32 : bl_sc bl_zero32 = 0.
Proof. reflexivity. Qed.

(* value of a possibly nil scalar *)
Definition bl_v (o : option bytes) : Z := match o with Some b => bl_sc b | None => 0 end.

Lemma negate_spec k r : bl_negate k = Some r -> eqn (bl_sc r) (- bl_sc k).
Proof.
  unfold bl_negate. destruct (bl_len32 k); [|discriminate]. intros [= <-]. apply bl_sc_enc_mod.
Qed.
Lemma tweak_add_spec k t r : bl_tweak_add k t = Some r -> eqn (bl_sc r) (bl_sc k + bl_sc t).
Proof.
  unfold bl_tweak_add. destruct (bl_len32 k && bl_len32 t); [|discriminate].
  destruct (bl_n <=? bl_sc t); [discriminate|].
  destruct ((bl_sc k + bl_sc t) mod bl_n =? 0); [discriminate|]. intros [= <-]. apply bl_sc_enc_mod.
Qed.
Lemma tweak_mul_spec k v r : bl_tweak_mul k v = Some r -> eqn (bl_sc r) (bl_sc k * v).
Proof.
  unfold bl_tweak_mul. destruct (bl_len32 k); [|discriminate]. destruct (v =? 0); [discriminate|].
  intros [= <-]. apply bl_sc_enc_mod.
Qed.

(* x + y by EcPrivKeyTweakAdd, which refuses a zero sum: both callers first compare x with the
   negation of y (writing the comparison either way round, hence [eqt]) *)
Lemma guarded_add_spec x y (eqt : bytes -> bool) r :
  (forall n, eqt n = true -> n = x) ->
  match bl_negate y with
  | None => None
  | Some n => if eqt n then Some (Some bl_zero32)
              else match bl_tweak_add x y with None => None | Some r' => Some (Some r') end
  end = Some r -> eqn (bl_v r) (bl_sc x + bl_sc y).
Proof.
  intros He. destruct (bl_negate y) as [n|] eqn:Hn; [|discriminate]. apply negate_spec in Hn.
  destruct (eqt n) eqn:E.
  - intros [= <-]. apply He in E. subst n. cbn [bl_v]. rewrite bl_sc_zero32, Hn. eqn_ring.
  - destruct (bl_tweak_add x y) as [r'|] eqn:Ha; [|discriminate]. intros [= <-].
    exact (tweak_add_spec _ _ _ Ha).
Qed.

(* CalculateScalarOffset computes value*assetBlinder + valueBlinder *)
Lemma calc_offset_spec v ab vb r : 0 <= v ->
  bl_calc_offset v ab vb = Some r -> eqn (bl_v r) (v * bl_v ab + bl_v vb).
Proof.
  intros Hv. unfold bl_calc_offset. destruct ab as [a|].
  - destruct (0 <? v) eqn:Hpos.
    + destruct (bl_tweak_mul a v) as [r1|] eqn:Hm; [|discriminate].
      apply tweak_mul_spec in Hm.
      destruct vb as [w|]; [|intros [= <-]; cbn [bl_v]; rewrite Hm; eqn_ring].
      intros H. apply (guarded_add_spec r1 w (fun n => bytes_eqb n r1)) in H.
      * cbn [bl_v]. rewrite H, Hm. eqn_ring.
      * intros n E. apply bytes_eqb_eq. exact E.
    + intros [= <-]. assert (v = 0) by lia. subst v. cbn [bl_v]. eqn_ring.
  - intros [= <-]. cbn [bl_v]. eqn_ring.
Qed.

(* SubtractScalars *)
Lemma sub_spec a b r : bl_sub a b = Some r -> eqn (bl_v r) (bl_v a - bl_v b).
Proof.
  unfold bl_sub. destruct b as [bb|].
  - destruct (match a with Some aa => bytes_eqb aa bb | None => false end) eqn:He.
    { destruct a as [aa|]; [|discriminate]. apply bytes_eqb_eq in He. subst bb. intros [= <-].
      cbn [bl_v]. rewrite bl_sc_zero32. eqn_ring. }
    destruct (bl_negate bb) as [nb|] eqn:Hn; [|discriminate]. apply negate_spec in Hn.
    destruct a as [aa|].
    + destruct (bl_tweak_add aa nb) as [x|] eqn:Ha; [|discriminate]. intros [= <-].
      apply tweak_add_spec in Ha. cbn [bl_v]. rewrite Ha, Hn. eqn_ring.
    + intros [= <-]. cbn [bl_v]. rewrite Hn. eqn_ring.
  - intros [= <-]. cbn [bl_v]. eqn_ring.
Qed.

(* [match o1, o2 with None, None => e | _, _ => t end] as Coq compiles it *)
Lemma match_same {A B C} (o1 : option A) (o2 : option B) (t e : C) (P : C -> Prop) :
  P t -> (o1 = None -> o2 = None -> P e) ->
  P (match o1 with Some _ => t | None => match o2 with Some _ => t | None => e end end).
Proof. destruct o1, o2; auto. Qed.

(* ComputeAndAddToScalarOffset *)
Lemma add_offset_spec s v ab vb r : 0 <= v ->
  bl_add_offset s v ab vb = Some r -> eqn (bl_v r) (bl_v s + (v * bl_v ab + bl_v vb)).
Proof.
  intros Hv. unfold bl_add_offset.
  apply (match_same ab vb _ _ (fun c => c = Some r -> eqn (bl_v r) (bl_v s + (v * bl_v ab + bl_v vb)))).
  2:{ intros -> -> [= <-]. cbn [bl_v]. eqn_ring. }
  destruct (bl_calc_offset v ab vb) as [so|] eqn:Hc; [|discriminate].
  apply calc_offset_spec in Hc; [|exact Hv]. rewrite <- Hc.
  destruct so as [o|]; [|intros [= <-]; cbn [bl_v]; eqn_ring].
  destruct s as [ss|]; [|intros [= <-]; cbn [bl_v]; eqn_ring].
  apply (guarded_add_spec ss o (fun n => bytes_eqb ss n)).
  intros n E. symmetry. apply bytes_eqb_eq. exact E.
Qed.

Definition g3 (v : Z) (ab vb : option bytes) : Z := v * bl_v ab + bl_v vb.
Fixpoint sumZ (l : list Z) : Z := match l with [] => 0 | x :: t => x + sumZ t end.
Lemma sumZ_app a b : sumZ (a ++ b) = sumZ a + sumZ b.
Proof. induction a as [|x a IH]; cbn [sumZ app]; lia. Qed.

(* non-negative amounts (uint64 in the implementation) *)
Definition wf_pset (p : bl_pset) : Prop :=
  Forall (fun i => 0 <= bpi_issv i /\ 0 <= bpi_issk i) (bps_ins p) /\ Forall (fun o => 0 <= bpo_value o) (bps_outs p).
Definition wf_owned (l : list bl_owned) : Prop := Forall (fun o => 0 <= bow_value o) l.

Lemma bl_nth_nth_error {A} (l : list A) i x : bl_nth l i = Some x -> nth_error l (N.to_nat i) = Some x.
Proof. unfold bl_nth. destruct (i <? N.of_nat (length l))%N; [auto|discriminate]. Qed.
Lemma bl_nth_Forall {A} (P : A -> Prop) (l : list A) i x : Forall P l -> bl_nth l i = Some x -> P x.
Proof. intros H Hi. exact (Forall_nth_error P l _ x H (bl_nth_nth_error l i x Hi)). Qed.
Lemma bl_nth_map {A B} (f : A -> B) l i : bl_nth (map f l) i = option_map f (bl_nth l i).
Proof.
  unfold bl_nth. rewrite map_length. destruct (i <? N.of_nat (length l))%N; [|reflexivity].
  rewrite nth_error_map. reflexivity.
Qed.

(* what calculateInputScalar adds for one owned input: its own blinders and, when the issuance
   arguments of that input are present, the issuance blinders (asset blinder zero) *)
Definition in_term (p : bl_pset) (iss : list bl_issarg) (o : bl_owned) : Z :=
  g3 (bow_value o) (bow_abf o) (bow_vbf o) +
  match bl_nth (bps_ins p) (bow_idx o) with
  | Some i =>
      if bl_has_issuance i then
        match find (fun a => (bia_idx a =? bow_idx o)%N) iss with
        | None => 0
        | Some a => bl_v (bl_or_zero (bia_vbf a)) + (if 0 <? bpi_issk i then bl_v (bl_or_zero (bia_tbf a)) else 0)
        end
      else 0
  | None => 0
  end.
Definition in_sum (p : bl_pset) (iss : list bl_issarg) (owned : list bl_owned) : Z :=
  sumZ (map (in_term p iss) owned).

Lemma input_scalar_spec p iss : wf_pset p -> forall owned s r, wf_owned owned ->
  bl_input_scalar p iss owned s = Some r -> eqn (bl_v r) (bl_v s + in_sum p iss owned).
Proof.
  intros [Hins _]. induction owned as [|o rest IH]; intros s r Hw; cbn [bl_input_scalar].
  - intros [= <-]. unfold in_sum. cbn [map sumZ]. eqn_ring.
  - inversion Hw as [|? ? Ho Hrest]; subst.
    destruct (bl_add_offset s (bow_value o) (bow_abf o) (bow_vbf o)) as [s1|] eqn:H1; [|discriminate].
    apply add_offset_spec in H1; [|exact Ho].
    destruct (bl_nth (bps_ins p) (bow_idx o)) as [i|] eqn:Hi; [|discriminate].
    destruct (bl_nth_Forall _ _ _ _ Hins Hi) as [Hv Hk].
    (* the issuance part of the step adds what in_term has beyond the input's own blinders *)
    match goal with |- match ?e with Some _ => _ | None => _ end = Some r -> _ =>
      assert (H2 : forall s3, e = Some s3 ->
        eqn (bl_v s3) (bl_v s1 + (in_term p iss o - g3 (bow_value o) (bow_abf o) (bow_vbf o))));
      [|destruct e as [s3|]; [|discriminate]]
    end.
    + unfold in_term. rewrite Hi. destruct (bl_has_issuance i); [|intros ? [= <-]; eqn_ring].
      destruct (find _ iss) as [a|]; [|intros ? [= <-]; eqn_ring].
      destruct (bl_add_offset s1 _ _ _) as [s2|] eqn:E2; [|discriminate].
      apply add_offset_spec in E2; [|exact Hv]. cbn [bl_v] in E2. rewrite bl_sc_zero32 in E2.
      destruct (0 <? bpi_issk i); [|intros ? [= <-]; rewrite E2; eqn_ring].
      intros s3 E3. apply add_offset_spec in E3; [|exact Hk]. cbn [bl_v] in E3.
      rewrite bl_sc_zero32 in E3. rewrite E3, E2. eqn_ring.
    + intros Hr. apply IH in Hr; [|exact Hrest]. rewrite Hr, (H2 _ eq_refl), H1.
      unfold in_sum. cbn [map sumZ]. unfold g3. eqn_ring.
Qed.

(* calculateOutputScalar: value of output a.Index times the asset blinder plus the value blinder;
   over the list of output values, which the write-back leaves as it is *)
Definition out_term (vals : list Z) (a : bl_outarg) : Z :=
  match bl_nth vals (boa_idx a) with Some v => g3 v (boa_abf a) (boa_vbf a) | None => 0 end.
Definition out_sum (outs : list bl_pout) (args : list bl_outarg) : Z :=
  sumZ (map (out_term (map bpo_value outs)) args).

Lemma output_sum_spec p : wf_pset p -> forall args s r,
  bl_output_sum p args s = Some r -> eqn (bl_v r) (bl_v s + out_sum (bps_outs p) args).
Proof.
  intros [_ Houts]. induction args as [|a rest IH]; intros s r.
  - cbn [bl_output_sum]. intros [= <-]. unfold out_sum. cbn [map sumZ]. eqn_ring.
  - cbn [bl_output_sum]. destruct (bl_nth (bps_outs p) (boa_idx a)) as [o|] eqn:Ho; [|discriminate].
    pose proof (bl_nth_Forall _ _ _ _ Houts Ho) as Hv.
    destruct (bl_add_offset s (bpo_value o) (boa_abf a) (boa_vbf a)) as [s1|] eqn:H1; [|discriminate].
    apply add_offset_spec in H1; [|exact Hv]. intros Hr. apply IH in Hr.
    unfold out_sum. cbn [map sumZ]. fold (out_sum (bps_outs p) rest). unfold out_term at 1. rewrite bl_nth_map, Ho. cbn [option_map].
    rewrite Hr, H1. unfold g3. eqn_ring.
Qed.

(* the scalar a blinder publishes (non-last) or folds into its last value blinder (last) *)
Lemma output_scalar_spec p inS args last r : wf_pset p ->
  bl_output_scalar p inS args last = Some r ->
  eqn (bl_v r) (out_sum (bps_outs p) args - bl_v inS).
Proof.
  intros Hw. unfold bl_output_scalar.
  destruct (bl_output_sum p args None) as [s|] eqn:Hs; [|discriminate].
  apply output_sum_spec in Hs; [|exact Hw]. cbn [bl_v] in Hs.
  intros Hr. apply sub_spec in Hr. rewrite Hr, Hs. eqn_ring.
Qed.

Lemma sub_all_spec l : forall s r, bl_sub_all s l = Some r -> eqn (bl_v r) (bl_v s - sumZ (map bl_sc l)).
Proof.
  induction l as [|x t IH]; intros s r; cbn [bl_sub_all map sumZ].
  - intros [= <-]. eqn_ring.
  - destruct (bl_sub s (Some x)) as [s1|] eqn:H1; [|discriminate]. apply sub_spec in H1. cbn [bl_v] in H1.
    intros Hr. apply IH in Hr. rewrite Hr, H1. eqn_ring.
Qed.

(* calculateLastValueBlinder: provisional blinder - output scalar - every published scalar *)
Lemma last_vbf_spec p lastarg outS r :
  bl_last_vbf p lastarg outS = Some r ->
  eqn (bl_v r) (bl_v (boa_vbf lastarg) - bl_v outS - sumZ (map bl_sc (bps_scalars p))).
Proof.
  unfold bl_last_vbf. destruct (bl_sub (boa_vbf lastarg) outS) as [s|] eqn:H1; [|discriminate].
  apply sub_spec in H1. intros Hr. apply sub_all_spec in Hr. rewrite Hr, H1. reflexivity.
Qed.

(* G coefficient of the commitment written on an output (0 while it is explicit) *)
Definition out_g (o : bl_pout) : Z :=
  match bpo_open o with Some (a, v) => bpo_value o * bl_sc a + bl_sc v | None => 0 end.
Definition ledger_out (outs : list bl_pout) : Z := sumZ (map out_g outs).
Definition scal_sum (p : bl_pset) : Z := sumZ (map bl_sc (bps_scalars p)).
(* what has been committed on outputs and not yet been accounted for by a published scalar *)
Definition ledger_D (p : bl_pset) : Z := ledger_out (bps_outs p) - scal_sum p.

Lemma upd_sum {A} (f : A -> Z) : forall l i x y, nth_error l i = Some y ->
  sumZ (map f (bl_upd l i x)) = sumZ (map f l) - f y + f x.
Proof.
  induction l as [|h t IH]; intros [|i] x y; cbn [nth_error bl_upd map sumZ]; try discriminate.
  - intros [= <-]. lia.
  - intros H. rewrite (IH _ _ _ H). lia.
Qed.
Lemma upd_map_same {A B} (f : A -> B) : forall l i x y, nth_error l i = Some y -> f x = f y ->
  map f (bl_upd l i x) = map f l.
Proof.
  induction l as [|h t IH]; intros [|i] x y; cbn [nth_error bl_upd map]; try discriminate.
  - intros [= <-] ->. reflexivity.
  - intros H E. now rewrite (IH _ _ _ H E).
Qed.
Lemma Forall_upd {A} (P : A -> Prop) : forall l i x, Forall P l -> P x -> Forall P (bl_upd l i x).
Proof.
  induction l as [|h t IH]; intros [|i] x Hl Hx; cbn [bl_upd]; auto; inversion Hl; subst; constructor; auto.
Qed.
Lemma bl_sc_ob o : bl_sc (bl_ob o) = bl_v o.
Proof. destruct o; reflexivity. Qed.

(* no output is blinded twice: every slot a blinder writes is still explicit when it writes it *)
Fixpoint fresh_outs (outs : list bl_pout) (args : list bl_outarg) (last : bool) (lv : bytes) : Prop :=
  match args with
  | [] => True
  | a :: rest =>
      let islast := last && match rest with [] => true | _ => false end in
      match bl_nth outs (boa_idx a) with Some o => bpo_open o = None | None => False end /\
      fresh_outs (bl_write_out outs (boa_idx a) (bl_ob (boa_abf a)) (if islast then lv else bl_ob (boa_vbf a))) rest last lv
  end.

(* what the write-back adds: like out_sum, but the last blinder's last output carries lv *)
Fixpoint wb_sum (vals : list Z) (args : list bl_outarg) (last : bool) (lv : bytes) : Z :=
  match args with
  | [] => 0
  | a :: rest =>
      let islast := last && match rest with [] => true | _ => false end in
      match bl_nth vals (boa_idx a) with
      | Some v => v * bl_v (boa_abf a) + (if islast then bl_sc lv else bl_v (boa_vbf a))
      | None => 0
      end + wb_sum vals rest last lv
  end.

Lemma write_out_vals outs idx a v : map bpo_value (bl_write_out outs idx a v) = map bpo_value outs.
Proof.
  unfold bl_write_out. destruct (bl_nth outs idx) as [o|] eqn:Ho; [|reflexivity].
  apply bl_nth_nth_error in Ho. now apply (upd_map_same bpo_value _ _ _ _ Ho).
Qed.

Lemma write_outs_ledger last lv : forall args outs, fresh_outs outs args last lv ->
  ledger_out (bl_write_outs outs args last lv) = ledger_out outs + wb_sum (map bpo_value outs) args last lv.
Proof.
  induction args as [|a rest IH]; intros outs Hf; cbn [bl_write_outs wb_sum fresh_outs] in *.
  - lia.
  - destruct Hf as [Hslot Hf]. destruct (bl_nth outs (boa_idx a)) as [o|] eqn:Ho; [|contradiction].
    rewrite (IH _ Hf). rewrite write_out_vals. rewrite bl_nth_map, Ho. cbn [option_map].
    unfold bl_write_out. rewrite Ho. unfold ledger_out at 1.
    rewrite (upd_sum out_g _ _ _ _ (bl_nth_nth_error _ _ _ Ho)). fold (ledger_out outs).
    unfold out_g at 1. rewrite Hslot. unfold out_g. cbn [bpo_open bpo_value].
    rewrite bl_sc_ob. destruct (last && match rest with [] => true | _ => false end); rewrite ?bl_sc_ob; lia.
Qed.

Lemma wb_sum_spec vals last lv : forall pre la,
  bl_nth vals (boa_idx la) <> None ->
  wb_sum vals (pre ++ [la]) last lv =
  sumZ (map (out_term vals) (pre ++ [la])) - (if last then bl_v (boa_vbf la) - bl_sc lv else 0).
Proof.
  induction pre as [|a pre IH]; intros la Hla.
  - cbn [app wb_sum map sumZ]. unfold out_term, g3. destruct (bl_nth vals (boa_idx la)); [|congruence].
    destruct last; cbn [andb]; lia.
  - cbn [app wb_sum map sumZ]. rewrite (IH la Hla).
    replace (match pre ++ [la] with [] => true | _ :: _ => false end) with false by (destruct pre; reflexivity).
    rewrite Bool.andb_false_r. unfold out_term at 2, g3. destruct (bl_nth vals (boa_idx a)); lia.
Qed.

(* Pset.IsFullyBlinded as coded answers false on every packet, so Blinder.blind never returns early *)
Lemma is_fully_blinded_false p : bl_is_fully_blinded p = false.
Proof.
  unfold bl_is_fully_blinded, bl_needs_blinding.
  destruct (existsb (fun o => bl_out_needs o && negb (bl_out_full o)) (bps_outs p)); reflexivity.
Qed.

Lemma write_iss_wf ins a : Forall (fun i => 0 <= bpi_issv i /\ 0 <= bpi_issk i) ins ->
  Forall (fun i => 0 <= bpi_issv i /\ 0 <= bpi_issk i) (bl_write_iss ins a).
Proof.
  intros H. unfold bl_write_iss. destruct (bl_nth ins (bia_idx a)) as [i|] eqn:Hi; [|exact H].
  apply Forall_upd; [exact H|]. exact (bl_nth_Forall _ _ _ _ H Hi).
Qed.
Lemma write_outs_wf last lv : forall args outs, Forall (fun o => 0 <= bpo_value o) outs ->
  Forall (fun o => 0 <= bpo_value o) (bl_write_outs outs args last lv).
Proof.
  induction args as [|a rest IH]; intros outs H; cbn [bl_write_outs]; [exact H|]. apply IH.
  unfold bl_write_out. destruct (bl_nth outs (boa_idx a)) as [o|] eqn:Ho; [|exact H].
  apply Forall_upd; [exact H|]. exact (bl_nth_Forall _ _ _ _ H Ho).
Qed.

(* what a successful Blinder.blind went through *)
Lemma blind_inv p owned iss args0 last vok s : bl_blind p owned iss args0 last vok = BOk s ->
  exists inS outS lastarg rargs lv,
    forallb (bl_outarg_ok p) (bl_sort args0) = true /\
    bl_input_scalar p iss owned None = Some inS /\
    bl_output_scalar p inS (bl_sort args0) last = Some outS /\
    rev (bl_sort args0) = lastarg :: rargs /\
    (if last then bl_last_vbf p lastarg outS else Some None) = Some lv /\
    s = bmk_step (bmk_pset (fold_left bl_write_iss iss (bps_ins p))
                           (bl_write_outs (bps_outs p) (bl_sort args0) last (bl_ob lv))
                           (if last then [] else bps_scalars p ++ [bl_ob outS]))
                 (if last then None else outS) lv.
Proof.
  unfold bl_blind. rewrite is_fully_blinded_false.
  destruct (negb (forallb (bl_issarg_ok p) iss)); [discriminate|].
  destruct (forallb (bl_outarg_ok p) (bl_sort args0)) eqn:Hok; [|discriminate]. cbn [negb].
  destruct (negb (bl_validate_args p owned (bl_sort args0) vok)); [discriminate|].
  destruct (bl_input_scalar p iss owned None) as [inS|] eqn:Hin; [|discriminate].
  destruct (bl_output_scalar p inS (bl_sort args0) last) as [outS|] eqn:Hout; [|discriminate].
  destruct (rev (bl_sort args0)) as [|lastarg rargs] eqn:Hrev; [discriminate|].
  destruct (if last then bl_last_vbf p lastarg outS else Some None) as [lv|] eqn:Hlv; [|discriminate].
  destruct (bl_sanity _); [|discriminate]. intros [= <-].
  exists inS, outS, lastarg, rargs, lv. repeat split; assumption || reflexivity.
Qed.

Lemma fold_left_Forall {A B} (P : A -> Prop) (f : list A -> B -> list A) :
  (forall l b, Forall P l -> Forall P (f l b)) -> forall bs l, Forall P l -> Forall P (fold_left f bs l).
Proof. intros Hf. induction bs as [|b t IH]; intros l Hl; cbn [fold_left]; auto. Qed.

(* one call of Blinder.blind *)
Lemma blind_step p owned iss args0 last vok s : wf_pset p -> wf_owned owned ->
  bl_blind p owned iss args0 last vok = BOk s ->
  fresh_outs (bps_outs p) (bl_sort args0) last (bl_ob (bso_lastvbf s)) ->
  wf_pset (bso_pset s) /\
  (last = true -> bps_scalars (bso_pset s) = []) /\
  eqn (ledger_D (bso_pset s)) (ledger_D p + in_sum p iss owned).
Proof.
  intros Hwf Hwo Hb. destruct (blind_inv _ _ _ _ _ _ _ Hb) as (inS & outS & lastarg & rargs & lv & Hok & Hin & Hout & Hrev & Hlv & ->).
  cbn [bso_pset bso_lastvbf]. intros Hfresh. set (args := bl_sort args0) in *.
  apply input_scalar_spec in Hin; [|exact Hwf|exact Hwo]. cbn [bl_v] in Hin.
  apply output_scalar_spec in Hout; [|exact Hwf].
  assert (Hargs : args = rev rargs ++ [lastarg]).
  { rewrite <- (rev_involutive args), Hrev. reflexivity. }
  assert (Hla : bl_nth (map bpo_value (bps_outs p)) (boa_idx lastarg) <> None).
  { rewrite forallb_forall in Hok.
    assert (Hi : In lastarg args) by (rewrite Hargs; apply in_or_app; right; left; reflexivity).
    apply Hok in Hi. unfold bl_outarg_ok in Hi. rewrite bl_nth_map.
    destruct (bl_nth (bps_outs p) (boa_idx lastarg)); [discriminate|discriminate Hi]. }
  split; [|split].
  - destruct Hwf as [Hi Ho]. split; cbn [bps_ins bps_outs].
    + apply fold_left_Forall; [apply write_iss_wf | exact Hi].
    + now apply write_outs_wf.
  - intros ->. reflexivity.
  - unfold ledger_D, scal_sum. cbn [bps_outs bps_scalars].
    rewrite (write_outs_ledger _ _ _ _ Hfresh). rewrite Hargs at 1. rewrite (wb_sum_spec _ _ _ _ _ Hla).
    rewrite <- Hargs. fold (out_sum (bps_outs p) args). rewrite bl_sc_ob.
    destruct last.
    + apply last_vbf_spec in Hlv. cbn [map sumZ]. rewrite Hlv, Hout, Hin.
      unfold scal_sum. eqn_ring.
    + injection Hlv as <-. cbn [bl_v]. rewrite map_app, sumZ_app. cbn [map sumZ]. rewrite bl_sc_ob.
      rewrite Hout, Hin. eqn_ring.
Qed.

Definition is_last {A} (rest : list A) : bool := match rest with [] => true | _ => false end.

(* what each party contributes to the ledger: its input scalar *)
Fixpoint run_contrib (p : bl_pset) (ps : list bl_party) : Z :=
  match ps with
  | [] => 0
  | pa :: rest =>
      match bl_party_step p pa (is_last rest) with
      | BOk s => in_sum p (bpa_iss pa) (bpa_owned pa) + run_contrib (bso_pset s) rest
      | _ => 0
      end
  end.
(* no output is blinded twice along the run, amounts are non-negative *)
Fixpoint run_fresh (p : bl_pset) (ps : list bl_party) : Prop :=
  match ps with
  | [] => True
  | pa :: rest =>
      match bl_party_step p pa (is_last rest) with
      | BOk s => fresh_outs (bps_outs p) (bl_sort (bpa_outs pa)) (is_last rest) (bl_ob (bso_lastvbf s)) /\
                 wf_owned (bpa_owned pa) /\ run_fresh (bso_pset s) rest
      | _ => True
      end
  end.

Lemma bl_run_unfold p pa rest :
  bl_run p (pa :: rest) =
  match bl_party_step p pa (is_last rest) with
  | BOk s => bl_run (bso_pset s) rest | BErr => BErr | BPanic => BPanic end.
Proof. reflexivity. Qed.

Lemma party_step_inv p pa last s : bl_party_step p pa last = BOk s ->
  bl_blind p (bpa_owned pa) (bpa_iss pa) (bpa_outs pa) last (bpa_vok pa) = BOk s.
Proof. unfold bl_party_step. destruct (negb _); [discriminate | auto]. Qed.

Theorem run_ledger : forall ps p pf, wf_pset p ->
  bl_run p ps = BOk pf -> run_fresh p ps ->
  eqn (ledger_D pf) (ledger_D p + run_contrib p ps) /\ (ps <> [] -> bps_scalars pf = []).
Proof.
  induction ps as [|pa rest IH]; intros p pf Hwf Hrun Hfr.
  - cbn in Hrun. injection Hrun as <-. split; [cbn [run_contrib]; eqn_ring | congruence].
  - rewrite bl_run_unfold in Hrun. cbn [run_contrib run_fresh] in *.
    destruct (bl_party_step p pa (is_last rest)) as [s| |] eqn:Hstep; try discriminate.
    destruct Hfr as (Hfresh & Hwo & Hfr).
    destruct (blind_step _ _ _ _ _ _ _ Hwf Hwo (party_step_inv _ _ _ _ Hstep) Hfresh) as (Hwf' & Hnil & HD).
    destruct (IH _ _ Hwf' Hrun Hfr) as [HD' Hnil'].
    split.
    + rewrite HD', HD. eqn_ring.
    + intros _. destruct rest as [|pb rest'].
      * cbn in Hrun. injection Hrun as <-. now apply Hnil.
      * apply Hnil'. discriminate.
Qed.

(* from the ledger to the transaction: commitments as linear forms *)
Lemma lin_eqb_intro x y :
  eqn (snd x) (snd y) -> (forall a, bl_coef (fst x) a = bl_coef (fst y) a) -> bl_lin_eqb x y = true.
Proof.
  intros Hg Hc. unfold bl_lin_eqb. apply andb_true_intro. split.
  - apply Z.eqb_eq. exact Hg.
  - apply forallb_forall. intros a _. apply Z.eqb_eq. apply Hc.
Qed.
Lemma lin_sum_snd l : eqn (snd (bl_lin_sum l)) (sumZ (map snd l)).
Proof.
  induction l as [|x t IH]; cbn [bl_lin_sum fold_right map sumZ].
  - reflexivity.
  - unfold bl_lin_add. cbn [snd]. rewrite eqn_mod. fold (bl_lin_sum t). rewrite IH. reflexivity.
Qed.

(* the G coefficients on the input side: spent outputs and blinded issuance amounts (k is the input
   index from which bl_tx_in names the issued assets; the G coefficient does not depend on it, it is carried
   so that in_g and bl_tx_in recurse alike) *)
Fixpoint in_g (k : N) (ws : list bl_win) (pis : list bl_pin) : Z :=
  match ws, pis with
  | w :: ws', i :: pis' =>
      (bwi_value w * bl_sc (bwi_abf w) + bl_sc (bwi_vbf w)) +
      (if (bwi_iss w =? 0)%N then 0 else
         (if 0 <? bwi_issv w then bl_v (bpi_vopen i) else 0) + (if 0 <? bwi_isst w then bl_v (bpi_topen i) else 0)) +
      in_g (k + 1)%N ws' pis'
  | _, _ => 0
  end.
Lemma amount_snd a v o : eqn (snd (bl_amount a v o)) (bl_v o).
Proof. destruct o; cbn [bl_amount bl_commit bl_explicit snd bl_v]; [rewrite eqn_mod; eqn_ring | reflexivity]. Qed.
Lemma tx_in_g : forall ws pis k, eqn (sumZ (map snd (bl_tx_in k ws pis))) (in_g k ws pis).
Proof.
  induction ws as [|w ws IH]; intros [|i pis] k; cbn [bl_tx_in in_g map sumZ]; try reflexivity.
  rewrite map_app, sumZ_app. rewrite IH. unfold bl_in_commit, bl_commit. cbn [snd]. rewrite eqn_mod.
  destruct (bwi_iss w =? 0)%N; cbn [map sumZ].
  - eqn_ring.
  - rewrite map_app, sumZ_app.
    destruct (0 <? bwi_issv w); destruct (0 <? bwi_isst w); cbn [map sumZ]; rewrite ?amount_snd; eqn_ring.
Qed.
Lemma tx_out_g : forall wos pos, map bwo_value wos = map bpo_value pos ->
  eqn (sumZ (map snd (bl_tx_out wos pos))) (ledger_out pos).
Proof.
  induction wos as [|w wos IH]; intros [|o pos] Hv; cbn [bl_tx_out map sumZ] in *; try discriminate; try reflexivity.
  injection Hv as Hv1 Hv. unfold ledger_out. cbn [map sumZ]. fold (ledger_out pos). rewrite (IH _ Hv).
  unfold out_g. destruct (bpo_open o) as [[a v]|]; cbn [bl_commit bl_explicit snd].
  - rewrite eqn_mod, Hv1. reflexivity.
  - reflexivity.
Qed.

(* Balance of the final transaction.  Hypotheses: blinding succeeded for every party; no output is
   blinded twice; the amounts are conserved per asset (as Elements requires of the unblinded
   amounts); and the parties' input scalars account for the blinders of what is spent and issued
   (ownership is a partition of the confidential inputs, with their true openings). *)
Theorem v2_balance ps p0 pf ws wos :
  wf_pset p0 -> ps <> [] ->
  bl_run p0 ps = BOk pf -> run_fresh p0 ps ->
  map bwo_value wos = map bpo_value (bps_outs pf) ->
  (forall a, bl_coef (fst (bl_lin_sum (bl_tx_in 0%N ws (bps_ins pf)))) a =
             bl_coef (fst (bl_lin_sum (bl_tx_out wos (bps_outs pf)))) a) ->
  eqn (ledger_D p0 + run_contrib p0 ps) (in_g 0%N ws (bps_ins pf)) ->
  bl_balanced ws wos pf = true.
Proof.
  intros Hwf Hne Hrun Hfr Hvals Hcons Hown.
  destruct (run_ledger ps p0 pf Hwf Hrun Hfr) as [HD Hnil]. specialize (Hnil Hne).
  unfold bl_balanced. apply lin_eqb_intro; [|exact Hcons].
  rewrite !lin_sum_snd, tx_in_g, (tx_out_g _ _ Hvals). rewrite <- Hown, <- HD.
  unfold ledger_D, scal_sum. rewrite Hnil. cbn [map sumZ]. eqn_ring.
Qed.

(* a concrete two-party exchange: party A (non-last) owns a confidential input *)
Definition ex_b (z : Z) : bytes := bl_enc z.
Definition ex_p0 : bl_pset :=
  bmk_pset [bmk_pin true 0 0 None None; bmk_pin false 0 0 None None]
           [bmk_pout 60 true 0%N None; bmk_pout 40 true 1%N None; bmk_pout 10 false 0%N None] [].
Definition ex_A : bl_party :=
  bmk_party true true [bmk_owned 0%N 100 (Some (ex_b 5)) (Some (ex_b 7))] [] [bmk_outarg 0%N (Some (ex_b 11)) (Some (ex_b 13))].
Definition ex_B : bl_party :=
  bmk_party true true [bmk_owned 1%N 10 (Some bl_zero32) (Some bl_zero32)] [] [bmk_outarg 1%N (Some (ex_b 17)) (Some (ex_b 19))].
Definition ex_ws : list bl_win := [bmk_win 0%N 100 (ex_b 5) (ex_b 7) 0%N 0 0; bmk_win 0%N 10 bl_zero32 bl_zero32 0%N 0 0].
Definition ex_wos : list bl_wout := [bmk_wout 0%N 60; bmk_wout 0%N 40; bmk_wout 0%N 10].

Definition run_balanced (p : bl_pset) (ps : list bl_party) (ws : list bl_win) (wos : list bl_wout) : option bool :=
  match bl_run p ps with BOk pf => Some (bl_balanced ws wos pf) | _ => None end.

(* the two steps of the exchange A then B, evaluated once and shared by the examples below *)
Definition step_of (p : bl_pset) (pa : bl_party) (last : bool) : bl_step_out :=
  match bl_party_step p pa last with BOk s => s | _ => bmk_step p None None end.
Definition ex_sA : bl_step_out := Eval vm_compute in step_of ex_p0 ex_A false.
Definition ex_sB : bl_step_out := Eval vm_compute in step_of (bso_pset ex_sA) ex_B true.
Lemma ex_steps :
  bl_party_step ex_p0 ex_A false = BOk ex_sA /\ bl_party_step (bso_pset ex_sA) ex_B true = BOk ex_sB.
Proof. split; vm_compute; reflexivity. Qed.
Lemma ex_run : bl_run ex_p0 [ex_A; ex_B] = BOk (bso_pset ex_sB).
Proof.
  destruct ex_steps as [HA HB]. rewrite bl_run_unfold. cbn [is_last]. rewrite HA, bl_run_unfold. cbn [is_last].
  rewrite HB. reflexivity.
Qed.

(* A blinds first (BlindNonLast) and owns the confidential input, B blinds last; 100 + 10 = 60 + 40 + 10.
   The non-last party subtracts its input scalar from the output sum it publishes (fix db58bba);
   the exchange balances in either order. *)
Example v2_two_parties_balance : run_balanced ex_p0 [ex_A; ex_B] ex_ws ex_wos = Some true.
Proof. unfold run_balanced. rewrite ex_run. vm_compute. reflexivity. Qed.
Example v2_two_parties_balance_swapped : run_balanced ex_p0 [ex_B; ex_A] ex_ws ex_wos = Some true.
Proof. vm_compute. reflexivity. Qed.

(* the hypotheses of v2_balance are satisfiable (two parties, the non-last one owns a confidential input) *)
Example v2_balance_hyps_sat : exists pf,
  bl_run ex_p0 [ex_A; ex_B] = BOk pf /\ wf_pset ex_p0 /\ run_fresh ex_p0 [ex_A; ex_B] /\
  map bwo_value ex_wos = map bpo_value (bps_outs pf) /\
  eqn (ledger_D ex_p0 + run_contrib ex_p0 [ex_A; ex_B]) (in_g 0%N ex_ws (bps_ins pf)).
Proof.
  destruct ex_steps as [HA HB].
  exists (bso_pset ex_sB). split; [exact ex_run|].
  split; [split; repeat constructor; cbn; lia|].
  split; [cbn [run_fresh is_last]; rewrite HA, HB; vm_compute; repeat split; repeat constructor; intro H; discriminate H|].
  split; [vm_compute; reflexivity|].
  cbn [run_contrib is_last]. rewrite HA, HB. vm_compute. reflexivity.
Qed.

Fixpoint sum3 (vs : list Z) (gs fs : list bytes) : Z :=
  match vs, gs, fs with
  | v :: vs', g :: gs', f :: fs' => (v * bl_sc g + bl_sc f) + sum3 vs' gs' fs'
  | _, _, _ => 0
  end.
(* pset v0: what b0_bsum adds up, inputs negatively, outputs positively, a missing last factor read
   as zero *)
Fixpoint bsum_spec (vals : list Z) (gens facs : list bytes) (nin : nat) : Z :=
  match vals, gens with
  | v :: vals', g :: gens' =>
      let f := match facs with x :: _ => x | [] => bl_zero32 end in
      (match nin with O => 1 | S _ => -1 end) * (v * bl_sc g + bl_sc f) + bsum_spec vals' gens' (tl facs) (pred nin)
  | _, _ => 0
  end.

Lemma bsum_ok : forall vals gens facs nin acc s,
  b0_bsum vals gens facs nin acc = Some s -> eqn s (acc + bsum_spec vals gens facs nin).
Proof.
  induction vals as [|v vals IH]; intros gens facs nin acc s; cbn [b0_bsum bsum_spec].
  - intros [= <-]. eqn_ring.
  - destruct gens as [|g gens]; [intros [= <-]; eqn_ring|].
    set (f := match facs with x :: _ => x | [] => bl_zero32 end).
    destruct ((bl_n <=? bl_sc g) || (bl_n <=? bl_sc f)); [discriminate|].
    intros H. apply IH in H. rewrite H. rewrite eqn_mod.
    destruct nin; rewrite ?eqn_mod; eqn_ring.
Qed.

Lemma bsum_split : forall inV inG inF outV outG outF,
  length inG = length inV -> length inF = length inV ->
  bsum_spec (inV ++ outV) (inG ++ outG) (inF ++ outF) (length inV) = - sum3 inV inG inF + bsum_spec outV outG outF 0.
Proof.
  induction inV as [|v inV IH]; intros [|g inG] [|f inF] outV outG outF HG HF; cbn [length] in *; try discriminate.
  - cbn [app sum3]. lia.
  - cbn [app bsum_spec sum3 tl pred]. rewrite IH by lia. lia.
Qed.
Lemma bsum_out : forall outV outG outF x,
  length outG = length outV -> (length outF + 1)%nat = length outV ->
  bsum_spec outV outG outF 0 + bl_sc x = sum3 outV outG (outF ++ [x]).
Proof.
  induction outV as [|v outV IH]; intros [|g outG] outF x HG HF; cbn [length] in *; try lia.
  destruct outF as [|f outF].
  - destruct outV; [|cbn [length] in HF; lia]. destruct outG; [|discriminate].
    cbn [bsum_spec sum3 app tl pred]. rewrite bl_sc_zero32. lia.
  - cbn [bsum_spec sum3 app tl pred length] in *. rewrite <- (IH outG outF x) by lia. lia.
Qed.

(* generateOutputBlindingFactors: with the final factor appended, the G coefficients of the blinded
   outputs equal those of the inputs and pseudo inputs *)
Theorem v0_final_vbf_balances inV outV inG outG inF outF fv :
  length inG = length inV -> length inF = length inV ->
  b0_final_vbf inV outV inG outG inF outF = Some fv ->
  eqn (sum3 inV inG inF) (sum3 outV outG (outF ++ [fv])).
Proof.
  intros HG HF. unfold b0_final_vbf.
  destruct (negb _) eqn:Hc; [discriminate|].
  apply Bool.negb_false_iff, andb_prop in Hc. destruct Hc as [H1 H2].
  apply Nat.eqb_eq in H1. apply Nat.eqb_eq in H2. rewrite !app_length in *.
  destruct (b0_bsum _ _ _ _ 0) as [s|] eqn:Hs; [|discriminate]. intros [= <-].
  apply bsum_ok in Hs. rewrite bsum_split in Hs by assumption.
  rewrite <- (bsum_out outV outG outF) by lia.
  rewrite bl_sc_enc_mod, Hs. eqn_ring.
Qed.

(* pset v0, Blinder.Blind on one input of 100 and outputs of 30, 60 and a fee of 10 *)
Definition ex0_ins : list b0_in := [bmk_b0in 0%N 100 (ex_b 5) (ex_b 7) 0%N 0 0].
Definition ex0_outs : list b0_out := [bmk_b0out 0%N 30 false; bmk_b0out 0%N 60 false; bmk_b0out 0%N 10 true].
Definition ex0_rng : list bytes := map ex_b [21; 22; 23; 24; 25; 26; 27; 28].
Definition b0_run_balanced ins outs sel :=
  match b0_blind ins outs sel false true true ex0_rng with
  | BOk r => Some (b0_balanced ins outs r) | BErr => None | BPanic => Some false end.

(* both spendable outputs blinded (indexes 0,1) *)
Example v0_contiguous_balances : b0_run_balanced ex0_ins ex0_outs [0%N; 1%N] = Some true.
Proof. vm_compute. reflexivity. Qed.
(* only output 1 blinded, output 0 stays explicit: the write-back reads the arrays by position
   (fix 65fe84b), so a selection that does not start at 0 succeeds and balances *)
Example v0_noncontiguous_balances : b0_run_balanced ex0_ins ex0_outs [1%N] = Some true.
Proof. vm_compute. reflexivity. Qed.

Definition all_owned (ins : list bl_tin) : list bool := map (fun _ => true) ins.
Definition no_issuance (i : bl_tin) : Prop := bti_hasiss i = false /\ bti_amount_set i = false /\ bti_token_set i = false.
(* the issuance fields of the transaction agree with what the generator assumes *)
Definition iss_consistent (i : bl_tin) : Prop :=
  bti_amount_set i = bti_hasiss i /\ bti_token_set i = (bti_hasiss i && negb (bti_reiss i)).

Lemma view_owned : forall ins, map (fun oi => bl_view_tag (fst oi) (snd oi)) (combine (all_owned ins) ins) = map bl_true_tag ins.
Proof. induction ins as [|i t IH]; cbn [all_owned map combine fst snd]; [reflexivity|]. unfold all_owned in IH. now rewrite IH. Qed.

(* the tag list handed to the prover equals the verifier's list when the party owns every input and
   only the last input carries an issuance *)
Lemma tags_agree pre l : Forall no_issuance pre -> iss_consistent l ->
  bl_tags_gen (all_owned (pre ++ [l])) (pre ++ [l]) = bl_tags_true (pre ++ [l]).
Proof.
  intros Hpre [Ha Ht]. unfold bl_tags_gen, bl_tags_true. rewrite view_owned.
  rewrite !flat_map_app, map_app. cbn [flat_map map]. rewrite !app_nil_r.
  assert (H1 : flat_map bl_iss_tags_gen pre = []).
  { induction Hpre as [|i t [Hi _] _ IH]; cbn [flat_map]; [reflexivity|]. unfold bl_iss_tags_gen at 1. now rewrite Hi, IH. }
  assert (H2 : flat_map (fun i => bl_true_tag i :: bl_iss_tags_true i) pre = map bl_true_tag pre).
  { clear H1. induction Hpre as [|i t (Hi & Hx & Hy) _ IH]; cbn [flat_map map]; [reflexivity|].
    unfold bl_iss_tags_true at 1. rewrite Hx, Hy. cbn [app]. now rewrite IH. }
  rewrite H1, H2. cbn [app]. rewrite <- app_assoc. cbn [app]. f_equal. f_equal.
  unfold bl_iss_tags_gen, bl_iss_tags_true. rewrite Ha, Ht.
  destruct (bti_hasiss l); [|reflexivity]. cbn [andb]. destruct (bti_reiss l); reflexivity.
Qed.

(* inputs on which the prover's and the verifier's tag lists differ (Props/C05.v): a party that does
   not own every input, an issuance that is not on the last input *)
Definition ex_t (s : Z) (conf : bool) : bl_tin :=
  bmk_tin ((if conf then x0a else x01) :: ex_b s) (ex_b s) (if conf then ex_b 9 else bl_zero32)
          false false false false false [] [].
Definition ex_ti : bl_tin :=
  bmk_tin (x01 :: ex_b 1) (ex_b 1) bl_zero32 true false true true true (ex_b 3) (ex_b 4).
(* a token-only issuance (null asset amount): the library still lists the issued-asset tag, a verifier does not *)
Definition ex_tn : bl_tin :=
  bmk_tin (x01 :: ex_b 1) (ex_b 1) bl_zero32 true false true false true (ex_b 3) (ex_b 4).
(* generator and validator build their lists differently: an issuance without inflation keys *)
Example generator_validator_disagree :
  let i := bmk_tin (x01 :: ex_b 1) (ex_b 1) bl_zero32 true false false true false (ex_b 3) (ex_b 4) in
  bl_tags_gen [true] [i] <> bl_tags_val [true] [i].
Proof. intro i. intro H. vm_compute in H. discriminate H. Qed.

Lemma upd_length {A} : forall (l : list A) i x, length (bl_upd l i x) = length l.
Proof. induction l as [|h t IH]; intros [|i] x; cbn [bl_upd length]; auto. Qed.
Lemma nth_error_upd {A} : forall (l : list A) i x y j, nth_error l i = Some y ->
  nth_error (bl_upd l i x) j = if (i =? j)%nat then Some x else nth_error l j.
Proof.
  induction l as [|h t IH]; intros [|i] x y [|j] H; cbn [bl_upd nth_error Nat.eqb] in *;
    try discriminate H; try reflexivity.
  exact (IH _ _ _ _ H).
Qed.
Lemma bl_nth_none {A} (l : list A) i : bl_nth l i = None -> (length l <= N.to_nat i)%nat.
Proof.
  unfold bl_nth. destruct (i <? N.of_nat (length l))%N eqn:E; [|intros _; lia].
  intros H. apply nth_error_None in H. exact H.
Qed.

Definition blinded_at (outs : list bl_pout) (j : nat) : bool :=
  match nth_error outs j with Some o => bl_out_full o | None => false end.
Definition asked_at (args : list bl_outarg) (j : nat) : bool := existsb (fun a => (N.to_nat (boa_idx a) =? j)%nat) args.

Lemma write_out_blinded outs idx a v j : (j < length outs)%nat ->
  blinded_at (bl_write_out outs idx a v) j = blinded_at outs j || (N.to_nat idx =? j)%nat.
Proof.
  intros Hj. unfold bl_write_out. destruct (bl_nth outs idx) as [o|] eqn:Ho.
  - unfold blinded_at. rewrite (nth_error_upd _ _ _ _ j (bl_nth_nth_error _ _ _ Ho)).
    destruct (N.to_nat idx =? j)%nat; [now rewrite Bool.orb_true_r | now rewrite Bool.orb_false_r].
  - apply bl_nth_none in Ho. destruct (N.to_nat idx =? j)%nat eqn:E; [apply Nat.eqb_eq in E; lia|]. now rewrite Bool.orb_false_r.
Qed.
Lemma write_out_length outs idx a v : length (bl_write_out outs idx a v) = length outs.
Proof. unfold bl_write_out. destruct (bl_nth outs idx); [apply upd_length|reflexivity]. Qed.

Lemma write_outs_blinded last lv : forall args outs j, (j < length outs)%nat ->
  blinded_at (bl_write_outs outs args last lv) j = blinded_at outs j || asked_at args j.
Proof.
  induction args as [|a rest IH]; intros outs j Hj; cbn [bl_write_outs asked_at existsb].
  - now rewrite Bool.orb_false_r.
  - rewrite IH by (rewrite write_out_length; exact Hj). rewrite write_out_blinded by exact Hj.
    fold (asked_at rest j). now rewrite Bool.orb_assoc.
Qed.
Lemma write_outs_length last lv : forall args outs, length (bl_write_outs outs args last lv) = length outs.
Proof. induction args as [|a rest IH]; intros outs; cbn [bl_write_outs]; [reflexivity|]. now rewrite IH, write_out_length. Qed.

(* one blinder: afterwards an output is blinded iff it was before or it was among the (sorted) arguments *)
Lemma blind_blinded p owned iss args0 last vok s j :
  bl_blind p owned iss args0 last vok = BOk s -> (j < length (bps_outs p))%nat ->
  length (bps_outs (bso_pset s)) = length (bps_outs p) /\
  blinded_at (bps_outs (bso_pset s)) j = blinded_at (bps_outs p) j || asked_at (bl_sort args0) j.
Proof.
  intros Hb Hj. destruct (blind_inv _ _ _ _ _ _ _ Hb) as (inS & outS & la & ra & lv & _ & _ & _ & _ & _ & ->).
  cbn [bso_pset bps_outs]. split; [apply write_outs_length | now apply write_outs_blinded].
Qed.

(* the whole exchange: the outputs blinded at the end are exactly those some party asked for *)
Theorem v2_blinded_exactly_requested : forall ps p pf j,
  bl_run p ps = BOk pf -> (j < length (bps_outs p))%nat ->
  blinded_at (bps_outs pf) j = blinded_at (bps_outs p) j || existsb (fun pa => asked_at (bl_sort (bpa_outs pa)) j) ps.
Proof.
  induction ps as [|pa rest IH]; intros p pf j Hrun Hj.
  - cbn in Hrun. injection Hrun as <-. cbn [existsb]. now rewrite Bool.orb_false_r.
  - rewrite bl_run_unfold in Hrun. destruct (bl_party_step p pa (is_last rest)) as [s| |] eqn:Hs; try discriminate.
    destruct (blind_blinded _ _ _ _ _ _ _ j (party_step_inv _ _ _ _ Hs) Hj) as [Hlen Hb].
    rewrite (IH _ _ j Hrun) by (rewrite Hlen; exact Hj). rewrite Hb. cbn [existsb]. now rewrite Bool.orb_assoc.
Qed.

(* pset v0: a successful write-back marks exactly the outputs it was given, whatever their indexes *)
Definition marked_at {A} (w : list (option A)) (j : nat) : bool :=
  match nth_error w j with Some (Some _) => true | _ => false end.
Lemma v0_writeback_marks : forall sel arr outs w j, b0_writeback sel arr outs = BOk w -> (j < length outs)%nat ->
  length w = length outs /\ marked_at w j = marked_at outs j || existsb (fun i => (N.to_nat i =? j)%nat) sel.
Proof.
  induction sel as [|idx rest IH]; intros arr outs w j; cbn [b0_writeback existsb].
  - intros [= <-] _. now rewrite Bool.orb_false_r.
  - destruct arr as [|x arr']; [discriminate|].
    destruct (bl_nth outs idx) as [y|] eqn:Ho; [|discriminate]. intros Hw Hj.
    destruct (IH _ _ _ j Hw) as [Hlen Hm]; [rewrite upd_length; exact Hj|].
    rewrite upd_length in Hlen. split; [exact Hlen|]. rewrite Hm. unfold marked_at at 1.
    rewrite (nth_error_upd _ _ _ _ j (bl_nth_nth_error _ _ _ Ho)). destruct (N.to_nat idx =? j)%nat; cbn [orb]; [now rewrite Bool.orb_true_r | reflexivity].
Qed.

Lemma existsb_ins f a : forall l, existsb f (b0_ins a l) = f a || existsb f l.
Proof.
  induction l as [|h t IH]; cbn [b0_ins existsb]; [reflexivity|].
  destruct (a <? h)%N; cbn [existsb]; [reflexivity|]. rewrite IH. now rewrite !Bool.orb_assoc, (Bool.orb_comm (f h)).
Qed.
Lemma existsb_sort f l : existsb f (b0_sort l) = existsb f l.
Proof. induction l as [|a t IH]; cbn [b0_sort fold_right existsb]; [reflexivity|]. fold (b0_sort t). now rewrite existsb_ins, IH. Qed.
Lemma existsb_filter {A} (f g : A -> bool) : forall l, existsb f (filter g l) = existsb (fun x => g x && f x) l.
Proof. induction l as [|a t IH]; cbn [filter existsb]; [reflexivity|]. destruct (g a); cbn [existsb andb]; now rewrite IH. Qed.
Lemma marked_start {A B} (outs : list B) j : marked_at (map (fun _ => @None A) outs) j = false.
Proof. unfold marked_at. rewrite nth_error_map. destruct (nth_error outs j); reflexivity. Qed.

Definition has_script (outs : list b0_out) (i : N) : bool :=
  match bl_nth outs i with Some o => negb (bo0_noscript o) | None => false end.

(* Blinder.Blind, any selection (contiguous or not, in any order): when it succeeds, output j carries
   commitments and proofs iff j was selected (and has a script: an empty-script output is never blinded) *)
Theorem v0_blinded_exactly_requested ins outs sel keys tokkey sok rng r j :
  b0_blind ins outs sel keys tokkey sok rng = BOk r -> (j < length outs)%nat ->
  marked_at (br0_outs r) j = existsb (fun i => has_script outs i && (N.to_nat i =? j)%nat) sel.
Proof.
  unfold b0_blind. destruct (b0_pseudo keys 0%N ins rng) as [[pseudo r1]|]; [|discriminate].
  destruct (negb (forallb _ (b0_sort sel))); [discriminate|].
  destruct (b0_draws (length sel) r1) as [[abfs r2]|]; [|discriminate].
  destruct (b0_draws (pred (length sel)) r2) as [[vbfs r3]|]; [|discriminate].
  destruct (b0_final_vbf _ _ _ _ _ _) as [fv|]; [|discriminate].
  destruct (b0_draws _ r3) as [[seeds r4]|]; [|discriminate].
  destruct (negb sok); [discriminate|].
  destruct (b0_writeback _ _ _) as [w| |] eqn:Hw; try discriminate.
  destruct (keys && negb tokkey && _); [discriminate|].
  intros [= <-] Hj. cbn [br0_outs].
  destruct (v0_writeback_marks _ _ _ _ j Hw) as [_ Hm]; [rewrite map_length; exact Hj|].
  rewrite Hm, marked_start. cbn [orb]. rewrite existsb_filter, existsb_sort. reflexivity.
Qed.
