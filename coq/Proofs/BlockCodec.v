(* Proofs/BlockCodec.v — round-trip lemmas for block headers and blocks (C01). *)
From GE Require Import Lib.Bytes Lib.Varint Model.Tx Model.Block Proofs.TxCodec.
Open Scope N_scope.

(* the version word: 31 bits of version under the dynafed flag.  These are join_bit and split_bit at
   k = 31: DYNAFED_HF_MASK, 0x7fffffff and two32 are 2 ^ 31, N.ones 31 and 2 ^ N.succ 31 by computation. *)
Lemma ver_join v : v < 0x80000000 ->
  N.testbit (N.lor v DYNAFED_HF_MASK) 31 = true /\ N.land (N.lor v DYNAFED_HF_MASK) 0x7fffffff = v /\
  N.lor v DYNAFED_HF_MASK < two32.
Proof. exact (join_bit v 31 true). Qed.

Lemma ver_split w : w < two32 ->
  N.lor (N.land w 0x7fffffff) (flag_of (N.testbit w 31) DYNAFED_HF_MASK) = w /\ N.land w 0x7fffffff < 0x80000000.
Proof. exact (split_bit w 31). Qed.

Lemma p_dparams_app p r : wf_dparams p = true -> p_dparams (ser_dparams p ++ r) = Some (p, r).
Proof.
  intro W. unfold p_dparams, bind.
  destruct p as [|c|f]; cbn [wf_dparams ser_dparams app] in *; rewrite p_u8_app by lia; cbn [N.eqb Pos.eqb].
  - reflexivity.
  - rewrite !andb_true_iff, wf_slice_iff, N.ltb_lt, Nat.eqb_eq in W. destruct W as [[A B] C].
    rewrite <- !app_assoc. rewrite p_var_slice_app by exact A. rewrite p_le4_app by exact B.
    rewrite (take_app_n 32) by exact C. destruct c; reflexivity.
  - rewrite !andb_true_iff, !wf_slice_iff, N.ltb_lt in W. destruct W as [[[[A B] C] D] E].
    rewrite <- !app_assoc. rewrite p_var_slice_app by exact A. rewrite p_le4_app by exact B.
    rewrite p_var_slice_app by exact C. rewrite p_var_slice_app by exact D.
    rewrite p_vector_app by (apply wf_vec_iff, E). destruct f; reflexivity.
Qed.

Lemma p_dparams_inv bs p r : p_dparams bs = Some (p, r) -> bs = ser_dparams p ++ r /\ wf_dparams p = true.
Proof.
  unfold p_dparams. intro H.
  apply (bind_inv (e := fun v => [b8 v]) p_u8_inv) in H as (ty & r0 & -> & _ & H).
  destruct (N.eqb_spec ty 0) as [->|_].
  { apply ret_inv in H as [<- <-]. split; reflexivity. }
  destruct (N.eqb_spec ty 1) as [->|_].
  { apply (bind_inv p_var_slice_inv) in H as (s & r1 & -> & Ws & H).
    apply (bind_inv p_le4_inv) in H as (l & r2 & -> & Wl & H).
    apply (bind_inv (take_inv 32)) in H as (rt & r3 & -> & Lr & H).
    apply ret_inv in H as [<- <-]. cbn [ser_dparams wf_dparams cp_script cp_limit cp_root app].
    rewrite <- !app_assoc. split; [reflexivity|].
    rewrite !andb_true_iff, wf_slice_iff, N.ltb_lt, Nat.eqb_eq. auto. }
  destruct (N.eqb_spec ty 2) as [->|_]; [|discriminate].
  apply (bind_inv p_var_slice_inv) in H as (s & r1 & -> & Ws & H).
  apply (bind_inv p_le4_inv) in H as (l & r2 & -> & Wl & H).
  apply (bind_inv p_var_slice_inv) in H as (pr & r3 & -> & Wp & H).
  apply (bind_inv p_var_slice_inv) in H as (fs & r4 & -> & Wf & H).
  apply (bind_inv p_vector_inv) in H as (e & r5 & -> & We & H).
  apply ret_inv in H as [<- <-]. cbn [ser_dparams wf_dparams fp_script fp_limit fp_program fp_fedscript fp_ext app].
  rewrite <- !app_assoc. split; [reflexivity|].
  rewrite !andb_true_iff, !wf_slice_iff, N.ltb_lt, wf_vec_iff. auto.
Qed.

Lemma p_ext_app e r : wf_ext e = true -> p_ext (is_dyna e) (ser_ext false e ++ r) = Some (e, r).
Proof.
  intro W. destruct e as [p|d]; cbn [wf_ext ser_ext is_dyna p_ext] in *; unfold bind; rewrite <- !app_assoc.
  - rewrite andb_true_iff, !wf_slice_iff in W. destruct W as [A B].
    rewrite p_var_slice_app by exact A. rewrite p_var_slice_app by exact B. destruct p; reflexivity.
  - rewrite !andb_true_iff in W. destruct W as [[A B] C].
    rewrite p_dparams_app by exact A. rewrite p_dparams_app by exact B.
    rewrite p_vector_app by (apply wf_vec_iff, C). destruct d; reflexivity.
Qed.

Lemma p_ext_inv dyna bs e r : p_ext dyna bs = Some (e, r) ->
  bs = ser_ext false e ++ r /\ wf_ext e = true /\ is_dyna e = dyna.
Proof.
  destruct dyna; cbn [p_ext]; intro H.
  - apply (bind_inv p_dparams_inv) in H as (c & r1 & -> & Wa & H).
    apply (bind_inv p_dparams_inv) in H as (p & r2 & -> & Wb & H).
    apply (bind_inv p_vector_inv) in H as (w & r3 & -> & Wc & H).
    apply ret_inv in H as [<- <-]. cbn [ser_ext wf_ext is_dyna d_current d_proposed d_witness].
    rewrite <- !app_assoc, Wa, Wb. apply wf_vec_iff in Wc. rewrite Wc. auto.
  - apply (bind_inv p_var_slice_inv) in H as (c & r1 & -> & Wa & H).
    apply (bind_inv p_var_slice_inv) in H as (s & r2 & -> & Wb & H).
    apply ret_inv in H as [<- <-]. cbn [ser_ext wf_ext is_dyna p_challenge p_solution].
    rewrite <- !app_assoc. apply wf_slice_iff in Wa, Wb. rewrite Wa, Wb. auto.
Qed.

Lemma wf_header_iff h : wf_header h = true <->
  h_version h < 0x80000000 /\ length (h_prev h) = 32%nat /\ length (h_merkle h) = 32%nat /\
  h_time h < two32 /\ h_height h < two32 /\ wf_ext (h_ext h) = true.
Proof. unfold wf_header. rewrite !andb_true_iff, !Nat.eqb_eq, !N.ltb_lt. tauto. Qed.

Theorem header_parse_ser h rest : wf_header h = true ->
  parse_header (ser_header false h ++ rest) = Some (h, rest).
Proof.
  intro W. apply wf_header_iff in W as (Hv & Hp & Hm & Ht & Hh & He).
  destruct (ver_join (h_version h) Hv) as (B1 & B2 & B3).
  unfold parse_header, ser_header, bind. rewrite <- !app_assoc.
  pose proof (p_ext_app (h_ext h) rest He) as PE.
  destruct (is_dyna (h_ext h)) eqn:D.
  - rewrite p_le4_app by exact B3. rewrite B1, B2.
    rewrite (take_app_n 32) by exact Hp. rewrite (take_app_n 32) by exact Hm.
    rewrite p_le4_app by exact Ht. rewrite p_le4_app by exact Hh.
    rewrite PE. destruct h; reflexivity.
  - rewrite p_le4_app by (unfold two32; lia). rewrite (testbit_small _ 31) by exact Hv.
    rewrite (take_app_n 32) by exact Hp. rewrite (take_app_n 32) by exact Hm.
    rewrite p_le4_app by exact Ht. rewrite p_le4_app by exact Hh.
    rewrite PE. destruct h; reflexivity.
Qed.

Theorem header_ser_parse bs h rest : parse_header bs = Some (h, rest) ->
  ser_header false h ++ rest = bs /\ wf_header h = true.
Proof.
  unfold parse_header. intro H.
  apply (bind_inv p_le4_inv) in H as (v & r1 & -> & Wv & H).
  apply (bind_inv (take_inv 32)) in H as (pv & r2 & -> & Lp & H).
  apply (bind_inv (take_inv 32)) in H as (mr & r3 & -> & Lm & H).
  apply (bind_inv p_le4_inv) in H as (ts & r4 & -> & Wt & H).
  apply (bind_inv p_le4_inv) in H as (ht & r5 & -> & Wh & H).
  apply (bind_inv (p_ext_inv _)) in H as (e & r6 & -> & [We Dy] & H).
  apply ret_inv in H as [<- <-]. destruct (ver_split v Wv) as [R1 R2].
  unfold ser_header. cbn [h_version h_prev h_merkle h_time h_height h_ext]. rewrite Dy.
  destruct (N.testbit v 31) eqn:T; cbn [flag_of] in R1.
  - rewrite R1, <- !app_assoc. split; [reflexivity|].
    apply wf_header_iff. cbn [h_version h_prev h_merkle h_time h_height h_ext]. auto 7.
  - rewrite N.lor_0_r in R1. rewrite R1 in R2. rewrite <- !app_assoc. split; [reflexivity|].
    apply wf_header_iff. cbn [h_version h_prev h_merkle h_time h_height h_ext]. auto 7.
Qed.

(* the hashed form omits exactly the solution / the sign-block witness *)
Theorem header_for_hash_prefix h :
  exists tail, ser_header false h = ser_header true h ++ tail.
Proof.
  unfold ser_header. destruct (h_ext h) as [p|d]; cbn [ser_ext is_dyna].
  - exists (var_slice (p_solution p)). rewrite <- ?app_assoc, ?app_nil_r. reflexivity.
  - exists (vector (d_witness d)). rewrite <- ?app_assoc, ?app_nil_r. reflexivity.
Qed.

Lemma ser_full_nonempty t : ser_full t <> [].
Proof.
  unfold ser_full, ser_tx. pose proof (le_enc_length 4 (t_version t)) as L.
  destruct (le_enc 4 (t_version t)); [discriminate L | discriminate].
Qed.

Theorem block_parse_ser b rest : wf_block b = true ->
  parse_block (ser_block b ++ rest) = Some (norm_block b, rest).
Proof.
  unfold wf_block. intro W. rewrite !andb_true_iff, N.ltb_lt, forallb_forall in W. destruct W as [[Wh Wn] Wt].
  unfold parse_block, ser_block, bind. rewrite <- !app_assoc.
  rewrite header_parse_ser by exact Wh. rewrite p_varint_app by exact Wn.
  rewrite (p_list_app_map ser_full norm_tx parse_tx);
    [reflexivity | intros a Ha r; apply tx_parse_ser; apply Wt; exact Ha | intros; apply ser_full_nonempty].
Qed.

Theorem block_ser_parse bs b rest : parse_block bs = Some (b, rest) ->
  forallb canonical_flag (b_txs b) = true -> ser_block b ++ rest = bs.
Proof.
  unfold parse_block, bind.
  destruct (parse_header bs) as [[h r1]|] eqn:A; [|discriminate].
  destruct (p_varint r1) as [[n r2]|] eqn:B; [|discriminate].
  destruct (p_list parse_tx n r2) as [[txs r3]|] eqn:C; [|discriminate].
  intro H. apply ret_inv in H as [<- <-]. cbn [b_txs]. intro CF.
  apply header_ser_parse in A as [<- _]. apply p_varint_inv in B as [-> _].
  (* parse_tx is inverted by ser_full on the transactions with a canonical flag only *)
  apply (p_list_inv_if ser_full parse_tx (fun t => canonical_flag t = true) (fun _ => True)) in C as (-> & <- & _).
  - unfold ser_block. cbn [b_header b_txs]. rewrite <- !app_assoc. reflexivity.
  - intros bs0 t r P F. split; [symmetry; exact (tx_ser_parse _ _ _ P F) | exact I].
  - apply Forall_forall, forallb_forall, CF.
Qed.
