(* Proofs/ControlBlockDec.v — C12 for taproot control blocks: the lengths of the byte strings the parser accepts
   (33 + 32 k, k <= 128), and: a strict prefix of an accepted control block is accepted ONLY IF the cut falls on a
   node boundary.  The converse (every such cut of at least 33 bytes is accepted: the BIP-341 format is not
   prefix-free) is not stated here.  The parser model is total: value or rejection, no other outcome. *)
From GE Require Import Lib.Bytes Model.Taproot.
From Coq Require Import List Arith Lia ZifyBool ZifyNat.
Import ListNotations.

(* the three length tests of the parser *)
Lemma parse_cb_len liftable bs cb : parse_cb liftable bs = Some cb ->
  (33 <= length bs <= 33 + 32 * 128 /\ (length bs - 33) mod 32 = 0)%nat.
Proof.
  unfold parse_cb, cb_base_size, cb_max_size, cb_node_size.
  destruct (Nat.ltb_spec (length bs) 33); [discriminate|].
  destruct (Nat.ltb_spec (33 + 32 * 128) (length bs)); [discriminate|].
  destruct (Nat.eqb_spec ((length bs - 33) mod 32) 0); [auto | discriminate].
Qed.

Lemma parse_cb_accepts_shape liftable bs cb :
  parse_cb liftable bs = Some cb ->
  exists k, (k <= 128)%nat /\ length bs = (33 + 32 * k)%nat.
Proof.
  intro H. apply parse_cb_len in H as [L M]. exists ((length bs - 33) / 32)%nat.
  pose proof (Nat.div_mod (length bs - 33) 32 ltac:(lia)) as D. rewrite M in D.
  split; [apply Nat.div_le_upper_bound; lia | lia].
Qed.

Lemma parse_cb_rejects_short liftable bs : (length bs < 33)%nat -> parse_cb liftable bs = None.
Proof. intro H. destruct (parse_cb liftable bs) eqn:E; [apply parse_cb_len in E; lia | reflexivity]. Qed.

Lemma parse_cb_rejects_misaligned liftable bs :
  ((length bs - 33) mod 32 <> 0)%nat -> parse_cb liftable bs = None.
Proof. intro H. destruct (parse_cb liftable bs) eqn:E; [apply parse_cb_len in E; tauto | reflexivity]. Qed.

(* a strict prefix of an accepted control block is accepted only when the cut falls on a node boundary *)
Theorem controlblock_prefix_only_at_node_boundary liftable pre suf cb cb' :
  parse_cb liftable (pre ++ suf) = Some cb -> parse_cb liftable pre = Some cb' ->
  (length suf mod 32 = 0)%nat.
Proof.
  intros A B.
  apply parse_cb_accepts_shape in A as (k & _ & Lk). apply parse_cb_accepts_shape in B as (k' & _ & Lk').
  rewrite app_length in Lk. assert (E : length suf = (32 * (k - k'))%nat) by lia.
  rewrite E. rewrite Nat.mul_comm. apply Nat.mod_mul. lia.
Qed.
