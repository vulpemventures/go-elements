(* Proofs/Decoders.v — the transaction, header and block parsers are stable under extension of the
   input (C12): what is accepted from bs is accepted from bs ++ s with the same value, so no strict
   prefix of an input accepted as complete is itself accepted as complete.  Stability is shown for
   the sequencing combinators once, and for each primitive parser from its pair of round-trip lemmas. *)
From GE Require Import Lib.Bytes Lib.Varint Model.Tx Model.Block Proofs.TxCodec Proofs.BlockCodec.
Open Scope N_scope.

Definition stable {A} (p : parser A) : Prop :=
  forall bs a r s, p bs = Some (a, r) -> p (bs ++ s) = Some (a, r ++ s).

Lemma stable_pfail {A} : stable (@pfail A).
Proof. intros bs a r s E. discriminate E. Qed.

Lemma stable_ret {A} (a : A) : stable (ret a).
Proof. intros bs x r s H. apply ret_inv in H as [<- <-]. reflexivity. Qed.

Lemma stable_bind {A B} (p : parser A) (f : A -> parser B) :
  stable p -> (forall a, stable (f a)) -> stable (bind p f).
Proof.
  intros Hp Hf bs b r s H. unfold bind in *. destruct (p bs) as [[a r1]|] eqn:E; [|discriminate].
  rewrite (Hp _ _ _ s E). apply Hf. exact H.
Qed.

Lemma stable_if {A} (b : bool) (p q : parser A) : stable p -> stable q -> stable (if b then p else q).
Proof. destruct b; auto. Qed.

(* a parser that accepts exactly the encodings e a of the values with Q a, with nothing else read *)
Lemma stable_of_inv {A} (p : parser A) (e : A -> bytes) (Q : A -> Prop) :
  (forall bs a r, p bs = Some (a, r) -> bs = e a ++ r /\ Q a) ->
  (forall a r, Q a -> p (e a ++ r) = Some (a, r)) -> stable p.
Proof.
  intros Hinv Happ bs a r s H. apply Hinv in H as [-> Qa]. rewrite <- app_assoc. apply Happ. exact Qa.
Qed.

Lemma stable_take n : stable (take n).
Proof. apply (stable_of_inv _ _ _ (take_inv n)). intros a r L. apply take_app_n, L. Qed.

Lemma stable_takeN n : stable (takeN n).
Proof. apply (stable_of_inv _ _ _ (takeN_inv n)). intros a r <-. apply takeN_app. Qed.

Lemma stable_p_u8 : stable p_u8.
Proof. apply (stable_of_inv _ (fun v => [b8 v]) _ p_u8_inv). intros; apply p_u8_app; assumption. Qed.

Lemma stable_p_le n : stable (p_le n).
Proof. apply (stable_of_inv _ _ _ (p_le_inv n)). intros; apply p_le_app; assumption. Qed.

Lemma stable_p_varint : stable p_varint.
Proof. apply (stable_of_inv _ _ _ p_varint_inv). intros; apply p_varint_app; assumption. Qed.

Lemma stable_p_var_slice : stable p_var_slice.
Proof. apply (stable_of_inv _ _ _ p_var_slice_inv). intros; apply p_var_slice_app; assumption. Qed.

Lemma stable_p_vector : stable p_vector.
Proof. apply (stable_of_inv _ _ _ p_vector_inv). intros; apply p_vector_app; assumption. Qed.

Lemma stable_p_count {A} (p : parser A) : stable p ->
  forall fuel fuel' n bs l r s, (fuel <= fuel')%nat ->
  p_count p fuel n bs = Some (l, r) -> p_count p fuel' n (bs ++ s) = Some (l, r ++ s).
Proof.
  intros Hp. induction fuel as [|f IH]; intros fuel' n bs l r s Hf H; cbn [p_count] in H.
  - destruct (N.eqb_spec n 0) as [->|]; [|discriminate]. inversion H; subst. destruct fuel'; reflexivity.
  - destruct fuel' as [|f']; [lia|]. cbn [p_count]. destruct (N.eqb_spec n 0). { inversion H; subst. reflexivity. }
    destruct (p bs) as [[a r1]|] eqn:E; [|discriminate]. rewrite (Hp _ _ _ s E).
    destruct (p_count p f (N.pred n) r1) as [[l1 r2]|] eqn:C; [|discriminate].
    rewrite (IH f' (N.pred n) r1 l1 r2 s) by (try lia; exact C). inversion H; subst. reflexivity.
Qed.

Lemma stable_p_list {A} (p : parser A) n : stable p -> stable (p_list p n).
Proof.
  intros Hp bs l r s H. unfold p_list in *. apply (stable_p_count p Hp (length bs)); [rewrite app_length; lia | exact H].
Qed.

Lemma stable_p_in : stable p_in.
Proof. apply (stable_of_inv _ _ _ p_in_inv). intros i r [W S]. rewrite (p_in_app i r W), S. reflexivity. Qed.

Lemma stable_p_out : stable p_out.
Proof. apply (stable_of_inv _ _ _ p_out_inv). intros o r [W S]. rewrite (p_out_app o r W), S. reflexivity. Qed.

Lemma stable_p_dparams : stable p_dparams.
Proof. apply (stable_of_inv _ _ _ p_dparams_inv). intros; apply p_dparams_app; assumption. Qed.

(* sequences of stable parsers are stable: stable_bind, stable_if and the parsers above, by auto *)
#[local] Hint Resolve stable_ret stable_bind stable_if stable_pfail stable_take stable_p_u8 stable_p_le stable_p_varint
  stable_p_var_slice stable_p_vector stable_p_list stable_p_in stable_p_out stable_p_dparams : stable.

Theorem stable_parse_tx : stable parse_tx.
Proof. unfold parse_tx, p_in_wit, p_out_wit. auto 20 with stable. Qed.

Theorem stable_parse_header : stable parse_header.
Proof. unfold parse_header, p_ext. auto 20 with stable. Qed.

Theorem stable_parse_block : stable parse_block.
Proof. pose proof stable_parse_tx. pose proof stable_parse_header. unfold parse_block. auto 20 with stable. Qed.

Lemma stable_strict_prefix {A} (p : parser A) pre suf a :
  stable p -> p (pre ++ suf) = Some (a, []) -> suf <> [] -> p pre = None.
Proof.
  intros Hp H Hs. destruct (p pre) as [[a' r']|] eqn:P; [|reflexivity].
  apply (Hp _ _ _ suf) in P. rewrite H in P. injection P as _ E.
  symmetry in E. apply app_eq_nil in E as [_ E]. contradiction.
Qed.
