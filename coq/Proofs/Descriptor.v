(* Proofs/Descriptor.v — facts about the model of descriptor.Parse (Model/Descriptor.v), for C12.
   A text is a body with an optional checksum part (parse_cases); the body is searched for the first match of
   the regular expression (find_submatch), whose shape match_at_sound gives; every outcome of the script
   expression is an error, the answer for the unimplemented names, or that of the key expression (pse_cases).
   Everything sits in Module DescP so that Props/C12.v can refer to it by qualified names next to the other
   decoders.  Model definitions named `*_before_<commit>` are the code as it was before that fix. *)
From GE Require Import Lib.Bytes Model.Ripemd160 Model.Descriptor.
From Coq Require Import ZifyBool ZifyN ZifyNat.
Import Desc.
Open Scope N_scope.

Module DescP.

Lemma beqb_false_neq a b : beqb a b = false <-> a <> b.
Proof. rewrite <- beqb_eq. destruct (beqb a b); split; congruence. Qed.

Lemma bytes_eqb_refl a : bytes_eqb a a = true.
Proof. exact (Bytes.bytes_eqb_refl a). Qed.

(* number of occurrences of a byte *)
Fixpoint cnt (c : byte) (s : bytes) : nat :=
  match s with [] => O | x :: r => if beqb x c then S (cnt c r) else cnt c r end.

Lemma cnt_app c a b : cnt c (a ++ b) = (cnt c a + cnt c b)%nat.
Proof. induction a as [|x a IH]; cbn; [reflexivity|]. destruct (beqb x c); rewrite IH; reflexivity. Qed.

Lemma cnt_zero_not_in c s : cnt c s = O <-> ~ In c s.
Proof.
  induction s as [|x s IH]; cbn; [tauto|].
  destruct (beqb x c) eqn:E.
  - apply beqb_eq in E. split; [discriminate | tauto].
  - apply beqb_false_neq in E. rewrite IH. tauto.
Qed.

Lemma cnt_zero_incl c s t : (forall x, In x t -> In x s) -> cnt c s = O -> cnt c t = O.
Proof. rewrite !cnt_zero_not_in. auto. Qed.

Lemma cnt_firstn_zero c n s : cnt c s = O -> cnt c (firstn n s) = O.
Proof. apply cnt_zero_incl. intros x I. rewrite <- (firstn_skipn n s). apply in_or_app. left. exact I. Qed.

Lemma cnt_filter_zero c f s : cnt c s = O -> cnt c (filter f s) = O.
Proof. apply cnt_zero_incl. intros x I. apply filter_In in I. tauto. Qed.

(* the text up to the first occurrence *)
Lemma cnt_pos_split c s : cnt c s <> O -> exists a b, s = a ++ c :: b /\ cnt c a = O.
Proof.
  induction s as [|x s IH]; cbn; [contradiction|]. destruct (beqb x c) eqn:E.
  - intros _. apply beqb_eq in E. subst x. exists [], s. split; reflexivity.
  - intro H. destruct (IH H) as (a & b & -> & Ca). exists (x :: a), b. cbn. rewrite E. split; [reflexivity | exact Ca].
Qed.

Lemma split_not_nil sep s : split sep s <> [].
Proof.
  destruct s as [|c r]; cbn; [discriminate|].
  destruct (beqb c sep); [discriminate|]. destruct (split sep r); discriminate.
Qed.

Lemma split_length sep s : length (split sep s) = S (cnt sep s).
Proof.
  induction s as [|c r IH]; cbn; [reflexivity|].
  destruct (beqb c sep); cbn; [rewrite IH; reflexivity|].
  destruct (split sep r) as [|h t] eqn:E; [exfalso; exact (split_not_nil _ _ E)|].
  cbn in *. exact IH.
Qed.

Lemma split_no_sep sep s : cnt sep s = O -> split sep s = [s].
Proof.
  induction s as [|c r IH]; cbn; [reflexivity|].
  destruct (beqb c sep); [discriminate|]. intro H. rewrite (IH H). reflexivity.
Qed.

Lemma split_app_nosep sep a x h t :
  cnt sep a = O -> split sep x = h :: t -> split sep (a ++ x) = (a ++ h) :: t.
Proof.
  intros Ha Hx. induction a as [|c a IH]; cbn in *; [exact Hx|].
  destruct (beqb c sep); [discriminate|]. rewrite (IH Ha). reflexivity.
Qed.

Lemma split_app_sep sep a c : cnt sep a = O -> split sep (a ++ sep :: c) = a :: split sep c.
Proof.
  intro Ha. rewrite (split_app_nosep sep a (sep :: c) [] (split sep c) Ha).
  - rewrite app_nil_r. reflexivity.
  - cbn. rewrite beqb_refl. reflexivity.
Qed.

(* the first piece: no separator in it, and it is the text in front of the first separator *)
Lemma split_head sep s h t :
  split sep s = h :: t ->
  cnt sep h = O /\ ((t = [] /\ s = h) \/ (exists r, s = h ++ sep :: r /\ t = split sep r)).
Proof.
  destruct (Nat.eq_dec (cnt sep s) O) as [C|C].
  - rewrite (split_no_sep _ _ C). intro H. inversion H; subst. auto.
  - destruct (cnt_pos_split _ _ C) as (a & b & -> & Ca). rewrite (split_app_sep _ _ _ Ca).
    intro H. inversion H; subst. split; [exact Ca|]. right. exists b. auto.
Qed.

Lemma split_head_cons sep c r h t :
  beqb c sep = false -> split sep (c :: r) = h :: t -> exists h', h = c :: h'.
Proof.
  intros E H. cbn in H. rewrite E in H.
  destruct (split sep r) as [|h1 t1]; inversion H; subst; eexists; reflexivity.
Qed.

Lemma index_lt {A} (l : list A) i : (i < length l)%nat -> exists x, index l i = Some x.
Proof.
  intro H. unfold index. destruct (nth_error l i) eqn:E; [eexists; reflexivity|].
  apply nth_error_None in E. lia.
Qed.

Lemma slice_from_le {A} n (s : list A) : (n <= length s)%nat -> slice_from n s = Some (skipn n s).
Proof. intro H. unfold slice_from. destruct (Nat.leb_spec n (length s)); [reflexivity | lia]. Qed.

Lemma slice_to_ok {A} (s : list A) (n : Z) : (0 <= n <= Z.of_nat (length s))%Z -> exists x, slice_to n s = Some x.
Proof.
  intro H. unfold slice_to.
  destruct (Z.leb_spec 0 n); [|lia]. destruct (Z.leb_spec n (Z.of_nat (length s))); [|lia].
  eexists; reflexivity.
Qed.

Lemma has_prefix_app s p : has_prefix s p = true -> exists r, s = p ++ r.
Proof.
  unfold has_prefix. intro H. apply bytes_eqb_eq in H. exists (skipn (length p) s).
  rewrite <- H at 1. symmetry. apply firstn_skipn.
Qed.

Lemma has_suffix_length s p : has_suffix s p = true -> (length p <= length s)%nat.
Proof. unfold has_suffix. intro H. apply andb_true_iff in H as [H _]. apply Nat.leb_le in H. exact H. Qed.

Lemma has_suffix_app s p : has_suffix s p = true -> s = firstn (length s - length p) s ++ p.
Proof.
  unfold has_suffix. intro H. apply andb_true_iff in H as [_ H]. apply bytes_eqb_eq in H.
  rewrite <- (firstn_skipn (length s - length p) s) at 1. f_equal. exact H.
Qed.

Lemma hex_decode_length b : forall s, hex_decode s = Some b -> length s = (2 * length b)%nat.
Proof.
  induction b as [|a b IH]; intros [|x [|y r]] H; cbn [hex_decode] in H; try discriminate H; [reflexivity | |].
  - destruct (hex_val x), (hex_val y), (hex_decode r); discriminate H.
  - destruct (hex_val x); [|discriminate]. destruct (hex_val y); [|discriminate].
    destruct (hex_decode r) as [t|] eqn:E; [|discriminate]. injection H as _ ->.
    cbn [length]. rewrite (IH r E). lia.
Qed.

Lemma le_uint32_four b : length b = 4%nat -> exists m, le_uint32 b = Some m.
Proof.
  destruct b as [|b0 [|b1 [|b2 [|b3 r]]]]; cbn; intro H; try lia. eexists; reflexivity.
Qed.

(* parseComponent after the hardened marker is taken off: `base` is 0 or 2^31, `text` the number *)
Definition component (base : N) (text : bytes) : res N :=
  match int_set_string0 text with
  | None => Err
  | Some big => if ((big <? 0) || (Z.of_N (u32max - base) <? big))%Z then Err
                else Ok ((base + (Z.to_N big mod two64) mod two32) mod two32)
  end.

Lemma parse_component_eq c :
  exists base text, (base = 0 \/ base = hardened_key_start) /\ parse_component c = component base text.
Proof.
  unfold parse_component. destruct (has_suffix _ Lit.quote); [|destruct (has_suffix _ Lit.aitch)];
    do 2 eexists; (split; [|reflexivity]); auto.
Qed.

(* value += uint32(bigval.Uint64()) does not wrap under the guard in front of it *)
Lemma u32_nowrap b x : b <= u32max -> x <= u32max - b -> (b + (x mod two64) mod two32) mod two32 = b + x.
Proof.
  unfold u32max, two64, two32. intros Hb Hx.
  rewrite (N.mod_small x), (N.mod_small x), N.mod_small by lia. reflexivity.
Qed.

Lemma component_ok base text v : base <= u32max -> component base text = Ok v ->
  exists z, int_set_string0 text = Some z /\ (0 <= z)%Z /\ v = base + Z.to_N z /\ v <= u32max.
Proof.
  unfold component. intros Hb H. destruct (int_set_string0 text) as [z|]; [|discriminate].
  destruct (Z.ltb_spec z 0) as [|Z0]; [discriminate|].
  destruct (Z.ltb_spec (Z.of_N (u32max - base)) z) as [|ZM]; [discriminate|].
  assert (HZ : Z.to_N z <= u32max - base) by lia.
  cbn [orb] in H. rewrite (u32_nowrap _ _ Hb HZ) in H. inversion H.
  exists z. repeat split; [exact Z0 | clear - Hb HZ; lia].
Qed.

(* the propagation of Err and Panic through a call, as the model writes it at every call site *)
Lemma bind_no_panic {A B} (r : res A) (f : A -> res B) :
  r <> Panic -> (forall a, f a <> Panic) -> match r with Ok a => f a | Err => Err | Panic => Panic end <> Panic.
Proof. intros R F. destruct r; [apply F | discriminate | contradiction]. Qed.

Lemma component_no_panic base text : component base text <> Panic.
Proof.
  unfold component. destruct (int_set_string0 text); [|discriminate].
  destruct (_ || _)%bool; discriminate.
Qed.

Lemma parse_component_no_panic c : parse_component c <> Panic.
Proof. destruct (parse_component_eq c) as (base & text & _ & ->). apply component_no_panic. Qed.

Lemma parse_path_no_panic cs : parse_path cs <> Panic.
Proof.
  induction cs as [|c r IH]; cbn [parse_path]; [discriminate|].
  apply bind_no_panic; [apply parse_component_no_panic | intro v].
  apply bind_no_panic; [exact IH | discriminate].
Qed.

Lemma parse_key_origin_info_no_panic ke : parse_key_origin_info false ke <> Panic.
Proof.
  unfold parse_key_origin_info.
  destruct (split "]"%byte ke) as [|p0 [|p1 [|p2 sp]]]; try discriminate. cbn [length index nth_error].
  destruct (has_prefix p0 Lit.lbracket) eqn:HP; [|discriminate].
  apply has_prefix_app in HP as [r ->]. cbn [Lit.lbracket app].
  destruct (split "/"%byte ("["%byte :: r)) as [|k0 kt] eqn:SP; [exfalso; exact (split_not_nil _ _ SP)|].
  destruct (split_head_cons "/"%byte "["%byte _ _ _ eq_refl SP) as [k0' ->].
  cbn [index nth_error]. rewrite slice_from_le by (cbn; lia). cbn [skipn].
  destruct (Nat.eqb_spec (length k0') 8) as [L8|]; [|discriminate]. cbn [negb].
  destruct (hex_decode k0') as [fb|] eqn:HD; [|discriminate].
  pose proof (hex_decode_length _ _ HD) as HL.
  destruct (le_uint32_four fb ltac:(lia)) as [m ->].
  destruct (1 <? _)%nat; [|discriminate]. rewrite slice_from_le by (cbn; lia).
  apply bind_no_panic; [apply parse_path_no_panic | discriminate].
Qed.

Lemma trim_key_origin_info_no_panic ke : trim_key_origin_info ke <> Panic.
Proof. unfold trim_key_origin_info. destruct (split "]"%byte ke) as [|p0 [|p1 [|p2 sp]]]; discriminate. Qed.

Lemma parse_key_no_panic o ke : parse_key o ke <> Panic.
Proof.
  unfold parse_key.
  destruct (split "/"%byte ke) as [|key t] eqn:SP; [exfalso; exact (split_not_nil _ _ SP)|].
  cbn [index nth_error].
  assert (HL : (length key <= length ke)%nat).
  { destruct (split_head _ _ _ _ SP) as [_ [[_ ->] | [r [-> _]]]]; [|rewrite app_length]; lia. }
  assert (PS : exists ps0, (if (length (key :: t) =? 1)%nat then Some [] else slice_from (length key) ke) = Some ps0).
  { rewrite (slice_from_le _ _ HL). destruct (_ =? _)%nat; eexists; reflexivity. }
  destruct PS as [ps0 ->].
  destruct (is_pub_key o key); [discriminate|].
  destruct (is_wif o key); [discriminate|].
  destruct (is_extended key); [|discriminate].
  destruct ps0 as [|c ps]; [discriminate|].
  rewrite slice_from_le by (cbn; lia). cbn [skipn].
  destruct (has_suffix ps Lit.slash_star) eqn:HS.
  - apply has_suffix_length in HS. cbn in HS.
    destruct (slice_to_ok ps (Z.of_nat (length ps) - 2) ltac:(lia)) as [ps2 ->].
    apply bind_no_panic; [apply parse_path_no_panic | discriminate].
  - apply bind_no_panic; [apply parse_path_no_panic | discriminate].
Qed.

Lemma parse_key_expression_no_panic o ke : parse_key_expression false o ke <> Panic.
Proof.
  unfold parse_key_expression.
  apply bind_no_panic; [apply parse_key_origin_info_no_panic | intro origin].
  apply bind_no_panic; [apply trim_key_origin_info_no_panic | intro trimmed].
  apply bind_no_panic; [apply parse_key_no_panic | intros [[p w] e]; discriminate].
Qed.

Notation lparen := ("("%byte) (only parsing).
Notation rparen := (")"%byte) (only parsing).
Notation hash := ("#"%byte) (only parsing).

Lemma span_word_spec s : forall w r, span_word s = (w, r) ->
  s = w ++ r /\ forallb is_word w = true /\ match r with [] => True | c :: _ => is_word c = false end.
Proof.
  induction s as [|c s IH]; cbn; intros w r H.
  - inversion H; subst. repeat split.
  - destruct (is_word c) eqn:E.
    + destruct (span_word s) as [w1 r1]. inversion H; subst. destruct (IH w1 r eq_refl) as [-> [F T]].
      repeat split; [cbn; rewrite E; exact F | exact T].
    + inversion H; subst. repeat split. exact E.
Qed.

Lemma span_word_app_nonword w r : forallb is_word w = true -> match r with [] => True | c :: _ => is_word c = false end ->
  span_word (w ++ r) = (w, r).
Proof.
  intros F T. induction w as [|c w IH]; cbn in *.
  - destruct r as [|c r]; [reflexivity|]. cbn. rewrite T. reflexivity.
  - apply andb_true_iff in F as [F1 F2]. rewrite F1, (IH F2). reflexivity.
Qed.

Lemma last_index_none c s : last_index c s = None <-> cnt c s = O.
Proof.
  induction s as [|x s IH]; cbn; [tauto|].
  destruct (last_index c s); destruct (beqb x c); try (split; discriminate).
  - rewrite <- IH. split; discriminate.
  - rewrite <- IH. tauto.
Qed.

Lemma last_index_spec c s : forall k, last_index c s = Some k ->
  exists pre post, s = pre ++ c :: post /\ length pre = k /\ cnt c post = O.
Proof.
  induction s as [|x s IH]; cbn; intros k H; [discriminate|].
  destruct (last_index c s) as [k1|] eqn:E.
  - inversion H; subst. destruct (IH k1 eq_refl) as [pre [post [-> [L C]]]].
    exists (x :: pre), post. repeat split; [cbn; rewrite L; reflexivity | exact C].
  - destruct (beqb x c) eqn:B; [|discriminate]. inversion H; subst. apply beqb_eq in B. subst x.
    exists [], s. repeat split. apply last_index_none. exact E.
Qed.

Lemma last_index_app_none c a t : cnt c t = O -> last_index c (a ++ t) = last_index c a.
Proof.
  intro H. induction a as [|x a IH]; cbn.
  - apply last_index_none. exact H.
  - rewrite IH. reflexivity.
Qed.

Lemma last_index_app_some c a b : exists k, last_index c (a ++ c :: b) = Some k /\ (length a <= k)%nat.
Proof.
  induction a as [|x a IH]; cbn.
  - destruct (last_index c b) as [k|]; [exists (S k); split; [reflexivity|lia]|].
    rewrite beqb_refl. exists O. split; [reflexivity|lia].
  - destruct IH as [k [-> L]]. exists (S k). split; [reflexivity|lia].
Qed.

(* what a reported match is: a non-empty run of word characters, the parenthesis, a non-empty inner text, and
   the LAST closing parenthesis of the subject; FindStringSubmatch of a pattern with two groups has three entries *)
Lemma match_at_sound s m : match_at s = Some m ->
  exists f inner post, m = [f ++ lparen :: inner ++ [rparen]; f; inner] /\ s = f ++ lparen :: inner ++ rparen :: post /\
                       f <> [] /\ forallb is_word f = true /\ inner <> [] /\ cnt rparen post = O.
Proof.
  unfold match_at. destruct (span_word s) as [w r] eqn:SW.
  destruct (span_word_spec _ _ _ SW) as [-> [F _]].
  destruct w as [|c0 w]; [discriminate|]. destruct r as [|lp body]; [discriminate|].
  destruct (beqb lp "("%byte) eqn:B; [|discriminate]. apply beqb_eq in B. subst lp.
  destruct (last_index ")"%byte body) as [[|k]|] eqn:LI; try discriminate.
  destruct (last_index_spec _ _ _ LI) as [pre [post [-> [L C]]]].
  rewrite <- L, firstn_app, Nat.sub_diag, firstn_all, app_nil_r. intro H. inversion H.
  exists (c0 :: w), pre, post. repeat split; try assumption; try discriminate.
  destruct pre; discriminate.
Qed.

Lemma match_at_complete f inner post : f <> [] -> forallb is_word f = true -> inner <> [] ->
  match_at (f ++ lparen :: inner ++ rparen :: post) <> None.
Proof.
  intros N F I. unfold match_at. rewrite (span_word_app_nonword f (lparen :: inner ++ rparen :: post) F eq_refl).
  destruct f as [|c0 f]; [contradiction|]. rewrite beqb_refl.
  destruct (last_index_app_some rparen inner post) as [k [-> L]].
  destruct k as [|k]; [destruct inner; [contradiction | cbn in L; lia]|]. discriminate.
Qed.

Lemma match_at_no_paren s : cnt rparen s = O -> match_at s = None.
Proof.
  intro H. destruct (match_at s) as [m|] eqn:E; [|reflexivity].
  destruct (match_at_sound _ _ E) as (f & inner & post & _ & -> & _).
  rewrite cnt_app in H. cbn in H. rewrite cnt_app in H. cbn in H. lia.
Qed.

(* unanchored: the reported match starts somewhere in the subject *)
Lemma find_submatch_inv s m : find_submatch s = Some m -> exists pre x, s = pre ++ x /\ match_at x = Some m.
Proof.
  induction s as [|c s IH]; cbn [find_submatch].
  - destruct (match_at []) eqn:E; [discriminate E | discriminate].
  - destruct (match_at (c :: s)) eqn:E.
    + intro H. inversion H; subst. exists [], (c :: s). split; [reflexivity | exact E].
    + intro H. destruct (IH H) as (pre & x & -> & M). exists (c :: pre), x. split; [reflexivity | exact M].
Qed.

Lemma find_submatch_sound s whole f inner : find_submatch s = Some [whole; f; inner] ->
  exists pre post, s = pre ++ f ++ lparen :: inner ++ rparen :: post /\ f <> [] /\ forallb is_word f = true /\
                   inner <> [] /\ cnt rparen post = O.
Proof.
  intro H. destruct (find_submatch_inv _ _ H) as (pre & x & -> & M).
  destruct (match_at_sound _ _ M) as (f' & inner' & post & E & -> & R). inversion E; subst.
  exists pre, post. split; [reflexivity | exact R].
Qed.

Lemma find_submatch_none pre x : find_submatch (pre ++ x) = None -> match_at x = None.
Proof.
  induction pre as [|c pre IH]; cbn [app].
  - destruct x; cbn [find_submatch]; destruct (match_at _); try discriminate; reflexivity.
  - cbn [find_submatch]. destruct (match_at (c :: pre ++ x)); [discriminate | exact IH].
Qed.

Lemma find_submatch_no_paren s : cnt rparen s = O -> find_submatch s = None.
Proof.
  intro H. destruct (find_submatch s) as [m|] eqn:E; [|reflexivity].
  destruct (find_submatch_inv _ _ E) as (pre & x & -> & M).
  rewrite cnt_app in H. rewrite match_at_no_paren in M by lia. discriminate.
Qed.

(* the subject ends where its last closing parenthesis is *)
Lemma span_word_app x t : forall w r, span_word x = (w, r) -> r <> [] -> span_word (x ++ t) = (w, r ++ t).
Proof.
  induction x as [|c x IH]; cbn; intros w r H N.
  - inversion H; subst. contradiction.
  - destruct (is_word c) eqn:E.
    + destruct (span_word x) as [w1 r1]. inversion H; subst. rewrite (IH w1 r eq_refl N). reflexivity.
    + inversion H; subst. reflexivity.
Qed.

Lemma rparen_not_word : is_word rparen = false.
Proof. reflexivity. Qed.

Lemma match_at_app x t : cnt rparen t = O -> match_at (x ++ rparen :: t) = match_at (x ++ [rparen]).
Proof.
  intro C. change (x ++ rparen :: t) with (x ++ [rparen] ++ t). rewrite app_assoc.
  unfold match_at. destruct (span_word (x ++ [rparen])) as [w r] eqn:SW.
  destruct (span_word_spec _ _ _ SW) as [E [F T]].
  assert (N : r <> []).
  { intro; subst r. rewrite app_nil_r in E. subst w. rewrite forallb_app in F. cbn in F.
    apply andb_true_iff in F as [_ F]. discriminate F. }
  rewrite (span_word_app _ t _ _ SW N).
  destruct w as [|c0 w]; [reflexivity|]. destruct r as [|lp body]; [contradiction|]. cbn [app].
  destruct (beqb lp "("%byte); [|reflexivity].
  rewrite (last_index_app_none _ body t C).
  destruct (last_index ")"%byte body) as [[|k]|] eqn:LI; try reflexivity.
  destruct (last_index_spec _ _ _ LI) as [pre [post [-> [L _]]]].
  rewrite <- L. rewrite <- !app_assoc. rewrite !firstn_app, !Nat.sub_diag, !firstn_all. reflexivity.
Qed.

Lemma find_submatch_app x t : cnt rparen t = O -> find_submatch (x ++ rparen :: t) = find_submatch (x ++ [rparen]).
Proof.
  intro C. induction x as [|c x IH]; cbn [app find_submatch].
  - rewrite (find_submatch_no_paren t C). destruct t; reflexivity.
  - pose proof (match_at_app (c :: x) t C) as M. cbn [app] in M. rewrite M, IH. reflexivity.
Qed.

Lemma find_submatch_skip_nonword t x : forallb (fun c => negb (is_word c)) t = true -> find_submatch (t ++ x) = find_submatch x.
Proof.
  induction t as [|c t IH]; cbn [app forallb]; intro H; [reflexivity|].
  apply andb_true_iff in H as [H1 H2]. cbn [find_submatch]. unfold match_at at 1. cbn [span_word].
  destruct (is_word c); [discriminate H1 | exact (IH H2)].
Qed.

Lemma strip_spaces_app a b : strip_spaces (a ++ b) = strip_spaces a ++ strip_spaces b.
Proof. apply filter_app. Qed.

Lemma strip_spaces_idem s : strip_spaces (strip_spaces s) = strip_spaces s.
Proof.
  unfold strip_spaces. induction s as [|c r IH]; cbn; [reflexivity|].
  destruct (is_space c) eqn:E; cbn; [exact IH|]. rewrite E. cbn. rewrite IH. reflexivity.
Qed.

Notation pse := parse_script_expression (only parsing).

Definition key_result (r : res key_info) : presult :=
  match r with Ok ki => POk ki | Err => PErr | Panic => PPanic end.

(* the three ways out of parseScriptExpression; only the first match of the stripped text is looked at *)
Lemma pse_cases g u o b :
  pse g u o b = PErr \/ pse g u o b = u \/
  exists whole inner, find_submatch (strip_spaces b) = Some [whole; Lit.elwpkh; inner] /\
                      pse g u o b = key_result (parse_key_expression g o inner).
Proof.
  unfold parse_script_expression, split_func_and_script.
  destruct (find_submatch (strip_spaces b)) as [m|] eqn:FS; [|left; reflexivity].
  destruct (find_submatch_inv _ _ FS) as (pre & x & _ & M).
  destruct (match_at_sound _ _ M) as (f & inner & post & -> & _). cbn [length Nat.eqb negb index nth_error].
  destruct (existsb _ _); [right; left; reflexivity|].
  destruct (bytes_eqb f Lit.elwpkh) eqn:EF; [|left; destruct (bytes_eqb f Lit.elraw); reflexivity].
  apply bytes_eqb_eq in EF. subst f. right. right. do 2 eexists. split; reflexivity.
Qed.

Lemma pse_strip g u o b1 b2 : strip_spaces b1 = strip_spaces b2 -> pse g u o b1 = pse g u o b2.
Proof. intro H. unfold parse_script_expression, split_func_and_script. rewrite H. reflexivity. Qed.

Lemma pse_no_paren g u o b : cnt rparen b = O -> pse g u o b = PErr.
Proof.
  intro H. unfold parse_script_expression, split_func_and_script.
  rewrite find_submatch_no_paren; [reflexivity|]. apply cnt_filter_zero. exact H.
Qed.

Lemma pse_no_panic u o b : u <> PPanic -> pse false u o b <> PPanic.
Proof.
  intro U. destruct (pse_cases false u o b) as [-> | [-> | (whole & inner & _ & ->)]]; [discriminate | exact U |].
  destruct (parse_key_expression false o inner) eqn:E; [discriminate | discriminate |].
  exfalso. exact (parse_key_expression_no_panic _ _ E).
Qed.

Lemma pse_value_or_error g u o b : u <> PNilNil -> pse g u o b <> PNilNil.
Proof.
  intro U. destruct (pse_cases g u o b) as [-> | [-> | (whole & inner & _ & ->)]]; [discriminate | exact U |].
  destruct (parse_key_expression g o inner); discriminate.
Qed.

Lemma tvc_shape d h t :
  split hash d = h :: t ->
  trim_and_validate_checksum d =
  match t with
  | [] => Ok h
  | [ck] => if negb (length ck =? 8)%nat then Err else Ok h
  | _ => Err
  end.
Proof.
  intro H. unfold trim_and_validate_checksum. rewrite H.
  destruct t as [|ck [|x t]]; reflexivity.
Qed.

Lemma trim_and_validate_checksum_no_panic d : trim_and_validate_checksum d <> Panic.
Proof.
  destruct (split hash d) as [|h t] eqn:SP; [exfalso; exact (split_not_nil _ _ SP)|].
  rewrite (tvc_shape _ _ _ SP). destruct t as [|ck [|x t]]; try discriminate. destruct (negb _); discriminate.
Qed.

Lemma parse_gen_shape g u o d h t :
  split hash d = h :: t ->
  parse_gen g u o d =
  match t with
  | [] => pse g u o h
  | [ck] => if (length ck =? 8)%nat then pse g u o h else PErr
  | _ => PErr
  end.
Proof.
  intro H. unfold parse_gen. rewrite (tvc_shape _ _ _ H).
  destruct t as [|ck [|x t]]; [reflexivity| |reflexivity]. destruct (_ =? _)%nat; reflexivity.
Qed.

Lemma parse_gen_no_hash g u o d : cnt hash d = O -> parse_gen g u o d = pse g u o d.
Proof. intro C. exact (parse_gen_shape _ _ _ _ _ _ (split_no_sep _ _ C)). Qed.

Lemma parse_gen_one_hash g u o body ck : cnt hash body = O -> cnt hash ck = O ->
  parse_gen g u o (body ++ hash :: ck) = if (length ck =? 8)%nat then pse g u o body else PErr.
Proof.
  intros C1 C2. apply (parse_gen_shape g u o _ body [ck]). rewrite (split_app_sep _ _ _ C1), (split_no_sep _ _ C2). reflexivity.
Qed.

Lemma parse_gen_more_hashes g u o d : (2 <= cnt hash d)%nat -> parse_gen g u o d = PErr.
Proof.
  intro C. pose proof (split_length hash d) as L.
  destruct (split hash d) as [|h [|ck [|x t]]] eqn:SP; cbn in L; try lia.
  exact (parse_gen_shape _ _ _ _ _ _ SP).
Qed.

(* no separator: the text is the body; one: body and checksum part; more: refused *)
Lemma parse_cases g u o d :
  (cnt hash d = O /\ parse_gen g u o d = pse g u o d) \/
  (exists body ck, d = body ++ hash :: ck /\ cnt hash body = O /\ cnt hash ck = O /\
                   parse_gen g u o d = if (length ck =? 8)%nat then pse g u o body else PErr) \/
  ((2 <= cnt hash d)%nat /\ parse_gen g u o d = PErr).
Proof.
  destruct (cnt hash d) as [|[|n]] eqn:C.
  - left. split; [reflexivity | exact (parse_gen_no_hash _ _ _ _ C)].
  - right. left. destruct (cnt_pos_split hash d) as (body & ck & -> & C1); [rewrite C; discriminate|].
    rewrite cnt_app in C. cbn in C. assert (C2 : cnt hash ck = O) by lia.
    exists body, ck. repeat split; try assumption. exact (parse_gen_one_hash _ _ _ _ _ C1 C2).
  - right. right. split; [lia|]. apply parse_gen_more_hashes. lia.
Qed.

(* a prefix without separator belongs to the body *)
Lemma parse_gen_prefix g u o a a' x :
  cnt hash a = O -> cnt hash a' = O -> (forall h, pse g u o (a ++ h) = pse g u o (a' ++ h)) ->
  parse_gen g u o (a ++ x) = parse_gen g u o (a' ++ x).
Proof.
  intros C C' E. destruct (split hash x) as [|h t] eqn:SP; [exfalso; exact (split_not_nil _ _ SP)|].
  rewrite (parse_gen_shape _ _ _ _ _ _ (split_app_nosep _ a _ _ _ C SP)).
  rewrite (parse_gen_shape _ _ _ _ _ _ (split_app_nosep _ a' _ _ _ C' SP)). rewrite E. reflexivity.
Qed.

(* the result of the switch is an argument (what it returns for names it does not implement) *)
Lemma parse_gen_no_panic unsup o d : unsup <> PPanic -> parse_gen false unsup o d <> PPanic.
Proof.
  intro U. destruct (parse_cases false unsup o d) as [[_ ->] | [(body & ck & _ & _ & _ & ->) | [_ ->]]].
  - apply pse_no_panic, U.
  - destruct (_ =? _)%nat; [apply pse_no_panic, U | discriminate].
  - discriminate.
Qed.

(* oracles that refuse every key, and Go string literals as texts, for the Examples *)
Definition o_none : oracles := mk_oracles (fun _ => false) (fun _ => None) (fun _ _ => false) (fun _ _ => None).
Definition txt (s : String.string) : bytes := String.list_byte_of_string s.

(* parse_key_origin_info_no_panic (above) rests on the strings.HasPrefix guard in front of the fingerprint
   (fix a950a3e): with the slicing test it replaced, the same parser panics *)
Module DescEx1.
Import Coq.Strings.String.
Example parse_before_a950a3e_panics : parse_before_a950a3e o_none (txt "elwpkh(]x)") = PPanic.
Proof. vm_compute. reflexivity. Qed.
Example parse_after_a950a3e_rejects : parse o_none (txt "elwpkh(]x)") = PErr.
Proof. vm_compute. reflexivity. Qed.
End DescEx1.

(* value or error: never (nil, nil) *)
Lemma parse_gen_value_or_error g unsup o d : unsup <> PNilNil -> parse_gen g unsup o d <> PNilNil.
Proof.
  intro U. destruct (parse_cases g unsup o d) as [[_ ->] | [(body & ck & _ & _ & _ & ->) | [_ ->]]].
  - apply pse_value_or_error, U.
  - destruct (_ =? _)%nat; [apply pse_value_or_error, U | discriminate].
  - discriminate.
Qed.

(* parse_gen_value_or_error needs `unsup <> PNilNil`: with (nil, nil) as the answer for every name the switch
   knows but does not implement (the code before fix 8813a4b) the conclusion fails *)
Module DescEx2.
Import Coq.Strings.String.
Example parse_before_8813a4b_nilnil :
  forallb (fun name => match parse_before_8813a4b o_none (name ++ txt "(x)") with PNilNil => true | _ => false end)
          unsupported_names = true.
Proof. vm_compute. reflexivity. Qed.
Example parse_after_8813a4b_error :
  forallb (fun name => match parse o_none (name ++ txt "(x)") with PErr => true | _ => false end)
          unsupported_names = true.
Proof. vm_compute. reflexivity. Qed.
End DescEx2.

(* white space in front of the checksum separator does not matter *)
Theorem descriptor_whitespace_irrelevant : forall o a c b,
  is_space c = true -> cnt "#"%byte a = O -> parse o (a ++ c :: b) = parse o (a ++ b).
Proof.
  intros o a c b Hc Ha. change (a ++ c :: b) with (a ++ [c] ++ b). rewrite app_assoc.
  apply parse_gen_prefix; [|exact Ha|].
  - rewrite cnt_app, Ha. cbn. destruct (beqb c hash) eqn:E; [|reflexivity].
    apply beqb_eq in E. subst c. discriminate Hc.
  - intro h. apply pse_strip. rewrite <- app_assoc, !strip_spaces_app. cbn. unfold strip_spaces at 2. cbn.
    rewrite Hc. reflexivity.
Qed.

Lemma pse_accepted o body w : pse false PErr o body = POk w ->
  exists inner pre post,
    strip_spaces body = pre ++ Lit.elwpkh ++ lparen :: inner ++ rparen :: post /\
    inner <> [] /\ cnt rparen post = O /\ parse_key_expression false o inner = Ok w.
Proof.
  intro H. destruct (pse_cases false PErr o body) as [E | [E | (whole & inner & FS & E)]]; rewrite E in H; try discriminate.
  destruct (find_submatch_sound _ _ _ _ FS) as (pre & post & Es & _ & _ & I & C).
  destruct (parse_key_expression false o inner) as [ki| |] eqn:PK; try discriminate. inversion H; subst ki.
  exists inner, pre, post. repeat split; assumption.
Qed.

Theorem descriptor_accepted_shape : forall o d w, parse o d = POk w ->
  exists body inner pre post,
    (d = body \/ exists ck, d = body ++ hash :: ck /\ length ck = 8%nat /\ cnt hash ck = O) /\
    cnt hash body = O /\
    strip_spaces body = pre ++ Lit.elwpkh ++ lparen :: inner ++ rparen :: post /\
    inner <> [] /\ cnt rparen post = O /\
    parse_key_expression false o inner = Ok w.
Proof.
  intros o d w H. unfold parse in H.
  destruct (parse_cases false PErr o d) as [[C E] | [(body & ck & -> & C1 & C2 & E) | [_ E]]]; rewrite E in H.
  - apply pse_accepted in H as (inner & pre & post & R). exists d, inner, pre, post. auto.
  - destruct (Nat.eqb_spec (length ck) 8) as [L|]; [|discriminate].
    apply pse_accepted in H as (inner & pre & post & R). exists body, inner, pre, post.
    split; [right; exists ck|]; auto.
  - discriminate.
Qed.

Definition accepted (o : oracles) (d : bytes) : Prop := exists w, parse o d = POk w.
Definition strict_prefix (p s : bytes) : Prop := exists t, t <> [] /\ s = p ++ t.

(* without a closing parenthesis nothing is accepted *)
Theorem descriptor_no_close_paren_rejected : forall o d, cnt rparen d = O -> parse o d = PErr.
Proof.
  intros o d H. unfold parse.
  destruct (parse_cases false PErr o d) as [[_ ->] | [(body & ck & -> & _ & _ & ->) | [_ ->]]]; [| |reflexivity].
  - exact (pse_no_paren _ _ _ _ H).
  - rewrite cnt_app in H. rewrite pse_no_paren by lia. destruct (_ =? _)%nat; reflexivity.
Qed.

(* a checksum part of any length other than 8 is refused, whatever stands in front of it *)
Theorem descriptor_bad_checksum_length_rejected : forall o body c,
  length c <> 8%nat -> parse o (body ++ hash :: c) = PErr.
Proof.
  intros o body c L. unfold parse.
  destruct (cnt hash body) eqn:C1; [destruct (cnt hash c) eqn:C2|].
  - rewrite (parse_gen_one_hash _ _ _ _ _ C1 C2). destruct (Nat.eqb_spec (length c) 8); [contradiction | reflexivity].
  - apply parse_gen_more_hashes. rewrite cnt_app. cbn. lia.
  - apply parse_gen_more_hashes. rewrite cnt_app. cbn. lia.
Qed.

Lemma strict_prefix_cases (p t a x : bytes) : p ++ t = a ++ x ->
  (exists u, a = p ++ u) \/ (exists u, p = a ++ u /\ x = u ++ t).
Proof.
  intro H. destruct (app_eq_app _ _ _ _ H) as [l [[E1 E2] | [E1 E2]]]; [right | left]; exists l; tauto.
Qed.

(* a descriptor `text)` whose only closing parenthesis is the last character: no strict prefix is accepted *)
Theorem descriptor_strict_prefix_rejected : forall o b p,
  cnt rparen b = O -> strict_prefix p (b ++ [rparen]) -> parse o p = PErr.
Proof.
  intros o b p C [t [N E]]. apply descriptor_no_close_paren_rejected.
  symmetry in E. destruct (strict_prefix_cases _ _ _ _ E) as [[u ->] | [u [-> E2]]].
  - rewrite cnt_app in C. lia.
  - destruct u as [|c u]; [rewrite app_nil_r; exact C|].
    inversion E2 as [[E3 E4]]. destruct u; [cbn in E4; subst t; contradiction | discriminate E4].
Qed.

(* ... and with a checksum behind it, the one strict prefix that is accepted (if the whole is) is the descriptor
   without its checksum *)
Theorem descriptor_strict_prefixes_with_checksum : forall o b ck p,
  cnt rparen b = O -> length ck = 8%nat ->
  strict_prefix p (b ++ rparen :: hash :: ck) -> parse o p <> PErr -> p = b ++ [rparen].
Proof.
  intros o b ck p C L [t [N E]] A.
  change (b ++ rparen :: hash :: ck) with (b ++ [rparen] ++ hash :: ck) in E. rewrite app_assoc in E. symmetry in E.
  destruct (strict_prefix_cases _ _ _ _ E) as [[u Eu] | [u [-> E2]]].
  - destruct u as [|c u]; [rewrite app_nil_r in Eu; auto|].
    exfalso. apply A, (descriptor_strict_prefix_rejected o b p C). exists (c :: u). split; [discriminate | exact Eu].
  - destruct u as [|c u]; [apply app_nil_r|]. inversion E2 as [[E3 E4]]. subst c.
    exfalso. apply A, descriptor_bad_checksum_length_rejected.
    rewrite E4, app_length in L. destruct t; [contradiction|]. cbn in L. lia.
Qed.

(* the expression is searched for, not anchored: text behind the last closing parenthesis is not looked at ... *)
Theorem descriptor_trailing_text_ignored : forall o s t,
  cnt hash s = O -> cnt hash t = O -> cnt rparen t = O ->
  parse o ((s ++ [rparen]) ++ t) = parse o (s ++ [rparen]).
Proof.
  intros o s t C1 C2 C3. unfold parse.
  rewrite !parse_gen_no_hash by (rewrite !cnt_app, C1, ?C2; reflexivity).
  unfold parse_script_expression, split_func_and_script.
  rewrite <- app_assoc, !strip_spaces_app. change (strip_spaces [rparen]) with [rparen]. cbn [app].
  rewrite find_submatch_app; [reflexivity|]. apply cnt_filter_zero. exact C3.
Qed.

(* ... nor is text in front of it that has no word character *)
Theorem descriptor_leading_text_ignored : forall o t s,
  cnt hash t = O -> forallb (fun c => negb (is_word c)) t = true -> parse o (t ++ s) = parse o s.
Proof.
  intros o t s C W. apply (parse_gen_prefix _ _ _ t [] s C eq_refl). intro h.
  unfold parse_script_expression, split_func_and_script. rewrite strip_spaces_app.
  rewrite find_submatch_skip_nonword; [reflexivity|].
  unfold strip_spaces. rewrite forallb_forall in *. intros c I. apply filter_In in I. apply W, I.
Qed.

(* exactly one of the three optional parts of keyInfo is set, and it passed its test *)
Definition one_key (o : oracles) (w : key_info) : Prop :=
  match ki_pub w, ki_wif w, ki_ext w with
  | Some k, None, None => exists raw, hex_decode k = Some raw /\ o_pub o raw = true
  | None, Some k, None => exists pub, o_wif o k = Some pub
  | None, None, Some e => is_extended (ek_key e) = true
  | _, _, _ => False
  end.

Lemma parse_key_one o ke p w e : parse_key o ke = Ok (p, w, e) -> forall org, one_key o (mk_ki org p w e).
Proof.
  unfold parse_key. destruct (index (split "/"%byte ke) 0) as [key|]; [|discriminate].
  destruct (if (length (split "/"%byte ke) =? 1)%nat then Some [] else slice_from (length key) ke) as [ps0|]; [|discriminate].
  destruct (is_pub_key o key) eqn:PK.
  { intros H org. inversion H; subst. unfold one_key; cbn. unfold is_pub_key in PK.
    destruct (hex_decode key) as [raw|]; [|discriminate]. exists raw. split; [reflexivity | exact PK]. }
  destruct (is_wif o key) eqn:WF.
  { intros H org. inversion H; subst. unfold one_key; cbn. unfold is_wif in WF.
    destruct (o_wif o key) as [pub|]; [|discriminate]. exists pub. reflexivity. }
  destruct (is_extended key) eqn:EX; [|discriminate].
  destruct ps0 as [|c ps].
  { intros H org. inversion H; subst. exact EX. }
  destruct (slice_from 1 (c :: ps)) as [ps1|]; [|discriminate].
  destruct (has_suffix ps1 Lit.slash_star); [destruct (slice_to _ ps1) as [ps2|]; [|discriminate]|];
    (destruct (parse_path _); try discriminate; intros H org; inversion H; subst; exact EX).
Qed.

Theorem descriptor_accepted_one_key : forall o d w, parse o d = POk w -> one_key o w.
Proof.
  intros o d w H. destruct (descriptor_accepted_shape _ _ _ H) as (body & inner & pre & post & _ & _ & _ & _ & _ & K).
  unfold parse_key_expression in K.
  destruct (parse_key_origin_info false inner) as [org| |]; try discriminate.
  destruct (trim_key_origin_info inner) as [tr| |]; try discriminate.
  destruct (parse_key o tr) as [[[p wf] e]| |] eqn:PK; try discriminate.
  inversion K; subst. exact (parse_key_one _ _ _ _ _ PK org).
Qed.

Lemma range_scripts_no_panic o w e : forall todo i, range_scripts o w e i todo <> Panic.
Proof.
  induction todo as [|t IH]; intro i; cbn [range_scripts]; [discriminate|].
  destruct (o_hd_pub o (ek_key e) _); [|discriminate].
  apply bind_no_panic; [apply IH | discriminate].
Qed.

(* Script never panics, for every wallet value, every options value a caller can build, every answer of hdkeychain *)
Theorem descriptor_script_no_panic : forall o w opts, script o w opts <> Panic.
Proof.
  intros o w opts. unfold script, script_gen. apply bind_no_panic.
  { destruct (is_range w); [destruct opts|]; discriminate. }
  intros [[num idx] more].
  destruct (ki_pub w) as [k|]; [destruct (hex_decode k); discriminate|].
  destruct (ki_wif w) as [k|]; [destruct (o_wif o k); discriminate|].
  destruct (ki_ext w) as [e|]; [|discriminate].
  destruct (negb _); [discriminate|]. destruct (ek_range e).
  - destruct more; [apply range_scripts_no_panic|]. destruct (o_hd_pub _ _ _); discriminate.
  - destruct (o_hd_pub _ _ _); discriminate.
Qed.

(* for an accepted wallet the last branch of Script ("parser didnt recognised ...") is never taken, and a public key
   or WIF wallet always yields its one script *)
Theorem descriptor_script_of_pubkey : forall o d w k opts, parse o d = POk w -> ki_pub w = Some k ->
  exists raw, hex_decode k = Some raw /\ script o w opts = Ok [([], wpkh_script raw)].
Proof.
  intros o d w k opts H K. pose proof (descriptor_accepted_one_key _ _ _ H) as OK. unfold one_key in OK. rewrite K in OK.
  destruct (ki_wif w) eqn:W; [contradiction|]. destruct (ki_ext w) eqn:E; [contradiction|].
  destruct OK as [raw [HD _]]. exists raw. split; [exact HD|].
  unfold script, script_gen, is_range. rewrite E, K, HD. reflexivity.
Qed.

Theorem descriptor_script_of_wif : forall o d w k opts, parse o d = POk w -> ki_wif w = Some k ->
  exists pub, o_wif o k = Some pub /\ script o w opts = Ok [([], wpkh_script pub)].
Proof.
  intros o d w k opts H K. pose proof (descriptor_accepted_one_key _ _ _ H) as OK. unfold one_key in OK. rewrite K in OK.
  destruct (ki_pub w) eqn:P; [contradiction|]. destruct (ki_ext w) eqn:E; [contradiction|].
  destruct OK as [pub HW]. exists pub. split; [exact HW|].
  unfold script, script_gen, is_range. rewrite E, P, K, HW. reflexivity.
Qed.

(* WithRange(n) on a range wallet: n scripts, or an error *)
Lemma range_scripts_length o w e : forall todo i l, range_scripts o w e i todo = Ok l -> length l = todo.
Proof.
  induction todo as [|t IH]; intros i l; cbn; [intro H; inversion H; reflexivity|].
  destruct (o_hd_pub o (ek_key e) _); [|discriminate].
  destruct (range_scripts o w e (i + 1) t) eqn:E; try discriminate.
  intro H. inversion H; subst. cbn. rewrite (IH _ _ E). reflexivity.
Qed.

Theorem descriptor_script_range_count : forall o d w n l, parse o d = POk w -> is_range w = true ->
  script o w (ORange n) = Ok l -> length l = Z.to_nat n.
Proof.
  intros o d w n l H R S. pose proof (descriptor_accepted_one_key _ _ _ H) as OK. unfold one_key in OK.
  unfold is_range in R. destruct (ki_ext w) as [e|] eqn:E; [|discriminate].
  destruct (ki_pub w) eqn:P; [destruct (ki_wif w); contradiction|]. destruct (ki_wif w) eqn:W; [contradiction|].
  unfold script, script_gen, is_range in S. rewrite E, R, P, W in S.
  destruct (negb _); [discriminate|]. exact (range_scripts_length _ _ _ _ _ _ S).
Qed.

Definition is_ok (r : presult) : bool := match r with POk _ => true | _ => false end.
Definition is_err (r : presult) : bool := match r with PErr => true | _ => false end.

Module DescEx3.
Import Coq.Strings.String.

(* the literal clause "no strict prefix of a valid encoding is accepted" fails by format: the checksum is optional *)
Example strict_prefix_literal_refuted :
  exists o s p, strict_prefix p s /\ accepted o s /\ accepted o p.
Proof.
  exists o_none, (txt "elwpkh(xpub/1/*)#12345678"), (txt "elwpkh(xpub/1/*)"). split; [|split].
  - exists (txt "#12345678"). split; [discriminate | reflexivity].
  - eexists. vm_compute. reflexivity.
  - eexists. vm_compute. reflexivity.
Qed.

(* white space inside or behind the checksum counts towards its length: the same descriptor with a line feed behind
   it is accepted without checksum and refused with one *)
Example whitespace_in_checksum_matters :
  is_ok (parse o_none (txt "elwpkh(xpub)#12345678")) = true /\
  is_err (parse o_none (txt "elwpkh(xpub)#12345678" ++ [x0a])) = true /\
  is_ok (parse o_none (txt "elwpkh(xpub)" ++ [x0a])) = true /\
  is_err (parse o_none (txt "elwpkh(xpub)#1234 5678")) = true /\
  is_ok (parse o_none (txt "elwpkh(xpub)#        ")) = true.
Proof. vm_compute. repeat split. Qed.

(* the expression is searched for (FindStringSubmatch): text around it is ignored, the inner text runs to the LAST
   closing parenthesis, and an extended key is recognised by its first four characters only *)
Example unanchored_and_prefix_only :
  is_ok (parse o_none (txt "!!elwpkh(xpubgarbage)zz")) = true /\
  is_ok (parse o_none (txt "elwpkh(xpubAAA)/1)")) = true /\
  is_err (parse o_none (txt "a(b)elwpkh(xpub)")) = true /\
  is_err (parse o_none (txt "xelwpkh(xpub)")) = true.
Proof. vm_compute. repeat split. Qed.

(* descriptor_script_no_panic covers the zero value of the options: without the `opts.index != nil` test
   (fix 84bb833) it is a nil dereference on a range wallet *)
Example script_zero_options_before_84bb833 :
  exists w, parse o_none (txt "elwpkh(xpub/1/*)") = POk w /\ script_before_84bb833 o_none w OZero = Panic /\
            script o_none w OZero <> Panic.
Proof. eexists. split; [vm_compute; reflexivity | split; [vm_compute; reflexivity | apply descriptor_script_no_panic]]. Qed.

(* number syntax of path components (math/big SetString with base 0), answers of the Go library recorded by hand *)
Example number_syntax :
  map (fun s => int_set_string0 (txt s))
      [""; "0"; "00"; "08"; "0_7"; "0_"; "0x"; "0x_1"; "0X1F"; "0b101"; "0o17"; "0O17"; "017"; "1_000"; "1__0"; "_1"; "1_";
       "-0"; "-1"; "+5"; "--5"; "+"; "0x1g"; "1e3"; "0B"; "0_x1"; "0b_1"; "0__1"; "00_1"; "0_0"]%string =
  [None; Some 0; Some 0; None; Some 7; None; None; Some 1; Some 31; Some 5; Some 15; Some 15; Some 15; Some 1000; None; None; None;
   Some 0; Some (-1); Some 5; None; None; None; None; None; None; Some 1; None; Some 1; Some 0]%Z.
Proof. vm_compute. reflexivity. Qed.

Example path_bounds :
  map (fun s => parse_component (txt s))
      ["4294967295"; "4294967296"; "2147483647'"; "2147483648'"; "2147483647h"; "13'"; "0x10"; "-0"; "-1"; "1'h"; ""]%string =
  [Ok 4294967295; Err; Ok 4294967295; Err; Ok 4294967295; Ok 2147483661; Ok 16; Ok 0; Err; Err; Err].
Proof. vm_compute. reflexivity. Qed.

(* the hypotheses of the theorems above are satisfiable: an accepted range descriptor with origin, and its scripts *)
Definition o_fixed : oracles :=
  mk_oracles (fun _ => false) (fun _ => None) (fun _ _ => true) (fun _ p => Some (x03 :: map (fun v => b8 v) p)).
Example accepted_example :
  exists w, parse o_fixed (txt "elwpkh([d34db33f/44'/0h] xpub/1/0x2/*)#abcdefgh") = POk w /\ is_range w = true /\
            ki_origin w = Some (mk_origin 0x3fb34dd3 [0x8000002c; 0x80000000]) /\
            (exists l, script o_fixed w (ORange 3) = Ok l /\
                       map fst l = [[0x3fb34dd3; 0x8000002c; 0x80000000; 1; 2; 0]; [0x3fb34dd3; 0x8000002c; 0x80000000; 1; 2; 1];
                                    [0x3fb34dd3; 0x8000002c; 0x80000000; 1; 2; 2]]).
Proof.
  eexists. split; [vm_compute; reflexivity|]. split; [reflexivity|]. split; [reflexivity|].
  eexists. split; reflexivity.
Qed.
End DescEx3.

End DescP.
