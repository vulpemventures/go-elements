(* Proofs/FreeList.v — the free-list protocol of internal/bufferutil under EVERY schedule:
   a scratch buffer is owned by at most one goroutine and never both owned and on the free
   list, the channel never exceeds its capacity, and every goroutine emits and reads its own
   values.  All by induction on the schedule (Lib/Sched.run_invariant), for any number of
   goroutines, any programs, any channel capacity.  In the protocol that returns the buffer
   before its last use a schedule exists in which a goroutine emits / returns another
   goroutine's value. *)
From GE Require Import Lib.Bytes Lib.Sched Model.FreeList.
From Coq Require Import ZifyBool ZifyN ZifyNat.
Open Scope nat_scope.
Import FL.

Lemma length_set_nth {A} (l : list A) k x : length (set_nth l k x) = length l.
Proof. revert k; induction l as [|y t IH]; intros [|k]; cbn; auto. Qed.

Lemma set_nth_lookup {A} (l : list A) k x j y : nth_error (set_nth l k x) j = Some y ->
  (j = k /\ y = x) \/ (j <> k /\ nth_error l j = Some y).
Proof.
  revert k j; induction l as [|z t IH]; intros [|k] [|j]; cbn; try discriminate; auto.
  - intros [= <-]. auto.
  - intros H. destruct (IH _ _ H) as [[-> ->]|[Hne H']]; auto.
Qed.

Lemma nth_set_nth_same {A} (l : list A) k x d : k < length l -> nth k (set_nth l k x) d = x.
Proof. revert k; induction l as [|y t IH]; intros [|k] H; cbn in *; try lia; auto. apply IH; lia. Qed.

Lemma nth_set_nth_other {A} (l : list A) k j x d : j <> k -> nth j (set_nth l k x) d = nth j l d.
Proof. revert k j; induction l as [|y t IH]; intros [|k] [|j] H; cbn; auto; try lia. Qed.

Lemma map_set_nth {A B} (f : A -> B) (l : list A) k x : map f (set_nth l k x) = set_nth (map f l) k (f x).
Proof. revert k; induction l as [|y t IH]; intros [|k]; cbn; auto. f_equal. apply IH. Qed.

Lemma set_nth_same {A} (l : list A) k x : nth_error l k = Some x -> set_nth l k x = l.
Proof.
  revert k; induction l as [|y t IH]; intros [|k] H; cbn in *; try discriminate; auto.
  - inversion H; auto.
  - f_equal. apply IH; auto.
Qed.

(* ownership invariant (over: channel, number of buffers, who holds what) *)
Definition G (cap : nat) (ch : list nat) (nb : nat) (hs : list (option nat)) : Prop :=
  NoDup ch /\
  (forall i b, nth_error hs i = Some (Some b) -> ~ In b ch) /\
  (forall i j b, i <> j -> nth_error hs i = Some (Some b) -> nth_error hs j = Some (Some b) -> False) /\
  length ch <= cap /\
  (forall b, In b ch -> b < nb) /\
  (forall i b, nth_error hs i = Some (Some b) -> b < nb).

(* what one step of a goroutine holding ho does to the channel, the buffers and its holding *)
Inductive shape (cap : nat) (ch : list nat) (bs : list bytes) (ho : option nat)
                (ch' : list nat) (bs' : list bytes) (ho' : option nat) : Prop :=
  | sh_recv b : ch = b :: ch' -> bs' = bs -> ho = None -> ho' = Some b -> shape cap ch bs ho ch' bs' ho'
  | sh_alloc : ch = [] -> ch' = [] -> bs' = bs ++ [zeros8] -> ho = None -> ho' = Some (length bs) ->
               shape cap ch bs ho ch' bs' ho'
  | sh_local b x : ch' = ch -> ho = Some b -> ho' = Some b -> bs' = set_nth bs b x -> shape cap ch bs ho ch' bs' ho'
  | sh_return b : ho = Some b -> ho' = None -> bs' = bs -> ch' = send cap ch b -> shape cap ch bs ho ch' bs' ho'
  | sh_quiet : ch' = ch -> bs' = bs -> ho' = ho -> shape cap ch bs ho ch' bs' ho'.

Lemma tstep_shape cap ch bs t :
  shape cap ch bs (holds (t_pc t)) (fst (fst (tstep false cap ch bs t))) (snd (fst (tstep false cap ch bs t)))
        (holds (t_pc (snd (tstep false cap ch bs t)))).
Proof.
  unfold tstep, bput. destruct (t_pc t) as [|b n v|b n v|b n v|b n v|b n|b n [|] x|b n x v|b n x] eqn:P.
  1: destruct (t_todo t) as [|[n v|n] r]; [rewrite <- P at 1| |]; try destruct ch as [|b0 c].
  all: try destruct (_ <=? _); cbn [recv_or_alloc fst snd set_pc set_out set_in finish add_res t_pc holds].
  (* every branch is literally one of the five shapes *)
  all: solve [econstructor; reflexivity].
Qed.

(* Ownership moves one buffer at a time: the channel gains at most the buffer goroutine i held,
   and goroutine i comes to hold only a buffer that is neither on the channel nor held by
   another goroutine. *)
Lemma G_step cap ch nb hs i ho' ch' nb' : G cap ch nb hs ->
  NoDup ch' -> length ch' <= cap -> nb <= nb' ->
  (forall c, In c ch' -> In c ch \/ nth_error hs i = Some (Some c)) ->
  (forall c, ho' = Some c -> c < nb' /\ ~ In c ch' /\ forall j, j <> i -> nth_error hs j <> Some (Some c)) ->
  G cap ch' nb' (set_nth hs i ho').
Proof.
  intros (G1 & G2 & G3 & G4 & G5 & G6) N L Hnb Hch Hho. repeat split; auto.
  - intros j c Hj Hin. apply set_nth_lookup in Hj. destruct Hj as [[-> E]|[Hne Hj]].
    + apply (Hho c); auto.
    + destruct (Hch c Hin) as [Hc|Hc]; [exact (G2 j c Hj Hc) | exact (G3 j i c Hne Hj Hc)].
  - intros j k c Hjk Hj Hk. apply set_nth_lookup in Hj. apply set_nth_lookup in Hk.
    destruct Hj as [[-> Ej]|[Nj Hj]], Hk as [[-> Ek]|[Nk Hk]]; try congruence.
    + apply (Hho c) in Hk; auto.
    + apply (Hho c) in Hj; auto.
    + exact (G3 j k c Hjk Hj Hk).
  - intros c Hc. destruct (Hch c Hc) as [Hc'|Hc']; [apply G5 in Hc' | apply G6 in Hc']; lia.
  - intros j c Hj. apply set_nth_lookup in Hj. destruct Hj as [[-> E]|[Hne Hj]].
    + apply (Hho c); auto.
    + apply G6 in Hj. lia.
Qed.

Lemma G_preserved cap ch bs hs i ho ch' bs' ho' :
  G cap ch (length bs) hs -> nth_error hs i = Some ho -> shape cap ch bs ho ch' bs' ho' ->
  G cap ch' (length bs') (set_nth hs i ho').
Proof.
  intros HG Hi S. pose proof HG as (G1 & G2 & G3 & G4 & G5 & G6).
  destruct S as [b E1 E2 E3 E4 | E1 E2 E3 E4 E5 | b x E1 E2 E3 E4 | b E1 E2 E3 E4 | E1 E2 E3]; subst.
  - (* receive b *)
    inversion G1 as [|? ? Nb Nd]; subst. cbn [length] in G4.
    apply (G_step _ _ _ _ _ _ _ _ HG); auto; try lia.
    + intros c Hc. left. right. exact Hc.
    + intros c [= <-]. split; [apply G5; left; auto|]. split; [exact Nb|].
      intros j _ Hj. apply (G2 j b Hj). left; auto.
  - (* allocate *)
    rewrite app_length. cbn [length].
    apply (G_step _ _ _ _ _ _ _ _ HG); auto; try lia.
    intros c [= <-]. split; [lia|]. split; [auto|].
    intros j _ Hj. apply G6 in Hj. lia.
  - (* local write into the owned buffer *)
    rewrite length_set_nth, (set_nth_same hs i (Some b) Hi). exact HG.
  - (* return b *)
    assert (Nb : ~ In b ch) by (eapply G2; eauto).
    apply (G_step _ _ _ _ _ _ _ _ HG); auto; try discriminate; unfold send; destruct (length ch <? cap) eqn:L; auto.
    + apply NoDup_snoc; auto.
    + apply Nat.ltb_lt in L. rewrite app_length. cbn. lia.
    + intros c Hc. apply in_app_or in Hc. destruct Hc as [Hc|[<-|[]]]; auto.
  - (* nothing shared touched *)
    rewrite (set_nth_same hs i ho Hi). exact HG.
Qed.

(* per-goroutine content invariant T (below).  PReturned / GReturned are the program counters of the
   early-return protocol (tstep true) only; under tstep false they are never entered, which T records
   as False. *)
Definition cur_op (p : pc) : option op :=
  match p with
  | Idle => None
  | PBorrowed _ n v | PFilled _ n v | PWritten _ n v | PReturned _ n v => Some (Put n v)
  | GBorrowed _ n | GRead _ n _ _ | GDecoded _ n _ _ | GReturned _ n _ => Some (Get n)
  end.
Definition res_ok (e : bytes * option N) : Prop :=
  match snd e with Some v => v = le_dec (fst e) | None => True end.

Definition T (bs : list bytes) (t : thread) : Prop :=
  t_done t ++ t_todo t = t_prog t /\
  match cur_op (t_pc t) with Some o => exists r, t_todo t = o :: r | None => True end /\
  Forall res_ok (t_res t) /\
  match t_pc t with
  | PWritten _ n v => t_out t = spec_out (t_done t ++ [Put n v])
  | PReturned _ _ _ | GReturned _ _ _ => False
  | PFilled b n v => t_out t = spec_out (t_done t) /\ firstn n (bget bs b) = le_enc n v
  | GRead b n true x => t_out t = spec_out (t_done t) /\ firstn n (bget bs b) = x
  | GDecoded b n x v => t_out t = spec_out (t_done t) /\ v = le_dec x
  | _ => t_out t = spec_out (t_done t)
  end.

Lemma spec_out_snoc d o : spec_out (d ++ [o]) = spec_out d ++ enc_op o.
Proof. unfold spec_out. rewrite map_app, concat_app. cbn. rewrite app_nil_r. reflexivity. Qed.

Lemma T_frame bs bs' t : T bs t ->
  (forall b, holds (t_pc t) = Some b -> bget bs' b = bget bs b) -> T bs' t.
Proof.
  intros (A & B & C & D) H. repeat split; auto.
  destruct (t_pc t) as [|b n v|b n v|b n v|b n v|b n|b n ok x|b n x v|b n x]; auto.
  - rewrite (H b eq_refl). exact D.
  - destruct ok; auto. rewrite (H b eq_refl). exact D.
Qed.

Lemma bget_bput_front bs b x n : b < length bs -> length x = n -> firstn n (bget (bput bs b x) b) = x.
Proof.
  intros Hb Hx. unfold bput, bget. rewrite nth_set_nth_same by auto.
  apply firstn_app_exact, Hx.
Qed.

(* an operation completes: it moves from todo to done *)
Lemma T_finish bs t o r : t_done t ++ t_todo t = t_prog t -> t_todo t = o :: r ->
  Forall res_ok (t_res t) -> t_out t = spec_out (t_done t ++ [o]) -> T bs (finish t o).
Proof.
  intros A Q C D. unfold T. cbn [finish t_done t_todo t_prog t_pc t_res t_out cur_op].
  repeat split; auto. rewrite <- A, Q, <- app_assoc. reflexivity.
Qed.

Lemma T_add_res bs t e : T bs t -> res_ok e -> T bs (add_res t e).
Proof.
  intros (A & B & C & D) He. unfold T. cbn [add_res t_done t_todo t_prog t_pc t_res t_out].
  repeat split; auto. apply Forall_app. auto.
Qed.

(* unfolds T of a thread record *)
Ltac tsimpl :=
  unfold T; cbn [set_pc set_out set_in finish add_res t_done t_todo t_prog t_pc t_res t_out cur_op fst snd].

Lemma T_self cap ch bs t : T bs t ->
  (forall b, holds (t_pc t) = Some b -> b < length bs) ->
  T (snd (fst (tstep false cap ch bs t))) (snd (tstep false cap ch bs t)).
Proof.
  intros (A & B & C & D) Hb. unfold tstep.
  destruct (t_pc t) as [|b n v|b n v|b n v|b n v|b n|b n ok x|b n x v|b n x] eqn:P; cbn [cur_op holds] in *.
  - destruct (t_todo t) as [|[n v|n] r] eqn:Q.
    + tsimpl. rewrite P, Q. auto.
    + destruct (recv_or_alloc ch bs) as [[c0 bs0] b0]. tsimpl. rewrite Q. repeat split; eauto.
    + destruct (recv_or_alloc ch bs) as [[c0 bs0] b0]. tsimpl. rewrite Q. repeat split; eauto.
  - tsimpl. repeat split; auto. apply bget_bput_front; [apply Hb; auto | apply le_enc_length].
  - destruct D as [D1 D2]. tsimpl. repeat split; auto. rewrite spec_out_snoc, D1, D2. reflexivity.
  - destruct B as [r Q]. apply (T_finish bs t (Put n v) r); auto.
  - destruct D.
  - destruct (n <=? length (t_in t)) eqn:L; tsimpl; repeat split; auto.
    apply bget_bput_front; [apply Hb; auto|]. apply Nat.leb_le in L. rewrite firstn_length. lia.
  - destruct B as [r Q]. destruct ok.
    + destruct D as [D1 D2]. tsimpl. repeat split; eauto. rewrite D2. reflexivity.
    + apply T_add_res; [|exact I]. apply (T_finish bs t (Get n) r); auto.
      rewrite spec_out_snoc. cbn [enc_op]. rewrite app_nil_r. exact D.
  - destruct B as [r Q]. destruct D as [D1 D2].
    apply T_add_res; [|exact D2]. apply (T_finish bs t (Get n) r); auto.
    rewrite spec_out_snoc. cbn [enc_op]. rewrite app_nil_r. exact D1.
  - destruct D.
Qed.

Lemma shape_bget cap ch bs ho ch' bs' ho' : shape cap ch bs ho ch' bs' ho' ->
  forall b, b < length bs -> Some b <> ho -> bget bs' b = bget bs b.
Proof.
  intros S b Hb Hne.
  destruct S as [b0 E1 E2 E3 E4 | E1 E2 E3 E4 E5 | b0 x E1 E2 E3 E4 | b0 E1 E2 E3 E4 | E1 E2 E3]; subst; auto.
  - unfold bget. apply app_nth1; auto.
  - unfold bget. apply nth_set_nth_other. congruence.
Qed.

(* the invariant of every reachable state *)
Definition hs_of (st : state) : list (option nat) := map (fun t => holds (t_pc t)) (threads st).
Definition Inv (cap : nat) (st : state) : Prop :=
  G cap (chan st) (length (bufs st)) (hs_of st) /\
  (forall i t, nth_error (threads st) i = Some t -> T (bufs st) t).

Lemma hs_of_nth st i t : nth_error (threads st) i = Some t -> nth_error (hs_of st) i = Some (holds (t_pc t)).
Proof. intros H. unfold hs_of. exact (map_nth_error (fun t => holds (t_pc t)) i (threads st) H). Qed.

Lemma step_preserves cap st i : Inv cap st -> Inv cap (step false cap st i).
Proof.
  intros [HG HT]. unfold step. destruct (nth_error (threads st) i) as [t|] eqn:Ni; [|split; auto].
  pose proof (tstep_shape cap (chan st) (bufs st) t) as S.
  pose proof (T_self cap (chan st) (bufs st) t (HT i t Ni)) as Ts.
  destruct (tstep false cap (chan st) (bufs st) t) as [[c bs'] t']. cbn [fst snd] in S, Ts.
  assert (Hi : nth_error (hs_of st) i = Some (holds (t_pc t))) by (apply hs_of_nth; auto).
  split.
  - unfold hs_of. cbn [chan bufs threads]. rewrite map_set_nth. eapply G_preserved; eauto.
  - cbn [chan bufs threads]. intros j tj Hj. apply set_nth_lookup in Hj.
    destruct HG as (G1 & G2 & G3 & G4 & G5 & G6).
    destruct Hj as [[-> ->]|[Hne Hj]].
    + apply Ts. intros b Hb. apply (G6 i b). rewrite Hi, Hb. reflexivity.
    + eapply T_frame; eauto. intros b Hb.
      assert (Hjh : nth_error (hs_of st) j = Some (Some b)).
      { rewrite (hs_of_nth _ _ _ Hj), Hb. reflexivity. }
      eapply shape_bget; eauto.
      intros Heq. apply (G3 j i b Hne Hjh). rewrite Hi, <- Heq. reflexivity.
Qed.

Lemma init_inv cap progs : Inv cap (init progs).
Proof.
  assert (H : forall i b, nth_error (hs_of (init progs)) i <> Some (Some b)).
  { unfold hs_of, init. cbn [threads]. rewrite map_map. intros i b H.
    apply nth_error_In, in_map_iff in H. destruct H as (? & ? & _). discriminate. }
  split.
  - cbn [init chan bufs length]. repeat split.
    + constructor.
    + intros i b _ [].
    + intros i j b _ Hi _. exact (H i b Hi).
    + cbn; lia.
    + intros b [].
    + intros i b Hi. destruct (H i b Hi).
  - cbn [init threads bufs]. intros i t Ht. apply nth_error_In, in_map_iff in Ht. destruct Ht as (p & <- & _).
    unfold T, new_thread. cbn. repeat split; auto.
Qed.

Theorem reachable_inv cap progs sch : Inv cap (run_sched false cap (init progs) sch).
Proof.
  unfold run_sched. apply (run_invariant state (step false cap) (Inv cap)).
  - intros s i. apply step_preserves.
  - apply init_inv.
Qed.

(* a buffer is never held by two goroutines, nor held and on the free list, nor twice on the list *)
Theorem exclusive_ownership cap progs sch :
  let st := run_sched false cap (init progs) sch in
  NoDup (chan st) /\
  (forall i t b, nth_error (threads st) i = Some t -> holds (t_pc t) = Some b -> ~ In b (chan st)) /\
  (forall i j ti tj b, i <> j -> nth_error (threads st) i = Some ti -> nth_error (threads st) j = Some tj ->
     holds (t_pc ti) = Some b -> holds (t_pc tj) = Some b -> False).
Proof.
  intros st. destruct (reachable_inv cap progs sch) as [(G1 & G2 & G3 & _) _]. fold st in G1, G2, G3.
  split; [exact G1|]. split.
  - intros i t b Hi Hb. apply (G2 i b). rewrite (hs_of_nth _ _ _ Hi), Hb; reflexivity.
  - intros i j ti tj b Hne Hi Hj Hbi Hbj. apply (G3 i j b Hne).
    + rewrite (hs_of_nth _ _ _ Hi), Hbi; reflexivity.
    + rewrite (hs_of_nth _ _ _ Hj), Hbj; reflexivity.
Qed.

Lemma tstep_prog early cap ch bs t : t_prog (snd (tstep early cap ch bs t)) = t_prog t.
Proof.
  unfold tstep. destruct (t_pc t) as [| |b n v| | |b n|b n [|] x| |]; try reflexivity.
  - destruct (t_todo t) as [|[]]; try destruct ch; reflexivity.
  - destruct early; reflexivity.
  - destruct (_ <=? _); reflexivity.
  - destruct early; reflexivity.
Qed.

Lemma step_keeps_prog early cap st i : map t_prog (threads (step early cap st i)) = map t_prog (threads st).
Proof.
  unfold step. destruct (nth_error (threads st) i) as [t|] eqn:Ni; [|reflexivity].
  pose proof (tstep_prog early cap (chan st) (bufs st) t) as P.
  destruct (tstep early cap (chan st) (bufs st) t) as [[c bs'] t']. cbn [threads snd] in *.
  rewrite map_set_nth, P. apply set_nth_same, map_nth_error, Ni.
Qed.

Lemma run_keeps_prog early cap sch st : map t_prog (threads (run_sched early cap st sch)) = map t_prog (threads st).
Proof.
  apply (run_invariant state (step early cap) (fun s => map t_prog (threads s) = map t_prog (threads st))); auto.
  intros s i <-. apply step_keeps_prog.
Qed.

(* Under every schedule: what goroutine i has written to ITS stream is exactly the encoding of
   ITS OWN values in program order (a prefix of its program, plus possibly the operation in
   flight), and every value a read returned is the decoding of the bytes that goroutine consumed *)
Theorem each_write_emits_its_own_value cap progs sch i t :
  nth_error (threads (run_sched false cap (init progs) sch)) i = Some t ->
  (exists p, nth_error progs i = Some p /\ t_done t ++ t_todo t = fst p) /\
  (t_out t = spec_out (t_done t) \/
   exists n v r, t_todo t = Put n v :: r /\ t_out t = spec_out (t_done t ++ [Put n v])) /\
  Forall res_ok (t_res t).
Proof.
  intros Hi. destruct (reachable_inv cap progs sch) as [_ HT]. specialize (HT i t Hi).
  destruct HT as (A & B & C & D). split; [|split; [|exact C]].
  - pose proof (run_keeps_prog false cap sch (init progs)) as K.
    apply (f_equal (fun l => nth_error l i)) in K. cbn beta in K.
    rewrite !nth_error_map, Hi in K. unfold init in K. cbn [threads] in K.
    rewrite nth_error_map in K.
    destruct (nth_error progs i) as [p|]; [|discriminate]. injection K as K.
    exists p. split; auto. rewrite A. exact K.
  - destruct (t_pc t) as [|b n v|b n v|b n v|b n v|b n|b n ok x|b n x v|b n x]; cbn [cur_op] in B; auto;
      try (destruct D; auto; fail).
    + right. destruct B as [r Q]. exists n, v, r. auto.
    + destruct ok; [destruct D|]; auto.
Qed.

(* when a goroutine has finished its program its stream holds exactly its own values *)
Corollary finished_stream_is_own_encoding cap progs sch i t p :
  nth_error (threads (run_sched false cap (init progs) sch)) i = Some t ->
  nth_error progs i = Some p -> t_todo t = [] -> t_out t = spec_out (fst p).
Proof.
  intros Hi Hp Hd. destruct (each_write_emits_its_own_value cap progs sch i t Hi) as ((p' & Hp' & E) & O & _).
  rewrite Hp in Hp'. inversion Hp'; subst p'. rewrite Hd, app_nil_r in E. rewrite <- E.
  destruct O as [O|(n & v & r & Q & _)]; [exact O|]. rewrite Hd in Q. discriminate.
Qed.

(* the shape of Uint16 returning the buffer before decoding it: goroutine 0 reads 0x1234 from its
   own stream, goroutine 1 writes 0xBEEF; under the schedule below goroutine 0 returns 0xBEEF *)
Example early_return_breaks_read_value :
  exists sch,
    let st := run_sched true flist_cap (init [([Get 2], [x34; x12]); ([Put 2 0xBEEF%N], [])]) sch in
    exists t, nth_error (threads st) 0 = Some t /\ t_res t = [([x34; x12], Some 0xBEEF%N)] /\
              le_dec [x34; x12] = 0x1234%N.
Proof. exists [0; 0; 0; 1; 1; 0]. vm_compute. eexists. repeat split. Qed.

(* the shape of PutUintN returning the buffer before w.Write: goroutine 0 emits goroutine 1's value *)
Example early_return_breaks_emitted_value :
  exists sch,
    let st := run_sched true flist_cap (init [([Put 2 0x1234%N], []); ([Put 2 0xBEEF%N], [])]) sch in
    exists t, nth_error (threads st) 0 = Some t /\ t_todo t = [] /\ t_out t = [xef; xbe] /\
              spec_out [Put 2 0x1234%N] = [x34; x12].
Proof. exists [0; 0; 0; 1; 1; 0]. vm_compute. eexists. repeat split. Qed.

(* the same schedules are harmless in the protocol as coded *)
Example same_schedule_correct_protocol :
  let st := run_sched false flist_cap (init [([Get 2], [x34; x12]); ([Put 2 0xBEEF%N], [])]) [0; 0; 0; 1; 1; 0; 1; 1] in
  map t_res (threads st) = [[([x34; x12], Some 0x1234%N)]; []] /\ map t_out (threads st) = [[]; [xef; xbe]] /\
  chan st = [0; 1] /\ length (bufs st) = 2.
Proof. vm_compute. repeat split. Qed.

Example invariant_hypotheses_satisfiable :
  let progs := [([Put 4 7%N; Get 1], [x09]); ([Put 8 1%N], [])] in
  Inv flist_cap (init progs) /\
  map t_out (threads (run_sched false flist_cap (init progs) [0;1;1;0;0;1;0;1;0;0;0;0])) =
    [[x07; x00; x00; x00]; [x01; x00; x00; x00; x00; x00; x00; x00]].
Proof. split; [apply init_inv|vm_compute; reflexivity]. Qed.
