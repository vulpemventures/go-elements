(* Proofs/Issuance.v — C13.  Each id function (entropy, asset, token) is a length guard followed by the
   Elements derivation of Spec/Issuance.v (`*_eq`, `*_refines`, `*_error_iff`), checked on the vectors of
   transaction/data/issuance.json; the contract JSON in closed form; under an injective compression function
   the ids are pairwise distinct and injective in their inputs (Section Distinct).  Then the four updaters
   (v2 AddInIssuance / AddInReissuance, v0 AddIssuance / AddReissuance): a successful call adds outputs that
   pay the ids derived from the issuing input and writes the issuance into that input, and the transaction
   fields agree with the packet.  Last, histories of calls: an issuance once attached to an input stays. *)
From GE Require Import Lib.Sha256Fast Lib.Bytes Lib.Varint Lib.Sha256 Model.Tx Model.Issuance Spec.Issuance.
From Coq Require Import ZifyBool ZifyN ZifyNat Sorting.Sorted.
Open Scope N_scope.

Lemma sha256_midstate_length b : length (sha256_midstate b) = 32%nat.
Proof. apply digest_of_length, compress_length. reflexivity. Qed.

(* fastsha256.MidState256 on exactly one block is the compression of that block *)
Lemma midstate256_block b : length b = 64%nat -> midstate256 b = sha256_midstate b.
Proof.
  intro H. unfold midstate256, sha256_midstate. rewrite H. cbn [Nat.ltb Nat.leb].
  rewrite <- H, firstn_all. reflexivity.
Qed.

Lemma block_len (e tag : bytes) : length e = 32%nat -> length tag = 32%nat -> length (e ++ tag) = 64%nat.
Proof. intros H1 H2. rewrite app_length, H1, H2. reflexivity. Qed.

(* each id function is its guard followed by the Elements derivation *)
Lemma compute_entropy_eq hash n chash :
  compute_entropy hash n chash =
  if ((length hash =? 32) && (length chash =? 32))%nat then Some (spec_entropy hash n chash) else None.
Proof.
  unfold compute_entropy.
  destruct (length hash =? 32)%nat; [|reflexivity].
  destruct (Nat.eqb_spec (length chash) 32) as [Hc|_]; [|reflexivity].
  cbn [negb andb]. rewrite midstate256_block by (apply block_len; [apply sha256_length | exact Hc]).
  unfold spec_entropy, entropy_of, fast_merkle_root2, ser_outpoint, dsha256. reflexivity.
Qed.

Lemma compute_asset_eq e : compute_asset e = if (length e =? 32)%nat then Some (spec_asset e) else None.
Proof.
  unfold compute_asset. destruct (Nat.eqb_spec (length e) 32) as [He|_]; [|reflexivity].
  cbn [negb]. rewrite midstate256_block by (apply block_len; [exact He | reflexivity]).
  unfold spec_asset, asset_of, fast_merkle_root2. reflexivity.
Qed.

Lemma compute_token_eq e flag :
  compute_token e flag =
  if (length e =? 32)%nat && ((flag =? 0) || (flag =? 1)) then Some (spec_token e (flag =? 1)) else None.
Proof.
  unfold compute_token. destruct (Nat.eqb_spec (length e) 32) as [He|_]; [|reflexivity].
  destruct ((flag =? 0) || (flag =? 1)) eqn:F; [|reflexivity]. cbn [negb andb].
  rewrite midstate256_block by (apply block_len; [exact He | reflexivity]).
  unfold spec_token, token_of, fast_merkle_root2.
  apply orb_true_iff in F. destruct F as [F|F]; apply N.eqb_eq in F; subst flag; reflexivity.
Qed.

Lemma if_some_none {A} (b : bool) (x : A) : (if b then Some x else None) = None <-> b = false.
Proof. destruct b; split; congruence. Qed.
(* used where x is a digest, which `injection` on the hypothesis would start to evaluate *)
Lemma if_some_inv {A} (b : bool) (x y : A) : (if b then Some x else None) = Some y -> b = true /\ x = y.
Proof. destruct b; [|discriminate]. intro H. split; [reflexivity | congruence]. Qed.

Theorem compute_entropy_refines hash n chash :
  length hash = 32%nat -> length chash = 32%nat ->
  compute_entropy hash n chash = Some (spec_entropy hash n chash).
Proof. intros Hh Hc. rewrite compute_entropy_eq, Hh, Hc. reflexivity. Qed.

Theorem compute_asset_refines e : length e = 32%nat -> compute_asset e = Some (spec_asset e).
Proof. intro H. rewrite compute_asset_eq, H. reflexivity. Qed.

Theorem compute_token_refines e (confidential : bool) :
  length e = 32%nat -> compute_token e (iss_flag_of confidential) = Some (spec_token e confidential).
Proof. intro H. rewrite compute_token_eq, H. destruct confidential; reflexivity. Qed.

Theorem ids_refine_spec hash n chash e confidential :
  length hash = 32%nat -> length chash = 32%nat -> length e = 32%nat ->
  compute_entropy hash n chash = Some (spec_entropy hash n chash) /\
  compute_asset e = Some (spec_asset e) /\
  compute_token e (iss_flag_of confidential) = Some (spec_token e confidential).
Proof.
  intros. repeat split; [apply compute_entropy_refines | apply compute_asset_refines | apply compute_token_refines]; assumption.
Qed.

(* the guards: exactly which inputs are refused.  A contract hash that is not a uint256 is among them (a short
   one would make the mid-state helper return the SHA-256 initial state for every outpoint) *)
Lemma compute_entropy_error_iff hash n chash :
  compute_entropy hash n chash = None <-> length hash <> 32%nat \/ length chash <> 32%nat.
Proof. rewrite compute_entropy_eq, if_some_none, andb_false_iff, !Nat.eqb_neq. reflexivity. Qed.
Lemma compute_asset_error_iff e : compute_asset e = None <-> length e <> 32%nat.
Proof. rewrite compute_asset_eq, if_some_none. apply Nat.eqb_neq. Qed.
Lemma compute_token_error_iff e flag :
  compute_token e flag = None <-> length e <> 32%nat \/ (flag <> 0 /\ flag <> 1).
Proof.
  rewrite compute_token_eq, if_some_none, andb_false_iff, orb_false_iff, Nat.eqb_neq, !N.eqb_neq. reflexivity.
Qed.
Lemma spec_entropy_length hash n chash : length (spec_entropy hash n chash) = 32%nat.
Proof. unfold spec_entropy, entropy_of, fast_merkle_root2. apply sha256_midstate_length. Qed.
Lemma compute_entropy_length hash n chash e : compute_entropy hash n chash = Some e -> length e = 32%nat.
Proof.
  rewrite compute_entropy_eq. intro H. apply if_some_inv in H as [_ <-]. apply spec_entropy_length.
Qed.

Definition h32 (k : N) : bytes := repeat (b8 k) 32.
Theorem compute_entropy_total hash n chash :
  length hash = 32%nat -> length chash = 32%nat ->
  exists e, compute_entropy hash n chash = Some e /\ length e = 32%nat /\ e = spec_entropy hash n chash.
Proof.
  intros Hh Hc. exists (spec_entropy hash n chash). split; [apply compute_entropy_refines; assumption|].
  split; [apply spec_entropy_length | reflexivity].
Qed.
(* the recorded vectors of transaction/data/issuance.json *)
Definition vec1_hash : bytes := map b8 [195;22;80;183;238;51;80;8;101;6;193;142;221;6;190;133;42;75;79;135;100;51;86;233;194;240;226;151;248;60;69;57].
Example issuance_json_vector_1 :
  compute_entropy vec1_hash 68 zero32b = Some (map b8 [61;185;216;180;169;218;8;123;66;242;159;52;67;20;18;170;162;77;99;117;11;179;27;154;46;38;55;151;36;129;53;224]) /\
  compute_asset (map b8 [61;185;216;180;169;218;8;123;66;242;159;52;67;20;18;170;162;77;99;117;11;179;27;154;46;38;55;151;36;129;53;224]) = Some (map b8 [147;168;147;0;41;8;131;3;103;25;157;190;178;174;24;123;168;80;8;57;173;169;248;111;44;181;232;116;95;121;223;222]) /\
  compute_token (map b8 [61;185;216;180;169;218;8;123;66;242;159;52;67;20;18;170;162;77;99;117;11;179;27;154;46;38;55;151;36;129;53;224]) 0 = Some (map b8 [77;129;248;8;116;143;141;255;189;178;127;229;159;252;42;106;194;37;81;101;24;3;109;29;207;152;181;96;219;116;16;250]).
Proof.
  (* evaluated on sha256_fast and midstate256_fast, which coqchk can afford (Lib/Sha256Fast); likewise below *)
  unfold compute_entropy, compute_asset, compute_token, dsha256. rewrite <- !sha256_fast_eq, <- !midstate256_fast_eq.
  split; [|split]; vm_compute; reflexivity.
Qed.

Definition vec2_contract : iss_contract :=
  mk_iss_contract (map b8 [84;101;115;116]) (map b8 [84;83;84]) 0 0 (map b8 [48;50;97;57;97;55;51;57;57;100;101;56;57;101;99;50;101;55;100;101;56;55;54;98;98;101;48;98;53;49;50;102;55;56;102;49;51;100;53;100;48;97;51;51;49;53;48;52;55;101;53;98;49;52;49;48;57;99;56;98;97;99;51;56;102;50]) (map b8 [116;101;115;116;46;105;111]).
Definition vec2_hash : bytes := map b8 [58;53;45;33;74;44;183;156;202;102;83;246;199;32;0;159;209;82;148;90;243;182;41;130;102;193;219;154;210;19;39;143].
Example issuance_json_vector_2 :
  compute_entropy vec2_hash 1 (contract_hash vec2_contract) = Some (map b8 [228;5;182;164;248;145;183;34;108;195;217;7;92;26;156;100;171;115;187;95;104;228;88;219;233;83;64;81;140;69;91;247]) /\
  compute_asset (map b8 [228;5;182;164;248;145;183;34;108;195;217;7;92;26;156;100;171;115;187;95;104;228;88;219;233;83;64;81;140;69;91;247]) = Some (map b8 [245;89;185;195;59;132;41;3;69;188;147;229;43;183;62;245;6;118;102;10;114;110;16;120;28;138;145;204;170;33;5;33]) /\
  compute_token (map b8 [228;5;182;164;248;145;183;34;108;195;217;7;92;26;156;100;171;115;187;95;104;228;88;219;233;83;64;81;140;69;91;247]) 0 = Some (map b8 [67;89;209;237;196;226;77;110;72;131;188;74;209;217;77;73;44;58;5;189;174;74;131;87;105;68;97;29;90;153;215;160]).
Proof.
  unfold compute_entropy, compute_asset, compute_token, dsha256, contract_hash.
  rewrite <- !sha256_fast_eq, <- !midstate256_fast_eq.
  split; [|split]; vm_compute; reflexivity.
Qed.

(* TestIsContractHashValid *)
Definition tiero_contract : iss_contract :=
  mk_iss_contract (map b8 [84;105;101;114;111;32;84;111;107;101;110]) (map b8 [84;73;69;82;79]) 0 8 (map b8 [48;50;97;57;97;55;51;57;57;100;101;56;57;101;99;50;101;55;100;101;56;55;54;98;98;101;48;98;53;49;50;102;55;56;102;49;51;100;53;100;48;97;51;51;49;53;48;52;55;101;53;98;49;52;49;48;57;99;56;98;97;99;51;56;102;50]) (map b8 [116;105;101;114;111;46;103;105;116;104;117;98;46;105;111]).
Example contract_hash_vector :
  contract_hash tiero_contract = map b8 [102;56;71;242;234;88;60;0;112;77;217;38;77;62;33;214;131;219;76;192;204;240;194;25;67;42;207;233;62;54;196;213].
Proof. unfold contract_hash. rewrite <- sha256_fast_eq. vm_compute. reflexivity. Qed.

Definition iss_comma : byte := b8 44.
Definition iss_colon : byte := b8 58.
(* the key-sorted form, whatever the strings and numbers are *)
Theorem contract_json_closed_form c :
  contract_json c =
  b8 123 :: ((jstr k_entity ++ iss_colon :: (b8 123 :: (jstr k_domain ++ iss_colon :: jstr (c_domain c)) ++ [b8 125])) ++ iss_comma ::
             (jstr k_pubkey ++ iss_colon :: jstr (c_pubkey c)) ++ iss_comma ::
             (jstr k_name ++ iss_colon :: jstr (c_name c)) ++ iss_comma ::
             (jstr k_precision ++ iss_colon :: dec_of_N (c_precision c)) ++ iss_comma ::
             (jstr k_ticker ++ iss_colon :: jstr (c_ticker c)) ++ iss_comma ::
             (jstr k_version ++ iss_colon :: dec_of_N (c_version c))) ++ [b8 125].
Proof. destruct c. reflexivity. Qed.

(* the keys of the closed form are those of the specification, in that order *)
Lemma contract_keys_are_spec_keys :
  [k_entity; k_pubkey; k_name; k_precision; k_ticker; k_version] = map (map b8) spec_contract_keys.
Proof. reflexivity. Qed.

Lemma strongly_sorted_nth {A} (R : A -> A -> Prop) l : StronglySorted R l ->
  forall i j a b, nth_error l i = Some a -> nth_error l j = Some b -> (i < j)%nat -> R a b.
Proof.
  induction 1 as [|x l _ IH F]; intros i j a b Hi Hj Hlt; [destruct i; discriminate Hi|].
  destruct j as [|j]; [inversion Hlt|]. destruct i as [|i]; cbn [nth_error] in Hi, Hj.
  - injection Hi as <-. rewrite Forall_forall in F. apply F. exact (nth_error_In _ _ Hj).
  - apply (IH i j); [exact Hi | exact Hj | apply Nat.succ_lt_mono; exact Hlt].
Qed.

Lemma spec_contract_keys_sorted :
  forall i j a b, nth_error (map (map b8) spec_contract_keys) i = Some a ->
                  nth_error (map (map b8) spec_contract_keys) j = Some b -> (i < j)%nat -> bytes_ltb a b = true.
Proof.
  apply (strongly_sorted_nth (fun a b => bytes_ltb a b = true)).
  repeat (constructor; [|repeat constructor]). constructor.
Qed.

Definition iss_rotate {A} (k : nat) (l : list A) : list A := skipn k l ++ firstn k l.

(* asset id and token ids are pairwise distinct under an ideal compression function *)
Section Distinct.
  Variable cmp : bytes -> bytes.
  Hypothesis cmp_inj : forall a b, length a = 64%nat -> length b = 64%nat -> cmp a = cmp b -> a = b.

  Lemma root2_inj l r l' r' :
    length l = 32%nat -> length l' = 32%nat -> length r = 32%nat -> length r' = 32%nat ->
    fast_merkle_root2 cmp l r = fast_merkle_root2 cmp l' r' -> l = l' /\ r = r'.
  Proof.
    intros Hl Hl' Hr Hr' E. apply cmp_inj in E; try (apply block_len; assumption).
    apply app_eq_len in E; [exact E | congruence].
  Qed.

  Theorem ids_pairwise_distinct (e : bytes) : length e = 32%nat ->
    asset_of cmp e <> token_of cmp e false /\
    asset_of cmp e <> token_of cmp e true /\
    token_of cmp e false <> token_of cmp e true.
  Proof.
    intro He. unfold asset_of, token_of.
    repeat split; intro E; apply root2_inj in E; try assumption; try reflexivity; destruct E as [_ E]; discriminate E.
  Qed.

  (* different entropies never share an id, different outpoints / contract hashes never share an entropy *)
  Theorem ids_injective_in_entropy (e e' : bytes) (c c' : bool) : length e = 32%nat -> length e' = 32%nat ->
    (asset_of cmp e = asset_of cmp e' -> e = e') /\
    (token_of cmp e c = token_of cmp e' c' -> e = e' /\ c = c') /\
    asset_of cmp e <> token_of cmp e' c.
  Proof.
    intros He He'. unfold asset_of, token_of.
    split; [|split]; intro E; apply root2_inj in E; try assumption; try reflexivity; destruct E as [E1 E2].
    - exact E1.
    - split; [exact E1|]. destruct c, c'; congruence.
    - destruct c; discriminate E2.
  Qed.

  Theorem entropy_injective (H : bytes -> bytes) (h : bytes) (n : N) (ch h' : bytes) (n' : N) (ch' : bytes) :
    (forall x, length (H x) = 32%nat) -> (forall x y, H x = H y -> x = y) ->
    length h = 32%nat -> length h' = 32%nat -> n < 2 ^ 32 -> n' < 2 ^ 32 -> length ch = 32%nat -> length ch' = 32%nat ->
    entropy_of cmp H h n ch = entropy_of cmp H h' n' ch' -> h = h' /\ n = n' /\ ch = ch'.
  Proof.
    intros HL HI Lh Lh' Ln Ln' Lc Lc' E. unfold entropy_of, ser_outpoint in E.
    apply root2_inj in E; try apply HL; try assumption. destruct E as [E ->].
    apply HI, HI, app_eq_len in E; [|congruence]. destruct E as [-> E].
    repeat split. apply (le_enc_inj 4); assumption.
  Qed.
End Distinct.

(* the hypotheses are satisfiable: the identity is an injective "compression" *)
Example distinct_hypotheses_satisfiable :
  let cmp := fun b : bytes => b in
  (forall a b, length a = 64%nat -> length b = 64%nat -> cmp a = cmp b -> a = b) /\
  asset_of cmp zero32b <> token_of cmp zero32b true.
Proof.
  split; [intros a b _ _ E; exact E|].
  apply (ids_pairwise_distinct (fun b => b)); [intros a b _ _ E; exact E | reflexivity].
Qed.

Definition chash_of (c : option iss_contract) : bytes :=
  match c with Some ct => contract_hash ct | None => zero32b end.

Lemma nth_error_iss_set_nth {A} (f : A -> A) (l : list A) : forall k,
  nth_error (iss_set_nth k f l) k = option_map f (nth_error l k).
Proof.
  induction l as [|x l IH]; intros [|k]; cbn [iss_set_nth nth_error option_map]; try reflexivity. apply IH.
Qed.
Lemma nth_error_iss_set_nth_other {A} (f : A -> A) (l : list A) : forall k j, k <> j ->
  nth_error (iss_set_nth k f l) j = nth_error l j.
Proof.
  induction l as [|x l IH]; intros [|k] [|j] NE; cbn [iss_set_nth nth_error]; try reflexivity; try congruence.
  apply IH. congruence.
Qed.
Lemma iss_set_nth_length {A} (f : A -> A) (l : list A) : forall k, length (iss_set_nth k f l) = length l.
Proof. induction l as [|x l IH]; intros [|k]; cbn [iss_set_nth length]; try reflexivity. rewrite IH. reflexivity. Qed.
Lemma iss_set_nth_last {A} (f : A -> A) (l : list A) x : iss_set_nth (length l) f (l ++ [x]) = l ++ [f x].
Proof. induction l as [|y l IH]; cbn [length iss_set_nth app]; [reflexivity | rewrite IH; reflexivity]. Qed.
Lemma iss_set_nth_at {A} (f : A -> A) (l : list A) : forall k x,
  nth_error l k = Some x -> iss_set_nth k f l = iss_set_nth k (fun _ => f x) l.
Proof.
  induction l as [|y l IH]; intros [|k] x H; cbn [iss_set_nth nth_error] in *; try discriminate H.
  - injection H as ->. reflexivity.
  - rewrite (IH k x H). reflexivity.
Qed.

(* the non-empty branch of a match on a list, when the empty one is excluded *)
Lemma nonempty_branch {A B} (l : list A) (x y z : B) :
  match l with [] => x | _ :: _ => y end = z -> x <> z -> y = z.
Proof. destruct l; congruence. Qed.

Lemma spec_amount_pos v : 0 < v -> spec_amount v = iss_value_to_bytes v.
Proof. intro H. unfold spec_amount. destruct (N.eqb_spec v 0); [lia | reflexivity]. Qed.
Lemma ltb0_amount v : (if 0 <? v then iss_value_to_bytes v else [x00]) = issuance_amount v.
Proof. unfold issuance_amount. destruct (N.ltb_spec 0 v); destruct (N.eqb_spec v 0); try reflexivity; lia. Qed.

Lemma new_tx_issuance_inv asset token prec c ie :
  new_tx_issuance asset token prec c = Some ie ->
  ie = mk_iss_ext (mk_iss zero32b [] (issuance_amount asset) (issuance_amount token)) prec (chash_of c) /\ prec <= 8 /\
  match c with Some ct => c_precision ct = prec | None => True end.
Proof.
  unfold new_tx_issuance. destruct (N.ltb_spec 8 prec) as [|L]; [discriminate|].
  destruct c as [ct|].
  - destruct (N.eqb_spec (c_precision ct) prec) as [E|]; [|discriminate]. intros [= <-]. repeat split; assumption.
  - intros [= <-]. repeat split. exact L.
Qed.

Lemma generate_entropy_inv ie h n ie' :
  generate_entropy ie h n = Some ie' ->
  exists e, compute_entropy h n (ie_chash ie) = Some e /\ length e = 32%nat /\
    ie' = mk_iss_ext (mk_iss (iss_nonce (ie_iss ie)) e (iss_amount (ie_iss ie)) (iss_token (ie_iss ie))) (ie_precision ie) (ie_chash ie).
Proof.
  unfold generate_entropy. destruct (compute_entropy h n (ie_chash ie)) as [e|] eqn:E; [|discriminate].
  intros [= <-]. exists e. repeat split. exact (compute_entropy_length _ _ _ _ E).
Qed.

Lemma v2_add_output_inv p o p' : v2_add_output p o = Some p' ->
  p' = mk_v2pkt (v2_incount p) (v2_outcount p + 1) (v2_outs_modifiable p) (v2_ins p) (v2_outs p ++ [o]) /\
  v2_outs_modifiable p = true.
Proof.
  unfold v2_add_output. destruct (length (vo_asset o) =? 0)%nat; [discriminate|].
  destruct (v2_outs_modifiable p); [|discriminate]. intros [= <-]. split; reflexivity.
Qed.

Lemma v2_index_ok_inv p idx input : v2_index_ok p idx = Some input ->
  (0 <= idx)%Z /\ (idx <= Z.of_N (v2_incount p) - 1)%Z /\ nth_error (v2_ins p) (Z.to_nat idx) = Some input /\
  vi_entropy input = None.
Proof.
  unfold v2_index_ok.
  destruct (Z.ltb_spec idx 0) as [L|L]; [discriminate|].
  destruct (Z.ltb_spec (Z.of_N (v2_incount p) - 1) idx) as [G|G]; [discriminate|].
  destruct (nth_error (v2_ins p) (Z.to_nat idx)) as [i|]; [|discriminate].
  destruct (vi_entropy i) eqn:E; [discriminate|].
  intros [= <-]. repeat split; assumption.
Qed.

(* what a successful AddInIssuance leaves behind *)
Definition v2_issued_input (input : v2in) (a : iss_args) : v2in :=
  mk_v2in (vi_txid input) (vi_index input) (vi_seq input) (ia_asset a) (vi_vcommit input) (ia_token a)
          (vi_kcommit input) (Some zero32b) (Some (chash_of (ia_contract a))) (Some (ia_blinded a)) (vi_pegin input).

Theorem v2_issuance_outputs_pay_derived_ids p idx a p' :
  v2_add_in_issuance p idx a = (true, p') ->
  exists input entropy asset token,
    let k := Z.to_nat idx in
    let bidx := Z.to_N idx mod 4294967296 in
    (0 <= idx)%Z /\ nth_error (v2_ins p) k = Some input /\ vi_entropy input = None /\
    (* the ids are derived from that input's outpoint and the contract hash *)
    compute_entropy (vi_txid input) (vi_index input) (chash_of (ia_contract a)) = Some entropy /\
    compute_asset entropy = Some asset /\
    compute_token entropy (iss_flag_of (ia_blinded a)) = Some token /\
    (* the outputs added pay exactly those ids *)
    v2_outs p' = v2_outs p ++
                 v2_new_output asset (ia_asset a) (ia_aaddr a) bidx bidx ::
                 (if 0 <? ia_token a then [v2_new_output token (ia_token a) (ia_taddr a) bidx bidx] else []) /\
    (* the input records the issuance; every other input is untouched *)
    v2_ins p' = iss_set_nth k (fun _ => v2_issued_input input a) (v2_ins p) /\
    nth_error (v2_ins p') k = Some (v2_issued_input input a) /\
    ia_precision a <= 8.
Proof.
  unfold v2_add_in_issuance. intro H.
  destruct (v2_validate a); [|discriminate H]. cbn [negb] in H.
  apply nonempty_branch in H; [|discriminate].
  destruct (v2_index_ok p idx) as [input|] eqn:IX; [|discriminate H].
  destruct (new_tx_issuance _ _ _ _) as [iss0|] eqn:NI; [|discriminate H].
  destruct (generate_entropy iss0 _ _) as [iss|] eqn:GE; [|discriminate H].
  apply v2_index_ok_inv in IX as (Hpos & _ & Hnth & Hent).
  apply new_tx_issuance_inv in NI as (-> & Hprec & _).
  apply generate_entropy_inv in GE as (entropy & CE & Le & ->).
  pose proof (compute_asset_refines entropy Le) as CA.
  pose proof (compute_token_refines entropy (ia_blinded a) Le) as CT.
  unfold generate_asset, generate_token, v2_set_in in H.
  cbn [ie_iss ie_chash ie_precision iss_nonce iss_amount iss_token iss_entropy] in *.
  rewrite CA, CT, (iss_set_nth_at _ _ _ _ Hnth) in H. cbv zeta in H.
  destruct (v2_add_output _ _) as [p2|] eqn:A1 in H; [|discriminate H].
  apply v2_add_output_inv in A1 as (-> & _).
  exists input, entropy, (spec_asset entropy), (spec_token entropy (ia_blinded a)). cbv zeta.
  assert (Hnth' : nth_error (iss_set_nth (Z.to_nat idx) (fun _ => v2_issued_input input a) (v2_ins p)) (Z.to_nat idx)
                  = Some (v2_issued_input input a)).
  { rewrite nth_error_iss_set_nth, Hnth. reflexivity. }
  destruct (0 <? ia_token a).
  - destruct (v2_add_output _ _) as [p3|] eqn:A2 in H; [|discriminate H].
    apply v2_add_output_inv in A2 as (-> & _). injection H as <-. cbn [v2_outs v2_ins].
    rewrite <- app_assoc. repeat split; assumption.
  - injection H as <-. cbn [v2_outs v2_ins]. repeat split; assumption.
Qed.

(* the derived-id getters of the updated input return the ids the outputs pay *)
Theorem v2_getters_agree_with_outputs input a entropy asset token :
  compute_entropy (vi_txid input) (vi_index input) (chash_of (ia_contract a)) = Some entropy ->
  compute_asset entropy = Some asset ->
  compute_token entropy (iss_flag_of (ia_blinded a)) = Some token ->
  (0 < ia_asset a \/ 0 < ia_token a) ->
  get_issuance_asset_hash (v2_issued_input input a) = Some asset /\
  get_issuance_keys_hash (v2_issued_input input a) = Some token.
Proof.
  intros CE CA CT NZ.
  assert (HI : vi_has_issuance (v2_issued_input input a) = true).
  { apply orb_true_iff. rewrite !N.ltb_lt. exact NZ. }
  unfold get_issuance_asset_hash, get_issuance_keys_hash. rewrite HI.
  unfold vi_issuance, vi_has_reissuance, vi_is_blinded, v2_issued_input.
  cbn [negb vi_nonce vi_entropy vi_blinded vi_txid vi_index iss_obytes iss_olen].
  rewrite bytes_eqb_refl. cbn [length zero32b repeat Nat.eqb negb].
  unfold generate_entropy, from_contract_hash. cbn [ie_chash]. rewrite CE.
  split; assumption.
Qed.

(* for every input without commitments, zero amounts included, UnsignedTx and Extract both carry
   exactly the issuance the packet declares *)
Theorem tx_issuance_fields_agree_with_packet i :
  vi_vcommit i = None -> vi_kcommit i = None ->
  unsigned_issuance i = expected_issuance i /\ extract_issuance i = expected_issuance i.
Proof.
  intros Hv Hk. unfold unsigned_issuance, extract_issuance, tx_issuance_of, expected_issuance.
  rewrite Hv, Hk, !ltb0_amount. split; reflexivity.
Qed.

Definition token_only_input : v2in :=
  mk_v2in zero32b 0 0 0 None 1 None (Some zero32b) (Some zero32b) (Some false) true.
Example token_only_issuance_reaches_the_transaction :
  extract_issuance token_only_input = Some (mk_iss zero32b zero32b [x00] (x01 :: be_enc 8 1)) /\
  unsigned_issuance token_only_input = extract_issuance token_only_input.
Proof. split; reflexivity. Qed.

Definition v2_reissued_input (input : v2in) (a : reiss2_args) (entropy : bytes) : v2in :=
  mk_v2in (vi_txid input) (vi_index input) (vi_seq input) (r2_asset a) (vi_vcommit input) (vi_keys input)
          (vi_kcommit input) (Some (r2_blinder a)) (Some entropy) (vi_blinded input) (vi_pegin input).

Lemma iss_hex32_inv o : iss_hex32 o = true -> exists b, o = Some b /\ length b = 32%nat.
Proof. destruct o as [b|]; [|discriminate]. intro H. exists b. split; [reflexivity | apply Nat.eqb_eq, H]. Qed.

Lemma v2_reiss_validate_inv a : v2_reiss_validate a = true ->
  exists eh, r2_entropy a = Some eh /\ length eh = 32%nat /\
    length (r2_blinder a) = 32%nat /\ r2_blinder a <> zero32b /\ 0 < r2_asset a /\ 0 < r2_token a.
Proof.
  unfold v2_reiss_validate.
  intros [[[[[[[[L%Nat.eqb_eq B%negb_true_iff]%andb_prop (eh & E & Leh)%iss_hex32_inv]%andb_prop
    A%negb_true_iff%N.eqb_neq%N.neq_0_lt_0]%andb_prop T%negb_true_iff%N.eqb_neq%N.neq_0_lt_0]%andb_prop
    _]%andb_prop _]%andb_prop _]%andb_prop _]%andb_prop.
  exists eh. repeat split; try assumption.
  intro Z. rewrite Z, bytes_eqb_refl in B. discriminate B.
Qed.

Theorem v2_reissuance_outputs_pay_derived_ids p idx a p' :
  v2_add_in_reissuance p idx a = (true, p') ->
  exists input eh asset token,
    let k := Z.to_nat idx in
    let bidx := Z.to_N idx mod 4294967296 in
    let entropy := rev eh in
    (0 <= idx)%Z /\ nth_error (v2_ins p) k = Some input /\ vi_entropy input = None /\
    r2_entropy a = Some eh /\ length entropy = 32%nat /\
    length (r2_blinder a) = 32%nat /\ r2_blinder a <> zero32b /\ 0 < r2_asset a /\ 0 < r2_token a /\
    compute_asset entropy = Some asset /\
    compute_token entropy 1 = Some token /\          (* a reissuance token is always the confidential one *)
    v2_outs p' = v2_outs p ++ [v2_new_output asset (r2_asset a) (r2_aaddr a) 0 bidx;
                               v2_new_output token (r2_token a) (r2_taddr a) 0 bidx] /\
    v2_ins p' = iss_set_nth k (fun _ => v2_reissued_input input a entropy) (v2_ins p) /\
    nth_error (v2_ins p') k = Some (v2_reissued_input input a entropy).
Proof.
  unfold v2_add_in_reissuance. intro H.
  destruct (v2_index_ok p idx) as [input|] eqn:IX; [|discriminate H].
  destruct (v2_reiss_validate a) eqn:V; [|discriminate H].
  apply v2_index_ok_inv in IX as (Hpos & _ & Hnth & Hent).
  apply v2_reiss_validate_inv in V as (eh & Heh & Leh & Lb & NZ & PA & PT).
  assert (Le : length (rev eh) = 32%nat) by (rewrite rev_length; exact Leh).
  pose proof (compute_asset_refines _ Le) as CA.
  pose proof (compute_token_refines _ true Le) as CT. cbn [iss_flag_of] in CT.
  unfold generate_asset, generate_token, from_entropy, v2_set_in in H. rewrite Heh in H.
  cbn [negb ie_iss iss_entropy iss_obytes] in H. rewrite CA, CT in H. cbv zeta in H.
  destruct (v2_add_output p _) as [p1|] eqn:A1 in H; [|discriminate H].
  apply v2_add_output_inv in A1 as (-> & _).
  destruct (v2_add_output _ _) as [p2|] eqn:A2 in H; [|discriminate H].
  apply v2_add_output_inv in A2 as (-> & _).
  injection H as <-. cbn [v2_ins v2_outs].
  exists input, eh, (spec_asset (rev eh)), (spec_token (rev eh) true). cbv zeta.
  rewrite (iss_set_nth_at _ _ _ _ Hnth), <- app_assoc, nth_error_iss_set_nth, Hnth.
  repeat split; assumption.
Qed.

(* the getters of the reissued input derive the ids the outputs pay *)
Theorem v2_reissuance_getters input a entropy asset :
  length (r2_blinder a) = 32%nat -> r2_blinder a <> zero32b -> 0 < r2_asset a ->
  compute_asset entropy = Some asset ->
  get_issuance_asset_hash (v2_reissued_input input a entropy) = Some asset.
Proof.
  intros Lb NZ Hpos CA.
  unfold get_issuance_asset_hash, vi_has_issuance, vi_issuance, vi_has_reissuance, v2_reissued_input, iss_olen.
  cbn [vi_value vi_keys vi_nonce vi_entropy iss_obytes].
  rewrite (proj2 (N.ltb_lt _ _) Hpos), Lb. cbn [orb negb Nat.eqb].
  destruct (bytes_eqb (r2_blinder a) zero32b) eqn:E; [apply bytes_eqb_eq in E; contradiction|].
  exact CA.
Qed.

Lemma find_empty_inv l : forall k idx i, find_empty l k = Some (idx, i) ->
  (k <= idx)%nat /\ nth_error l (idx - k) = Some i /\ in_iss i = None.
Proof.
  induction l as [|x l IH]; intros k idx i H; cbn [find_empty] in H; [discriminate|].
  destruct (in_iss x) eqn:E.
  - apply IH in H as (L & N & I). repeat split; [lia | | exact I].
    replace (idx - k)%nat with (S (idx - S k)) by lia. exact N.
  - inversion H; subst. rewrite Nat.sub_diag. repeat split; [lia | exact E].
Qed.

Definition v0_issued_issuance (a : iss_args) : issuance :=
  mk_iss zero32b (chash_of (ia_contract a)) (spec_amount (ia_asset a)) (spec_amount (ia_token a)).

(* matchAddressTypes, as far as validate enforces it *)
Lemma v0_validate_conf a : v0_validate a = true ->
  0 < ia_token a -> ad_present (ia_aaddr a) = true -> ad_conf (ia_aaddr a) = ad_conf (ia_taddr a).
Proof.
  unfold v0_validate. destruct (new_tx_issuance _ _ _ _); [|discriminate].
  intros V Htok Hpa. apply N.ltb_lt in Htok. rewrite Htok, Hpa in V.
  apply andb_true_iff in V as [V V3]. apply andb_true_iff in V as [_ V2]. apply andb_true_iff in V2 as [V2 _].
  rewrite V2 in V3. apply Bool.eqb_prop, V3.
Qed.

Theorem v0_issuance_outputs_pay_derived_ids p a p' :
  v0_add_issuance p a = (true, p') ->
  exists idx i entropy asset token,
    (* the first input without an issuance is the one that issues *)
    find_empty (t_ins (v0_tx p)) 0 = Some (idx, i) /\ nth_error (t_ins (v0_tx p)) idx = Some i /\
    compute_entropy (in_hash i) (in_index i) (chash_of (ia_contract a)) = Some entropy /\
    compute_asset entropy = Some asset /\
    compute_token entropy (iss_flag_of (ad_conf (ia_aaddr a))) = Some token /\
    t_outs (v0_tx p') = t_outs (v0_tx p) ++
      (if 0 <? ia_asset a then [new_tx_output (explicit_asset asset) (spec_amount (ia_asset a)) (ad_script (ia_aaddr a))] else []) ++
      (if 0 <? ia_token a then [new_tx_output (explicit_asset token) (spec_amount (ia_token a)) (ad_script (ia_taddr a))] else []) /\
    (* the issuance fields of the transaction: zero nonce, contract hash, amount encodings *)
    t_ins (v0_tx p') = iss_set_nth idx (fun x => set_in_iss x (v0_issued_issuance a)) (t_ins (v0_tx p)) /\
    nth_error (t_ins (v0_tx p')) idx = Some (set_in_iss i (v0_issued_issuance a)) /\
    (* and the library derives the same entropy back from the finished input *)
    option_map (fun ie => iss_entropy (ie_iss ie)) (new_from_input (in_hash i) (in_index i) (v0_issued_issuance a)) = Some entropy /\
    (* the flag is the confidentiality both destinations share *)
    (0 < ia_token a -> ad_present (ia_aaddr a) = true -> ad_conf (ia_aaddr a) = ad_conf (ia_taddr a)).
Proof.
  unfold v0_add_issuance. intro H.
  destruct (v0_validate a) eqn:V; [|discriminate H]. cbn [negb] in H.
  apply nonempty_branch in H; [|discriminate].
  destruct (new_tx_issuance _ _ _ _) as [iss0|] eqn:NI; [|discriminate H].
  destruct (find_empty (t_ins (v0_tx p)) 0) as [[idx i]|] eqn:FE; [|discriminate H].
  destruct (generate_entropy iss0 _ _) as [iss|] eqn:GE; [|discriminate H].
  pose proof (find_empty_inv _ _ _ _ FE) as (_ & Hnth & _). rewrite Nat.sub_0_r in Hnth.
  apply new_tx_issuance_inv in NI as (-> & _).
  apply generate_entropy_inv in GE as (entropy & CE & Le & ->).
  pose proof (compute_asset_refines entropy Le) as CA.
  pose proof (compute_token_refines entropy (ad_conf (ia_aaddr a)) Le) as CT.
  unfold generate_asset, generate_token in H.
  cbn [ie_iss ie_chash ie_precision iss_nonce iss_amount iss_token iss_entropy] in *.
  rewrite CA, CT in H. cbv zeta in H.
  destruct (ad_valid (ia_aaddr a)); [|discriminate H]. cbn [negb] in H.
  exists idx, i, entropy, (spec_asset entropy), (spec_token entropy (ad_conf (ia_aaddr a))).
  assert (Hback : option_map (fun ie => iss_entropy (ie_iss ie))
                    (new_from_input (in_hash i) (in_index i) (v0_issued_issuance a)) = Some entropy).
  { unfold new_from_input, v0_issued_issuance, is_reissuance, generate_entropy, from_contract_hash.
    cbn [iss_nonce iss_entropy ie_chash]. rewrite bytes_eqb_refl, CE. reflexivity. }
  assert (Hnth' : nth_error (iss_set_nth idx (fun x => set_in_iss x (v0_issued_issuance a)) (t_ins (v0_tx p))) idx
                   = Some (set_in_iss i (v0_issued_issuance a))).
  { rewrite nth_error_iss_set_nth, Hnth. reflexivity. }
  pose proof (v0_validate_conf a V) as Hmatch.
  destruct (0 <? ia_asset a); destruct (0 <? ia_token a);
    try (destruct (ad_valid (ia_taddr a)); [|discriminate H]);
    injection H as <-; unfold v0_add_output, v0_set_iss; cbn [v0_tx t_outs t_ins app];
    rewrite <- ?app_assoc, ?app_nil_r; repeat split; assumption.
Qed.

Lemma v0_reiss_validate_inv a : v0_reiss_validate a = true ->
  exists hh eh, rva_hash a = Some hh /\ length hh = 32%nat /\ rva_entropy a = Some eh /\ length eh = 32%nat /\
    0 < rva_asset a /\ 0 < rva_token a /\ length (rva_blinder a) = 32%nat.
Proof.
  unfold v0_reiss_validate.
  intros [[[[[[[[[[[_ (hh & Hh & Lh)%iss_hex32_inv]%andb_prop L%Nat.eqb_eq]%andb_prop (eh & He & Le)%iss_hex32_inv]%andb_prop
    A%N.ltb_lt]%andb_prop T%N.ltb_lt]%andb_prop _]%andb_prop _]%andb_prop _]%andb_prop _]%andb_prop _]%andb_prop _]%andb_prop.
  exists hh, eh. repeat split; assumption.
Qed.

(* len(Inputs) == len(UnsignedTx.Inputs) *)
Definition v0_inv (p : v0pkt) : Prop := v0_nin p = lenL (t_ins (v0_tx p)).

(* the index AddReissuance gives the input it has just appended *)
Lemma v0_last_index p : v0_inv p -> N.to_nat (v0_nin p + 1 - 1) = length (t_ins (v0_tx p)).
Proof. unfold v0_inv, lenL. intros ->. lia. Qed.

Theorem v0_reissuance_outputs_pay_derived_ids p a p' :
  v0_nin p = lenL (t_ins (v0_tx p)) ->
  v0_add_reissuance p a = (true, p') ->
  exists hh eh asset token,
    let entropy := rev eh in
    rva_hash a = Some hh /\ length hh = 32%nat /\ rva_entropy a = Some eh /\ length entropy = 32%nat /\
    0 < rva_asset a /\ 0 < rva_token a /\ length (rva_blinder a) = 32%nat /\
    compute_asset entropy = Some asset /\
    compute_token entropy 1 = Some token /\
    t_outs (v0_tx p') = t_outs (v0_tx p) ++
      [new_tx_output (explicit_asset asset) (spec_amount (rva_asset a)) (ad_script (rva_aaddr a));
       new_tx_output (explicit_asset token) (spec_amount (rva_token a)) (ad_script (rva_taddr a))] /\
    (* the new input spends the token prevout and carries blinding nonce, entropy and amounts *)
    t_ins (v0_tx p') = t_ins (v0_tx p) ++
      [set_in_iss (new_tx_input (rev hh) (rva_index a))
                  (mk_iss (rva_blinder a) entropy (spec_amount (rva_asset a)) [x00])].
Proof.
  intros Hinv. unfold v0_add_reissuance. intro H.
  destruct (v0_reiss_validate a) eqn:V; [|discriminate H].
  destruct (v0_nin p =? 0); [discriminate H|].
  apply v0_reiss_validate_inv in V as (hh & eh & Hhh & Lhh & Heh & Leh & PA & PT & Lb).
  assert (Le : length (rev eh) = 32%nat) by (rewrite rev_length; exact Leh).
  pose proof (compute_asset_refines _ Le) as CA.
  pose proof (compute_token_refines _ true Le) as CT. cbn [iss_flag_of] in CT.
  unfold generate_asset, generate_token, from_entropy in H. rewrite Heh, Hhh in H.
  cbn [negb ie_iss iss_entropy iss_obytes] in H. rewrite CA, CT in H. cbv zeta in H.
  injection H as <-.
  exists hh, eh, (spec_asset (rev eh)), (spec_token (rev eh) true). cbv zeta.
  unfold v0_set_iss, v0_add_output, v0_add_input. cbn [v0_tx v0_nin t_ins t_outs].
  rewrite (v0_last_index p Hinv), iss_set_nth_last, <- app_assoc, !spec_amount_pos by assumption.
  repeat split; assumption.
Qed.

(* non-vacuity: a concrete call of each updater succeeds *)
Definition ex_addr (conf : bool) : iss_addr := mk_iss_addr true true conf (repeat (b8 7) 22) (if conf then repeat (b8 2) 33 else []).
Definition ex_args : iss_args := mk_iss_args 8 (Some tiero_contract) 1000 1 (ex_addr false) (ex_addr false) true.
Definition ex_v2in : v2in := mk_v2in vec1_hash 68 0 0 None 0 None None None None true.
Definition ex_v2pkt : v2pkt := mk_v2pkt 1 0 true [ex_v2in] [].
Example v2_add_in_issuance_succeeds : fst (v2_add_in_issuance ex_v2pkt 0 ex_args) = true.
Proof. reflexivity. Qed.
Definition ex_v0pkt : v0pkt := mk_v0pkt (mk_tx 2 0 0 [new_tx_input vec1_hash 68] []) 1 0.
Example v0_add_issuance_succeeds : fst (v0_add_issuance ex_v0pkt ex_args) = true.
Proof. reflexivity. Qed.
Definition ex_reiss : v0_reiss_args :=
  mk_v0_reiss_args true (Some vec1_hash) 3 (repeat (b8 9) 32) (Some vec2_hash) 5 1 (ex_addr true) (ex_addr true).
Example v0_add_reissuance_succeeds : fst (v0_add_reissuance ex_v0pkt ex_reiss) = true.
Proof. reflexivity. Qed.
Definition ex_reiss2 : reiss2_args := mk_reiss2_args (repeat (b8 9) 32) (Some vec2_hash) 5 1 (ex_addr true) (ex_addr false).
Example v2_add_in_reissuance_succeeds : fst (v2_add_in_reissuance ex_v2pkt 0 ex_reiss2) = true.
Proof. reflexivity. Qed.

(* Histories: any sequence of calls on one updater.  An issuance or reissuance once attached to an
   input is never replaced or removed by a later call, successful or refused; so the outputs an
   earlier call added keep the input that issues them. *)
Section Keeps.
  Context {X : Type} (has : X -> Prop).
  (* the elements of l that have the mark stay where they are *)
  Definition keeps (l l' : list X) : Prop :=
    forall j x, nth_error l j = Some x -> has x -> nth_error l' j = Some x.

  Lemma keeps_refl l : keeps l l.
  Proof. intros j x H _. exact H. Qed.
  Lemma keeps_trans l m n : keeps l m -> keeps m n -> keeps l n.
  Proof. intros A B j x H E. apply B; [apply A; assumption | exact E]. Qed.
  Lemma keeps_set_nth k x f l : nth_error l k = Some x -> ~ has x -> keeps l (iss_set_nth k f l).
  Proof.
    intros Hn He j y Hj Hy. destruct (Nat.eq_dec k j) as [->|NE].
    - rewrite Hn in Hj. injection Hj as ->. contradiction.
    - rewrite nth_error_iss_set_nth_other by exact NE. exact Hj.
  Qed.
  Lemma keeps_app l r : keeps l (l ++ r).
  Proof. intros j x H _. rewrite nth_error_app1; [exact H|]. apply nth_error_Some. congruence. Qed.
End Keeps.

Definition v2_keeps (p p' : v2pkt) : Prop :=
  forall j x, nth_error (v2_ins p) j = Some x -> vi_entropy x <> None -> nth_error (v2_ins p') j = Some x.

(* case analysis on every test in the updater result H, dropping the branches H excludes *)
Ltac split_result H :=
  repeat (match type of H with
          | context [if ?c then _ else _] => destruct c
          | context [match ?x with _ => _ end] => destruct x
          end; try discriminate H).

Lemma v2_add_in_issuance_refused p idx a p' : v2_add_in_issuance p idx a = (false, p') -> p' = p.
Proof.
  unfold v2_add_in_issuance. cbv zeta. intro H. split_result H; inversion H; reflexivity.
Qed.
Lemma v2_add_in_reissuance_refused p idx a p' : v2_add_in_reissuance p idx a = (false, p') -> p' = p.
Proof.
  unfold v2_add_in_reissuance. cbv zeta. intro H. split_result H; inversion H; reflexivity.
Qed.

Lemma v2_add_in_issuance_keeps p idx a : v2_keeps p (snd (v2_add_in_issuance p idx a)).
Proof.
  destruct (v2_add_in_issuance p idx a) as [[|] p'] eqn:E; cbn [snd].
  - destruct (v2_issuance_outputs_pay_derived_ids p idx a p' E)
      as (input & e & asset & token & _ & Hn & He & _ & _ & _ & _ & Hins & _).
    unfold v2_keeps. rewrite Hins. apply keeps_set_nth with (x := input); [exact Hn | intro H; exact (H He)].
  - apply v2_add_in_issuance_refused in E. subst p'. apply keeps_refl.
Qed.
Lemma v2_add_in_reissuance_keeps p idx a : v2_keeps p (snd (v2_add_in_reissuance p idx a)).
Proof.
  destruct (v2_add_in_reissuance p idx a) as [[|] p'] eqn:E; cbn [snd].
  - destruct (v2_reissuance_outputs_pay_derived_ids p idx a p' E)
      as (input & eh & asset & token & _ & Hn & He & _ & _ & _ & _ & _ & _ & _ & _ & _ & Hins & _).
    unfold v2_keeps. rewrite Hins. apply keeps_set_nth with (x := input); [exact Hn | intro H; exact (H He)].
  - apply v2_add_in_reissuance_refused in E. subst p'. apply keeps_refl.
Qed.

Inductive v2_op := V2Issue (idx : Z) (a : iss_args) | V2Reissue (idx : Z) (a : reiss2_args).
Definition v2_step (p : v2pkt) (o : v2_op) : v2pkt :=
  match o with
  | V2Issue idx a => snd (v2_add_in_issuance p idx a)
  | V2Reissue idx a => snd (v2_add_in_reissuance p idx a)
  end.

Theorem v2_history_keeps_issuances ops : forall p, v2_keeps p (fold_left v2_step ops p).
Proof.
  induction ops as [|o ops IH]; intro p; cbn [fold_left]; [apply keeps_refl|].
  apply keeps_trans with (m := v2_ins (v2_step p o)); [|apply IH].
  destruct o; [apply v2_add_in_issuance_keeps | apply v2_add_in_reissuance_keeps].
Qed.

Definition v0_keeps (p p' : v0pkt) : Prop :=
  forall j x, nth_error (t_ins (v0_tx p)) j = Some x -> in_iss x <> None -> nth_error (t_ins (v0_tx p')) j = Some x.

(* q' has the inputs of q: it is q with outputs added *)
Definition v0_same_ins (q q' : v0pkt) : Prop :=
  t_ins (v0_tx q') = t_ins (v0_tx q) /\ v0_nin q' = v0_nin q.

(* AddIssuance, refused or not, leaves the inputs alone or writes an issuance into a free one *)
Lemma v0_add_issuance_ins p a : let p' := snd (v0_add_issuance p a) in
  v0_same_ins p p' \/
  exists idx i s, nth_error (t_ins (v0_tx p)) idx = Some i /\ in_iss i = None /\ v0_same_ins (v0_set_iss p idx s) p'.
Proof.
  assert (R : v0_same_ins p p) by (split; reflexivity).
  unfold v0_add_issuance. cbv zeta.
  destruct (v0_validate a); [|left; exact R].
  destruct (t_ins (v0_tx p)) as [|i0 rest] eqn:Ins; [left; exact R|]. rewrite <- Ins.
  destruct (new_tx_issuance _ _ _ _) as [iss0|]; [|left; exact R].
  destruct (find_empty (t_ins (v0_tx p)) 0) as [[idx i]|] eqn:FE; [|left; exact R].
  destruct (generate_entropy iss0 _ _) as [iss|]; [|left; exact R].
  apply find_empty_inv in FE as (_ & Hnth & Hnone). rewrite Nat.sub_0_r in Hnth.
  right. exists idx, i. eexists. split; [exact Hnth|]. split; [exact Hnone|].
  (* whatever the remaining tests say, only outputs are added *)
  destruct (generate_asset iss), (ad_valid (ia_aaddr a)), (0 <? ia_asset a), (0 <? ia_token a),
    (generate_token iss (iss_flag_of (ad_conf (ia_aaddr a)))), (ad_valid (ia_taddr a)); split; reflexivity.
Qed.

(* AddReissuance appends one input, or is refused and changes nothing *)
Lemma v0_add_reissuance_ins p a : v0_inv p -> let p' := snd (v0_add_reissuance p a) in
  p' = p \/ exists x, t_ins (v0_tx p') = t_ins (v0_tx p) ++ [x] /\ v0_nin p' = v0_nin p + 1.
Proof.
  intro Inv. unfold v0_add_reissuance.
  destruct (v0_reiss_validate a); [|left; reflexivity].
  destruct (v0_nin p =? 0); [left; reflexivity|].
  right. cbn [negb snd]. cbv zeta. unfold v0_set_iss, v0_add_output, v0_add_input. cbn [v0_tx v0_nin t_ins].
  rewrite (v0_last_index p Inv), iss_set_nth_last. eexists. split; reflexivity.
Qed.

Inductive v0_op := V0Issue (a : iss_args) | V0Reissue (a : v0_reiss_args).
Definition v0_step (p : v0pkt) (o : v0_op) : v0pkt :=
  match o with
  | V0Issue a => snd (v0_add_issuance p a)
  | V0Reissue a => snd (v0_add_reissuance p a)
  end.

Lemma v0_same_ins_keeps q q' : v0_same_ins q q' -> v0_keeps q q' /\ (v0_inv q -> v0_inv q').
Proof. intros [E N]. unfold v0_keeps, v0_inv. rewrite E, N. split; [apply keeps_refl | auto]. Qed.

Lemma v0_step_keeps p o : v0_inv p -> v0_keeps p (v0_step p o) /\ v0_inv (v0_step p o).
Proof.
  intro Inv. destruct o as [a|a]; cbn [v0_step].
  - destruct (v0_add_issuance_ins p a) as [S | (idx & i & s & Hn & He & S)]; apply v0_same_ins_keeps in S as [K I].
    + split; [exact K | exact (I Inv)].
    + split.
      * apply keeps_trans with (m := t_ins (v0_tx (v0_set_iss p idx s))); [|exact K].
        apply keeps_set_nth with (x := i); [exact Hn | intro H; exact (H He)].
      * apply I. unfold v0_inv, v0_set_iss, lenL. cbn [v0_tx v0_nin t_ins]. rewrite iss_set_nth_length. exact Inv.
  - destruct (v0_add_reissuance_ins p a Inv) as [-> | (x & E & N)]; [split; [apply keeps_refl | exact Inv]|].
    unfold v0_keeps, v0_inv, lenL. rewrite E, N, app_length, Inv. split; [apply keeps_app|]. unfold lenL. cbn [length]. lia.
Qed.

Theorem v0_history_keeps_issuances ops : forall p, v0_inv p ->
  v0_keeps p (fold_left v0_step ops p) /\ v0_inv (fold_left v0_step ops p).
Proof.
  induction ops as [|o ops IH]; intros p Inv; cbn [fold_left]; [split; [apply keeps_refl | exact Inv]|].
  destruct (v0_step_keeps p o Inv) as [K I]. destruct (IH _ I) as [K' I'].
  split; [exact (keeps_trans _ _ _ _ K K') | exact I'].
Qed.

(* in particular: once every input issues, AddIssuance is refused and changes nothing *)
Theorem v0_add_issuance_needs_a_free_input p a :
  (forall x, In x (t_ins (v0_tx p)) -> in_iss x <> None) -> v0_add_issuance p a = (false, p).
Proof.
  intro All. unfold v0_add_issuance.
  destruct (v0_validate a); [|reflexivity].
  destruct (t_ins (v0_tx p)) as [|i0 rest] eqn:Ins; [reflexivity|]. rewrite <- Ins in *.
  destruct (new_tx_issuance _ _ _ _); [|reflexivity].
  destruct (find_empty (t_ins (v0_tx p)) 0) as [[idx fi]|] eqn:FE; [|reflexivity].
  exfalso. apply find_empty_inv in FE as (_ & Hn & He). apply nth_error_In in Hn. exact (All fi Hn He).
Qed.
