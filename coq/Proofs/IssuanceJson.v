(* Proofs/IssuanceJson.v — the key-sorted contract JSON does not depend on the order in which the fields are
   listed (C13): insertion sort by the byte-wise key order is a function of the multiset of fields whenever
   the keys are pairwise distinct. *)
From GE Require Import Lib.Bytes Model.Issuance.
From Coq Require Import ZifyBool ZifyN ZifyNat Sorting.Permutation Sorting.Sorted.
Open Scope N_scope.

(* bytes_ltb is a strict total order *)
Lemma bytes_ltb_cons x a y b :
  bytes_ltb (x :: a) (y :: b) = true <-> n8 x < n8 y \/ (n8 x = n8 y /\ bytes_ltb a b = true).
Proof.
  cbn [bytes_ltb]. destruct (N.ltb_spec (n8 x) (n8 y)); [split; [left; assumption | reflexivity]|].
  destruct (N.ltb_spec (n8 y) (n8 x)); split; intro E; try discriminate E.
  - destruct E as [E|[E _]]; lia.
  - right. split; [lia | exact E].
  - destruct E as [E|[_ E]]; [lia | exact E].
Qed.

Lemma bytes_ltb_irrefl a : bytes_ltb a a = false.
Proof.
  induction a as [|x a IH]; [reflexivity|]. apply not_true_is_false. rewrite bytes_ltb_cons.
  intros [E|[_ E]]; [lia | congruence].
Qed.

Lemma bytes_ltb_trans a : forall b c, bytes_ltb a b = true -> bytes_ltb b c = true -> bytes_ltb a c = true.
Proof.
  induction a as [|x a IH]; intros [|y b] [|z c]; try discriminate; try reflexivity.
  rewrite !bytes_ltb_cons. intros [L1|[E1 R1]] [L2|[E2 R2]]; [left; lia | left; lia | left; lia |].
  right. split; [lia | exact (IH _ _ R1 R2)].
Qed.

Lemma bytes_ltb_total a : forall b, bytes_ltb a b = false -> bytes_ltb b a = false -> a = b.
Proof.
  induction a as [|x a IH]; intros [|y b] H1 H2; cbn [bytes_ltb] in *; try discriminate; [reflexivity|].
  destruct (N.ltb_spec (n8 x) (n8 y)); [discriminate|].
  destruct (N.ltb_spec (n8 y) (n8 x)); [discriminate|].
  assert (E : n8 x = n8 y) by lia. apply n8_inj in E. subst y. f_equal. apply IH; assumption.
Qed.

Lemma bytes_ltb_asym a b : bytes_ltb a b = true -> bytes_ltb b a = false.
Proof.
  intro H. destruct (bytes_ltb b a) eqn:E; [|reflexivity].
  pose proof (bytes_ltb_trans _ _ _ H E) as T. rewrite bytes_ltb_irrefl in T. discriminate.
Qed.

Definition field := (bytes * iss_jvalue)%type.
Definition key_lt (f g : field) : Prop := bytes_ltb (fst f) (fst g) = true.

Lemma insert_perm f l : Permutation (insert_field f l) (f :: l).
Proof.
  induction l as [|g r IH]; cbn [insert_field]; [apply Permutation_refl|].
  destruct (bytes_ltb (fst g) (fst f)); [|apply Permutation_refl].
  eapply Permutation_trans; [apply perm_skip, IH | apply perm_swap].
Qed.

Lemma sort_perm l : Permutation (sort_fields l) l.
Proof. exact (fold_insert_perm insert_field insert_perm l). Qed.

Lemma insert_sorted f l :
  StronglySorted key_lt l -> (forall g, In g l -> fst g <> fst f) -> StronglySorted key_lt (insert_field f l).
Proof.
  induction l as [|g r IH]; intros S D; cbn [insert_field].
  - constructor; constructor.
  - inversion S as [|? ? Sr Fr]; subst.
    destruct (bytes_ltb (fst g) (fst f)) eqn:E.
    + constructor.
      * apply IH; [exact Sr | intros h Hh; apply D; right; exact Hh].
      * (* g is below f and below everything of r, hence below every element of the insertion *)
        apply Forall_forall. intros h Hh.
        apply (Permutation_in _ (insert_perm f r)) in Hh. destruct Hh as [<-|Hh]; [exact E|].
        rewrite Forall_forall in Fr. apply Fr; exact Hh.
    + (* f goes in front: f < g by trichotomy, and then below all of r by transitivity *)
      assert (Lfg : key_lt f g).
      { unfold key_lt. destruct (bytes_ltb (fst f) (fst g)) eqn:E2; [reflexivity|].
        exfalso. apply (D g); [left; reflexivity|]. symmetry. apply bytes_ltb_total; assumption. }
      constructor; [exact S|]. constructor; [exact Lfg|].
      apply Forall_forall. intros h Hh. rewrite Forall_forall in Fr.
      unfold key_lt in *. eapply bytes_ltb_trans; [exact Lfg | apply Fr; exact Hh].
Qed.

Lemma sort_sorted l : NoDup (map fst l) -> StronglySorted key_lt (sort_fields l).
Proof.
  induction l as [|f l IH]; intro N; [constructor|]. unfold sort_fields in *. cbn [fold_right].
  inversion N as [|? ? Nf Nl]; subst.
  apply insert_sorted; [apply IH; exact Nl|].
  intros g Hg E. apply Nf. apply (Permutation_in _ (sort_perm l)) in Hg.
  rewrite <- E. apply in_map. exact Hg.
Qed.

Lemma sorted_perm_unique l : forall l',
  StronglySorted key_lt l -> StronglySorted key_lt l' -> Permutation l l' -> l = l'.
Proof.
  induction l as [|a l IH]; intros l' S S' P.
  - apply Permutation_nil in P. subst. reflexivity.
  - destruct l' as [|a' l']; [apply Permutation_sym, Permutation_nil in P; discriminate|].
    inversion S as [|? ? Sl Fl]; subst. inversion S' as [|? ? Sl' Fl']; subst.
    rewrite Forall_forall in Fl, Fl'.
    assert (Ea : a = a').
    { assert (Ia : In a (a' :: l')) by (apply (Permutation_in _ P); left; reflexivity).
      assert (Ia' : In a' (a :: l)) by (apply (Permutation_in _ (Permutation_sym P)); left; reflexivity).
      destruct Ia as [E|Ia]; [symmetry; exact E|].
      destruct Ia' as [E|Ia']; [exact E|].
      exfalso. pose proof (Fl' _ Ia) as L1. pose proof (Fl _ Ia') as L2. unfold key_lt in *.
      rewrite (bytes_ltb_asym _ _ L1) in L2. discriminate. }
    subst a'. f_equal. apply IH; [exact Sl | exact Sl' | eapply Permutation_cons_inv; exact P].
Qed.

Theorem sort_fields_permutation_invariant l l' :
  NoDup (map fst l) -> Permutation l l' -> sort_fields l = sort_fields l'.
Proof.
  intros N P.
  assert (N' : NoDup (map fst l')) by (eapply Permutation_NoDup; [apply Permutation_map; exact P | exact N]).
  apply sorted_perm_unique; [apply sort_sorted; exact N | apply sort_sorted; exact N'|].
  eapply Permutation_trans; [apply sort_perm|]. eapply Permutation_trans; [exact P|]. apply Permutation_sym, sort_perm.
Qed.

Lemma contract_keys_nodup c : NoDup (map fst (contract_fields c)).
Proof.
  cbn [contract_fields map fst].
  repeat (constructor; [cbn [In]; intro H; repeat (destruct H as [H|H]; [discriminate H|]); exact H|]).
  constructor.
Qed.

(* whatever the order in which the six fields are listed, the key-sorted JSON (and therefore the contract
   hash) is the same.  The 3 is the nesting fuel of ser_json as contract_json passes it: the contract object,
   the entity object inside it, and the strings and numbers below. *)
Theorem contract_json_key_order c l :
  Permutation l (contract_fields c) -> ser_json 3 (JObj l) = contract_json c.
Proof.
  intro P. unfold contract_json. cbn [ser_json].
  rewrite (sort_fields_permutation_invariant (contract_fields c) l (contract_keys_nodup c) (Permutation_sym P)).
  reflexivity.
Qed.
