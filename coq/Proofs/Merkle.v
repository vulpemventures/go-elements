(* Proofs/Merkle.v — C20, tree part: the Go extractor (Model/Merkle.v) against Bitcoin's
   partial merkle tree (Spec/PartialMerkle.v), first over any node hash, then at byte level
   through the flag-byte packing and the wire form. *)
From GE Require Import Lib.Bytes Lib.Varint Lib.Sha256 Spec.PartialMerkle Model.Merkle Gen.MerkleConsts.
From Coq Require Import ZifyBool ZifyN ZifyNat.
Open Scope N_scope.

Lemma pow2_pos h : 0 < 2 ^ h.
Proof. apply N.neq_0_lt_0, N.pow_nonzero. lia. Qed.

(* no uint32 wrap-around below 2^31 transactions *)
Lemma width_ideal n h : n <= 2 ^ 31 -> h <= 31 -> width n h = (n + 2 ^ h - 1) / 2 ^ h.
Proof.
  intros Hn Hh. unfold width. rewrite N.shiftl_1_l, N.shiftr_div_pow2.
  pose proof (pow2_pos h) as Hp.
  assert (Hle : 2 ^ h <= 2 ^ 31) by (apply N.pow_le_mono_r; lia).
  change (2 ^ 31) with 2147483648 in *. unfold two32. set (k := 2 ^ h) in *. clearbody k.
  f_equal. lia.
Qed.

Lemma ceil_div_lt p n k : 0 < k -> (p < (n + k - 1) / k <-> p * k < n).
Proof. intro Hk. split; nia. Qed.

Lemma width_lt n h p : n <= 2 ^ 31 -> h <= 31 -> (p <? width n h) = (p * 2 ^ h <? n).
Proof.
  intros Hn Hh. rewrite width_ideal by assumption.
  pose proof (ceil_div_lt p n (2 ^ h) (pow2_pos h)) as Hc.
  destruct (N.ltb_spec p ((n + 2 ^ h - 1) / 2 ^ h)), (N.ltb_spec (p * 2 ^ h) n); tauto || lia.
Qed.

(* the height loop runs while 2^h < n, that is while h is below the least h with n <= 2^h *)
Lemma height_loop_spec n : 1 <= n -> n <= 2 ^ 31 -> forall fuel h,
  h <= N.log2_up n -> N.log2_up n - h < N.of_nat fuel -> height_loop fuel n h = Some (N.log2_up n).
Proof.
  intros H1 Hn. assert (HL : N.log2_up n <= 31) by (apply N.log2_up_le_pow2; lia).
  induction fuel as [|f IH]; intros h Hh Hf; [lia|]. cbn [height_loop]. rewrite width_lt, N.mul_1_l by lia.
  pose proof (N.log2_up_lt_pow2 n h ltac:(lia)) as Hlt.
  destruct (N.ltb_spec (2 ^ h) n); [apply IH; lia|f_equal; lia].
Qed.

(* 34 is the fuel Model/Merkle.v gives the loop in `extract`: above the 32 passes a uint32 count can need,
   so the fuel never runs out (the None of exhaustion is not reached) *)
Lemma height_loop_ok n : 1 <= n -> n <= 2 ^ 31 -> height_loop 34 n 0 = Some (N.log2_up n).
Proof.
  intros H1 Hn. assert (HL : N.log2_up n <= 31) by (apply N.log2_up_le_pow2; lia).
  apply height_loop_spec; lia.
Qed.

Lemma max_txs_small : max_txs <= 2 ^ 31.
Proof. vm_compute. discriminate. Qed.

Lemma lenL_pos {X} (l : list X) : l <> [] -> 1 <= lenL l.
Proof. destruct l; [congruence|]. unfold lenL. cbn [length]. lia. Qed.

(* the four tests in front of the walk, shared by every rendering of ExtractMatches *)
Definition pre_ok {X} (n : N) (hashes : list X) (bits : list bool) : bool :=
  negb (n =? 0) && negb (max_txs <? n) && negb (n <? lenL hashes) && negb (lenL bits <? lenL hashes).

Lemma guards_eq {X Y} n (hashes : list X) bits (e k : Y) :
  (if n =? 0 then e else if max_txs <? n then e else if n <? lenL hashes then e
   else if lenL bits <? lenL hashes then e else k)
  = if pre_ok n hashes bits then k else e.
Proof.
  unfold pre_ok. destruct (n =? 0), (max_txs <? n), (n <? lenL hashes), (lenL bits <? lenL hashes); reflexivity.
Qed.

Lemma pre_ok_spec {X} n (hashes : list X) bits :
  pre_ok n hashes bits = true <-> 1 <= n <= max_txs /\ lenL hashes <= n /\ lenL hashes <= lenL bits.
Proof. unfold pre_ok. lia. Qed.

Lemma pre_ok_height {X} n (hashes : list X) bits :
  pre_ok n hashes bits = true -> height_loop 34 n 0 = Some (N.log2_up n).
Proof. intro P. apply pre_ok_spec in P. pose proof max_txs_small. apply height_loop_ok; lia. Qed.

Section Walk.
Variable A : Type.
Variable H : A -> A -> A.
Variable eqA : A -> A -> bool.
Notation traverse := (traverse A H eqA).
Notation extract := (extract A H eqA).

(* what ExtractMatches makes of the outcome of the walk *)
Definition finish (bits : list bool) (r : option (A * st A)) : option (A * list A) :=
  match r with
  | None => None
  | Some (root, s) =>
      if s_bad s then None
      else if negb ((lenL bits - lenL (s_bits s) + 7) / 8 =? (lenL bits + 7) / 8) then None
      else if negb (length (s_hashes s) =? 0)%nat then None
      else Some (root, s_match s)
  end.

Lemma extract_eq n hashes bits :
  extract n hashes bits =
  if pre_ok n hashes bits then finish bits (traverse n (tree_height n) 0 (mk_st bits hashes [] false)) else None.
Proof.
  unfold extract. rewrite guards_eq. destruct (pre_ok n hashes bits) eqn:P; [|reflexivity].
  rewrite (pre_ok_height _ _ _ P). reflexivity.
Qed.

Lemma extract_inv n hashes bits root ms :
  extract n hashes bits = Some (root, ms) ->
  pre_ok n hashes bits = true /\
  exists s, traverse n (tree_height n) 0 (mk_st bits hashes [] false) = Some (root, s) /\
            s_bad s = false /\ (lenL bits - lenL (s_bits s) + 7) / 8 = (lenL bits + 7) / 8 /\
            s_hashes s = [] /\ ms = s_match s.
Proof.
  rewrite extract_eq. destruct (pre_ok n hashes bits); [|discriminate].
  destruct (traverse _ _ _ _) as [[x s]|]; [|discriminate]. cbn [finish].
  destruct (s_bad s) eqn:B; [discriminate|].
  destruct (N.eqb_spec ((lenL bits - lenL (s_bits s) + 7) / 8) ((lenL bits + 7) / 8)) as [U|]; [|discriminate].
  destruct (s_hashes s) eqn:E; [|discriminate].
  intro Ex. injection Ex as <- <-. split; [reflexivity|]. exists s. rewrite E. auto.
Qed.

(* the walk at a node where it stops: the next hash, reported as a match if asked *)
Definition leaf (s : st A) (bits' : list bool) (mh : bool) : option (A * st A) :=
  match s_hashes s with
  | [] => None
  | x :: hs' => Some (x, mk_st bits' hs' (if mh then s_match s ++ [x] else s_match s) (s_bad s))
  end.

Lemma leaf_inv s bits' mh x s' : leaf s bits' mh = Some (x, s') ->
  exists hs', s_hashes s = x :: hs' /\ s' = mk_st bits' hs' (if mh then s_match s ++ [x] else s_match s) (s_bad s).
Proof.
  unfold leaf. destruct (s_hashes s) as [|y hs']; [discriminate|]. intro E. injection E as -> <-.
  exists hs'. split; reflexivity.
Qed.

Lemma traverse_O n pos s :
  traverse n 0 pos s = match s_bits s with [] => None | b :: bits' => leaf s bits' b end.
Proof. reflexivity. Qed.

Lemma traverse_S n h pos s :
  traverse n (S h) pos s =
  match s_bits s with
  | [] => None
  | false :: bits' => leaf s bits' false
  | true :: bits' =>
      match traverse n h (pos * 2) (mk_st bits' (s_hashes s) (s_match s) (s_bad s)) with
      | None => None
      | Some (l, s1) =>
          if pos * 2 + 1 <? width n (N.of_nat h) then
            match traverse n h (pos * 2 + 1) s1 with
            | None => None
            | Some (r, s2) => Some (H l r, mk_st (s_bits s2) (s_hashes s2) (s_match s2) (s_bad s2 || eqA l r))
            end
          else Some (H l l, s1)
      end
  end.
Proof. cbn [traverse]. destruct (s_bits s) as [|[] ?]; reflexivity. Qed.

(* the walk only looks at a prefix of the bit and hash arrays *)
Lemma traverse_frame n (eb : list bool) (eh : list A) : forall h pos (s s' : st A) x,
  traverse n h pos s = Some (x, s') ->
  traverse n h pos (mk_st (s_bits s ++ eb) (s_hashes s ++ eh) (s_match s) (s_bad s))
  = Some (x, mk_st (s_bits s' ++ eb) (s_hashes s' ++ eh) (s_match s') (s_bad s')).
Proof.
  assert (Leaf : forall s s' bits' mh x, leaf s bits' mh = Some (x, s') ->
    leaf (mk_st (s_bits s ++ eb) (s_hashes s ++ eh) (s_match s) (s_bad s)) (bits' ++ eb) mh
    = Some (x, mk_st (s_bits s' ++ eb) (s_hashes s' ++ eh) (s_match s') (s_bad s'))).
  { intros s s' bits' mh x L. apply leaf_inv in L as (hs' & E & ->). unfold leaf. cbn [s_hashes]. rewrite E. reflexivity. }
  induction h as [|h IH]; intros pos s s' x; [rewrite !traverse_O|rewrite !traverse_S]; cbn [s_bits s_hashes s_match s_bad].
  - destruct (s_bits s) as [|b bits']; [discriminate|]. apply Leaf.
  - destruct (s_bits s) as [|[] bits']; [discriminate| |apply Leaf]. cbn [app].
    destruct (traverse n h (pos * 2) _) as [[l s1]|] eqn:L1; [|discriminate].
    apply IH in L1. cbn [s_bits s_hashes s_match s_bad] in L1. rewrite L1.
    destruct (pos * 2 + 1 <? width n (N.of_nat h)).
    + destruct (traverse n h (pos * 2 + 1) s1) as [[r s2]|] eqn:R1; [|discriminate].
      apply IH in R1. rewrite R1. intro E. injection E as <- <-. reflexivity.
    + intro E. injection E as <- <-. reflexivity.
Qed.

Theorem surplus_hashes_rejected n hs bits res eh :
  extract n hs bits = Some res -> eh <> [] -> extract n (hs ++ eh) bits = None.
Proof.
  destruct res as [root ms]. intros E Hne. apply extract_inv in E as (_ & s & Tr & B & U & Z & _).
  rewrite extract_eq. destruct (pre_ok n (hs ++ eh) bits); [|reflexivity].
  apply (traverse_frame n [] eh) in Tr. cbn [s_bits s_hashes s_match s_bad] in Tr.
  rewrite !app_nil_r in Tr. rewrite Tr. cbn [finish s_bits s_hashes s_bad].
  rewrite B, U, N.eqb_refl, Z. destruct eh; [congruence|reflexivity].
Qed.

(* one or more surplus flag bytes (8 bits each): eight or more unread bits never fit in the last byte *)
Theorem surplus_bits_rejected n hs bits res eb :
  extract n hs bits = Some res -> (8 <= length eb)%nat -> extract n hs (bits ++ eb) = None.
Proof.
  destruct res as [root ms]. intros E Hlen. apply extract_inv in E as (_ & s & Tr & B & _).
  rewrite extract_eq. destruct (pre_ok n hs (bits ++ eb)); [|reflexivity].
  apply (traverse_frame n eb []) in Tr. cbn [s_bits s_hashes s_match s_bad] in Tr.
  rewrite !app_nil_r in Tr. rewrite Tr. cbn [finish s_bits s_hashes s_bad]. rewrite B.
  destruct (N.eqb_spec ((lenL (bits ++ eb) - lenL (s_bits s ++ eb) + 7) / 8) ((lenL (bits ++ eb) + 7) / 8)) as [U|];
    [exfalso|reflexivity].
  unfold lenL in U. rewrite !app_length in U. clear - U Hlen. lia.
Qed.

End Walk.

Section Shape.
Variable A : Type.
Notation mtree := (mtree A).
Notation tleaves := (tleaves A).
Notation tany := (tany A).
Notation tbits := (tbits A).
Notation ttake := (ttake A).

(* the tree occupies position pos at height h of a block with n transactions *)
Fixpoint shaped (n : N) (h : nat) (pos : N) (t : mtree) : Prop :=
  match h, t with
  | O, Leaf _ _ => True
  | S h', Node2 l r =>
      (pos * 2 + 1 <? width n (N.of_nat h')) = true /\ shaped n h' (pos * 2) l /\ shaped n h' (pos * 2 + 1) r
  | S h', Node1 l =>
      (pos * 2 + 1 <? width n (N.of_nat h')) = false /\ shaped n h' (pos * 2) l
  | _, _ => False
  end.

Lemma pow2_succ h : 2 ^ N.of_nat (S h) = 2 * 2 ^ N.of_nat h.
Proof. rewrite Nnat.Nat2N.inj_succ, N.pow_succ_r'. reflexivity. Qed.

(* ttake: total on non-empty input, produces the tree shape the positions dictate *)
Lemma ttake_shaped n : n <= 2 ^ 31 -> forall h l pos,
  (h <= 31)%nat -> l <> [] -> lenL l = n - pos * 2 ^ N.of_nat h ->
  exists t r, ttake h l = Some (t, r) /\ shaped n h pos t /\
              lenL r = n - (pos + 1) * 2 ^ N.of_nat h /\ tleaves t ++ r = l.
Proof.
  intro Hn. induction h as [|h IH]; intros l pos Hh Hne Hlen.
  - destruct l as [|[a m] r]; [congruence|]. exists (Leaf a m), r. cbn [ttake shaped tleaves app].
    repeat split. change (2 ^ N.of_nat 0) with 1 in *. unfold lenL in *. cbn [length] in Hlen. lia.
  - assert (E2 : 2 ^ N.of_nat (S h) = 2 * 2 ^ N.of_nat h) by apply pow2_succ.
    pose proof (pow2_pos (N.of_nat h)) as Hp.
    destruct (IH l (pos * 2)) as [tl [r1 [T1 [S1 [L1 A1]]]]]; [lia|exact Hne| |].
    { rewrite Hlen, E2. f_equal. lia. }
    cbn [ttake]. rewrite T1.
    assert (Hw : (pos * 2 + 1 <? width n (N.of_nat h)) = ((pos * 2 + 1) * 2 ^ N.of_nat h <? n))
      by (apply width_lt; [exact Hn|lia]).
    destruct r1 as [|x r1'].
    + exists (Node1 tl), []. cbn [shaped tleaves]. unfold lenL in L1. cbn [length] in L1.
      repeat split; try assumption.
      * rewrite Hw. apply N.ltb_ge. lia.
      * unfold lenL. cbn [length]. rewrite E2. lia.
    + destruct (IH (x :: r1') (pos * 2 + 1)) as [tr [r2 [T2 [S2 [L2 A2]]]]]; [lia|discriminate|exact L1|].
      rewrite T2. exists (Node2 tl tr), r2. cbn [shaped tleaves].
      repeat split; try assumption.
      * rewrite Hw. apply N.ltb_lt. unfold lenL in L1. cbn [length] in L1. lia.
      * rewrite L2, E2. f_equal. lia.
      * rewrite <- app_assoc, A2. exact A1.
Qed.

Lemma tree_of_total (l : list (A * bool)) : l <> [] -> lenL l <= 2 ^ 31 ->
  exists t, tree_of A l = Some t /\ shaped (lenL l) (tree_height (lenL l)) 0 t /\ tleaves t = l.
Proof.
  intros Hne Hn. unfold tree_of, tree_height.
  pose proof (lenL_pos l Hne) as H1.
  assert (Hlg : N.log2_up (lenL l) <= 31) by (apply N.log2_up_le_pow2; lia).
  destruct (ttake_shaped (lenL l) Hn (N.to_nat (N.log2_up (lenL l))) l 0) as [t [r [T [S [L Ap]]]]];
    [lia|exact Hne|lia|].
  rewrite T. rewrite Nnat.N2Nat.id in L.
  assert (Hle : lenL l <= 2 ^ N.log2_up (lenL l)) by (apply N.log2_up_le_pow2; lia).
  assert (r = []) by (destruct r; [reflexivity|unfold lenL in *; cbn [length] in L; lia]). subst r.
  exists t. rewrite app_nil_r in Ap. auto.
Qed.

Lemma tree_of_shaped (l : list (A * bool)) t : l <> [] -> lenL l <= 2 ^ 31 -> tree_of A l = Some t ->
  shaped (lenL l) (tree_height (lenL l)) 0 t /\ tleaves t = l.
Proof.
  intros Hne Hn Ht. destruct (tree_of_total l Hne Hn) as [t' [Ht' R]].
  rewrite Ht in Ht'. injection Ht' as <-. exact R.
Qed.

Lemma tany_false_matched t : tany t = false -> matched A (tleaves t) = [].
Proof.
  unfold matched. induction t as [a m|l IHl r IHr|l IHl]; cbn [tany tleaves]; intro E.
  - subst m. reflexivity.
  - apply orb_false_iff in E as [E1 E2]. rewrite filter_app, map_app, IHl, IHr by assumption. reflexivity.
  - auto.
Qed.

Lemma matched_app (l1 l2 : list (A * bool)) : matched A (l1 ++ l2) = matched A l1 ++ matched A l2.
Proof. unfold matched. rewrite filter_app, map_app. reflexivity. Qed.

Lemma tleaves_nonempty t : (0 < length (tleaves t))%nat.
Proof.
  induction t; cbn [tleaves]; [cbn; lia|rewrite app_length; lia|assumption].
Qed.

Variable H : A -> A -> A.
Notation thashes := (thashes A H).

(* one hash per stop of the walk: no more hashes than leaves, nor than flag bits *)
Lemma thashes_le t : (length (thashes t) <= length (tleaves t) /\ length (thashes t) <= length (tbits t))%nat.
Proof.
  induction t as [a m|l IHl r IHr|l IHl]; cbn [thashes tbits tleaves tany].
  - destruct m; cbn; lia.
  - pose proof (tleaves_nonempty l). destruct (tany l || tany r); cbn [length]; rewrite ?app_length; lia.
  - pose proof (tleaves_nonempty l). destruct (tany l); cbn [length]; lia.
Qed.

End Shape.

Lemma pad8_length bits : exists k, (k < 8)%nat /\ pad8 bits = bits ++ repeat false k /\ ((length bits + k) mod 8 = 0)%nat.
Proof. unfold pad8. eexists. split; [|split; [reflexivity|]]; lia. Qed.

Section Tree.
Variable A : Type.
Variable H : A -> A -> A.
Variable eqA : A -> A -> bool.
Hypothesis eqA_spec : forall a b, eqA a b = true <-> a = b.

Notation mtree := (mtree A).
Notation thash := (thash A H).
Notation tleaves := (tleaves A).
Notation tany := (tany A).
Notation tbits := (tbits A).
Notation thashes := (thashes A H).
Notation traverse := (traverse A H eqA).
Notation extract := (extract A H eqA).
Notation st := (st A).
Notation shaped := (shaped A).
Notation tree_of_shaped := (tree_of_shaped A).

(* no two sibling subtrees with the same hash (Go: FBad; CVE-2012-2459) *)
Fixpoint sib_ok (t : mtree) : Prop :=
  match t with
  | Leaf _ _ => True
  | Node2 l r => thash l <> thash r /\ sib_ok l /\ sib_ok r
  | Node1 l => sib_ok l
  end.

(* completeness: the extractor accepts Bitcoin's partial tree *)
Lemma traverse_tree n : forall h t pos rb rh acc bad,
  shaped n h pos t -> sib_ok t ->
  traverse n h pos (mk_st (tbits t ++ rb) (thashes t ++ rh) acc bad)
  = Some (thash t, mk_st rb rh (acc ++ matched A (tleaves t)) bad).
Proof.
  assert (Stop : forall h t pos rb rh acc bad, tany t = false ->
    traverse n h pos (mk_st (false :: rb) (thash t :: rh) acc bad)
    = Some (thash t, mk_st rb rh (acc ++ matched A (tleaves t)) bad)).
  { intros h t pos rb rh acc bad Ea. rewrite (tany_false_matched A _ Ea), app_nil_r. destruct h; reflexivity. }
  induction h as [|h IH]; intros t pos rb rh acc bad Hs Hok; destruct t as [a m|l r|l]; try contradiction;
    cbn [tbits thashes]; destruct (tany _) eqn:Ea; try apply (Stop _ _ _ _ _ _ _ Ea).
  - cbn in Ea. subst m. reflexivity.
  - destruct Hs as [Hw [Sl Sr]]. destruct Hok as [Hne [Okl Okr]].
    cbn [app traverse s_bits s_hashes s_match s_bad negb].
    rewrite <- !app_assoc. rewrite (IH l (pos * 2)) by assumption.
    rewrite Hw. rewrite (IH r (pos * 2 + 1)) by assumption.
    cbn [s_bits s_hashes s_match s_bad thash tleaves].
    destruct (eqA (thash l) (thash r)) eqn:E; [apply eqA_spec in E; contradiction|].
    rewrite orb_false_r, matched_app, app_assoc. reflexivity.
  - destruct Hs as [Hw Sl]. cbn [sib_ok] in Hok.
    cbn [app traverse s_bits s_hashes s_match s_bad negb].
    rewrite (IH l (pos * 2)) by assumption. rewrite Hw. reflexivity.
Qed.

Theorem extract_tree (l : list (A * bool)) t :
  l <> [] -> lenL l <= max_txs -> tree_of A l = Some t -> sib_ok t ->
  extract (lenL l) (thashes t) (pad8 (tbits t)) = Some (thash t, matched A l).
Proof.
  intros Hne Hmax Ht Hok. pose proof max_txs_small as Hms.
  destruct (tree_of_shaped l t Hne) as [Hs Hl]; [lia|exact Ht|].
  pose proof (lenL_pos l Hne) as H1.
  pose proof (thashes_le A H t) as [Hhl Hhb]. rewrite Hl in Hhl.
  destruct (pad8_length (tbits t)) as [k [Hk [Ep Hm]]]. rewrite Ep, extract_eq.
  replace (pre_ok _ _ _) with true
    by (symmetry; apply pre_ok_spec; unfold lenL in *; rewrite app_length; lia).
  pose proof (traverse_tree (lenL l) (tree_height (lenL l)) t 0 (repeat false k) [] [] false Hs Hok) as Tr.
  rewrite app_nil_r in Tr. rewrite Tr.
  cbn [finish s_bad s_bits s_hashes s_match length Nat.eqb negb app]. rewrite Hl.
  unfold lenL. rewrite app_length, repeat_length.
  set (b := length (tbits t)) in *.
  destruct (N.eqb_spec ((N.of_nat (b + k) - N.of_nat k + 7) / 8) ((N.of_nat (b + k) + 7) / 8)) as [_|Hneq];
    [reflexivity|].
  exfalso. apply Hneq. clear - Hm Hk. pose proof (Nat.div_mod (b + k) 8). lia.
Qed.

Hypothesis H_inj : forall a b c d, H a b = H c d -> a = c /\ b = d.

Inductive subseq : list A -> list A -> Prop :=
| sub_nil : subseq [] []
| sub_skip x l1 l2 : subseq l1 l2 -> subseq l1 (x :: l2)
| sub_take x l1 l2 : subseq l1 l2 -> subseq (x :: l1) (x :: l2).

Lemma subseq_nil_l l : subseq [] l.
Proof. induction l; constructor; assumption. Qed.

Lemma subseq_app a b c d : subseq a b -> subseq c d -> subseq (a ++ c) (b ++ d).
Proof. intros Hab Hcd. induction Hab; cbn [app]; try constructor; assumption. Qed.

Definition set_bh (s : st) (bits : list bool) (hs : list A) : st := mk_st bits hs (s_match s) (s_bad s).

(* soundness: an accepted walk whose node hash is the real node's hash reports only leaves
   of the real subtree, in order *)
Lemma traverse_sound n : forall h pos (s s' : st) x t,
  traverse n h pos s = Some (x, s') -> shaped n h pos t -> x = thash t ->
  exists ms, s_match s' = s_match s ++ ms /\ subseq ms (map fst (tleaves t)).
Proof.
  assert (Stop : forall (s s' : st) bits' x l, leaf A s bits' false = Some (x, s') ->
    exists ms, s_match s' = s_match s ++ ms /\ subseq ms l).
  { intros s s' bits' x l L. apply leaf_inv in L as (hs' & _ & ->).
    exists []. split; [symmetry; apply app_nil_r|apply subseq_nil_l]. }
  induction h as [|h IH]; intros pos s s' x t; [rewrite traverse_O|rewrite traverse_S];
    destruct (s_bits s) as [|b bits']; try discriminate; intros Tr Hs Ex.
  - destruct t as [a m| |]; try contradiction. destruct b; [|exact (Stop _ _ _ _ _ Tr)].
    apply leaf_inv in Tr as (hs' & _ & ->). cbn [thash] in Ex. subst a.
    exists [x]. split; [reflexivity|]. apply sub_take, sub_nil.
  - destruct b; [|exact (Stop _ _ _ _ _ Tr)].
    destruct (traverse n h (pos * 2) _) as [[xl s1]|] eqn:T1; [|discriminate].
    destruct t as [a m|l r|l]; try contradiction.
    + destruct Hs as [Hw [Sl Sr]]. rewrite Hw in Tr.
      destruct (traverse n h (pos * 2 + 1) s1) as [[xr s2]|] eqn:T2; [|discriminate].
      injection Tr as Ex1 Es. subst s'. rewrite <- Ex1 in Ex. cbn [thash] in Ex. apply H_inj in Ex as [E1 E2].
      destruct (IH _ _ _ _ _ T1 Sl E1) as [m1 [M1 Q1]]. destruct (IH _ _ _ _ _ T2 Sr E2) as [m2 [M2 Q2]].
      cbn [s_match] in *. exists (m1 ++ m2). split.
      * rewrite M2, M1, app_assoc. reflexivity.
      * cbn [tleaves]. rewrite map_app. apply subseq_app; assumption.
    + destruct Hs as [Hw Sl]. rewrite Hw in Tr. injection Tr as Ex1 Es. subst s'. rewrite <- Ex1 in Ex.
      cbn [thash] in Ex. apply H_inj in Ex as [E1 _].
      destruct (IH _ _ _ _ _ T1 Sl E1) as [m1 [M1 Q1]]. cbn [s_match] in *. exists m1. split; assumption.
Qed.

Theorem matches_are_leaves n hashes bits root ms (l : list (A * bool)) t :
  extract n hashes bits = Some (root, ms) ->
  lenL l = n -> tree_of A l = Some t -> root = thash t ->
  subseq ms (map fst l).
Proof using A H eqA eqA_spec H_inj.
  intros Ex Hn Ht Er. apply extract_inv in Ex as (P & s' & Tr & _ & _ & _ & ->).
  apply pre_ok_spec in P. pose proof max_txs_small as Hms.
  assert (Hne : l <> []) by (intro; subst l; unfold lenL in Hn; cbn in Hn; lia).
  destruct (tree_of_shaped l t Hne) as [Hs Hl]; [lia|exact Ht|]. rewrite Hn in Hs.
  destruct (traverse_sound n _ _ _ _ _ t Tr Hs Er) as [m [M Q]]. cbn [s_match app] in M.
  rewrite M, <- Hl. exact Q.
Qed.

(* with the flag bits fixed, the root determines every hash that was consumed *)
Lemma traverse_inj n : forall h pos (s s' r r' : st) x,
  traverse n h pos s = Some (x, r) -> traverse n h pos s' = Some (x, r') -> s_bits s = s_bits s' ->
  s_bits r = s_bits r' /\
  exists c, s_hashes s = c ++ s_hashes r /\ s_hashes s' = c ++ s_hashes r'.
Proof.
  assert (Leaf : forall (s s' r r' : st) bits' mh x,
    leaf A s bits' mh = Some (x, r) -> leaf A s' bits' mh = Some (x, r') ->
    s_bits r = s_bits r' /\ exists c, s_hashes s = c ++ s_hashes r /\ s_hashes s' = c ++ s_hashes r').
  { intros s s' r r' bits' mh x L1 L2.
    apply leaf_inv in L1 as (hs1 & E1 & ->). apply leaf_inv in L2 as (hs2 & E2 & ->).
    split; [reflexivity|]. exists [x]. split; assumption. }
  induction h as [|h IH]; intros pos s s' r r' x T1 T2 Eb; revert T1 T2;
    [rewrite !traverse_O|rewrite !traverse_S]; rewrite <- Eb; destruct (s_bits s) as [|b bits']; try discriminate.
  - apply Leaf.
  - destruct b; [|apply Leaf].
    destruct (traverse n h (pos * 2) (mk_st bits' (s_hashes s) _ _)) as [[l1 a1]|] eqn:L1; [|discriminate].
    destruct (traverse n h (pos * 2) (mk_st bits' (s_hashes s') _ _)) as [[l2 a2]|] eqn:L2; [|discriminate].
    destruct (pos * 2 + 1 <? width n (N.of_nat h)).
    + destruct (traverse n h (pos * 2 + 1) a1) as [[r1 b1]|] eqn:R1; [|discriminate].
      destruct (traverse n h (pos * 2 + 1) a2) as [[r2 b2]|] eqn:R2; [|discriminate].
      intros T1 T2. injection T1 as Ex1 <-. injection T2 as Ex2 <-. rewrite <- Ex1 in Ex2.
      apply H_inj in Ex2 as [-> ->].
      destruct (IH _ _ _ _ _ _ L1 L2 eq_refl) as [Eb1 [c1 [C1 C1']]]. cbn [s_hashes] in C1, C1'.
      destruct (IH _ _ _ _ _ _ R1 R2 Eb1) as [Eb2 [c2 [C2 C2']]].
      cbn [s_bits s_hashes]. split; [exact Eb2|]. exists (c1 ++ c2).
      rewrite C1, C1', C2, C2', <- !app_assoc. split; reflexivity.
    + intros T1 T2. injection T1 as Ex1 <-. injection T2 as Ex2 <-. rewrite <- Ex1 in Ex2.
      apply H_inj in Ex2 as [-> _]. exact (IH _ _ _ _ _ _ L1 L2 eq_refl).
Qed.

(* altering any hash (keeping count and flag bits): rejected, or a different root *)
Theorem altered_hash_changes_root_or_rejects n hs1 hs2 bits root m1 m2 :
  extract n hs1 bits = Some (root, m1) -> extract n hs2 bits = Some (root, m2) -> hs1 = hs2.
Proof using A H eqA H_inj.
  intros E1 E2.
  apply extract_inv in E1 as (_ & s1 & T1 & _ & _ & Z1 & _). apply extract_inv in E2 as (_ & s2 & T2 & _ & _ & Z2 & _).
  destruct (traverse_inj n _ _ _ _ _ _ _ T1 T2 eq_refl) as [_ [c [C1 C2]]].
  cbn [s_hashes] in C1, C2. rewrite Z1 in C1. rewrite Z2 in C2. congruence.
Qed.

End Tree.

(* distinct transaction ids and an injective hash give distinct siblings *)
Section NoDupSiblings.
Variable A : Type.
Variable H : A -> A -> A.
Hypothesis H_inj : forall a b c d, H a b = H c d -> a = c /\ b = d.
Notation thash := (thash A H).

Fixpoint leftmost (t : mtree A) : A :=
  match t with Leaf a _ => a | Node2 l _ => leftmost l | Node1 l => leftmost l end.

(* two subtrees of the same height with the same hash start with the same transaction id *)
Lemma thash_leftmost n : forall h p1 p2 t1 t2, shaped A n h p1 t1 -> shaped A n h p2 t2 ->
  thash t1 = thash t2 -> leftmost t1 = leftmost t2.
Proof.
  induction h as [|h IH]; intros p1 p2 t1 t2 H1 H2 E;
    destruct t1 as [a1 m1|l1 r1|l1]; destruct t2 as [a2 m2|l2 r2|l2]; cbn [shaped] in *; try contradiction;
    cbn [thash leftmost] in *; [exact E| | | |]; apply H_inj in E as [El _]; apply (IH (p1 * 2) (p2 * 2)); tauto.
Qed.

Lemma leftmost_in t : In (leftmost t) (map fst (tleaves A t)).
Proof.
  induction t as [a m|l IHl r IHr|l IHl]; cbn [leftmost tleaves].
  - left. reflexivity.
  - rewrite map_app. apply in_or_app. left. exact IHl.
  - exact IHl.
Qed.

Lemma nodup_sib_ok n : forall h pos t, shaped A n h pos t -> NoDup (map fst (tleaves A t)) -> sib_ok A H t.
Proof.
  induction h as [|h IH]; intros pos t Hs Hnd; destruct t as [a m|l r|l]; cbn [shaped sib_ok tleaves] in *;
    try contradiction; [exact I| |exact (IH _ _ (proj2 Hs) Hnd)].
  destruct Hs as (_ & Sl & Sr). rewrite map_app in Hnd. apply NoDup_app_inv in Hnd as (Nl & Nr & D).
  split; [|split; eapply IH; eassumption].
  intro E. apply (thash_leftmost n h _ _ l r Sl Sr) in E.
  apply (D (leftmost l)); [apply leftmost_in|rewrite E; apply leftmost_in].
Qed.

End NoDupSiblings.

Section Headline.
Variable A : Type.
Variable H : A -> A -> A.
Variable eqA : A -> A -> bool.
Hypothesis eqA_spec : forall a b, eqA a b = true <-> a = b.

(* for any node hash, if no two sibling subtrees collide *)
Theorem extract_build_sib (l : list (A * bool)) t bits hashes :
  l <> [] -> lenL l <= max_txs -> tree_of A l = Some t -> sib_ok A H t ->
  build A H l = Some (bits, hashes) ->
  extract A H eqA (lenL l) hashes bits = Some (thash A H t, matched A l).
Proof.
  intros Hne Hmax Ht Hok Hb. unfold build in Hb. rewrite Ht in Hb. injection Hb as <- <-.
  apply extract_tree; assumption.
Qed.

(* collision-free hash, distinct transaction ids: every count 1..limit, every match subset *)
Hypothesis H_inj : forall a b c d, H a b = H c d -> a = c /\ b = d.

Theorem extract_build (l : list (A * bool)) :
  l <> [] -> lenL l <= max_txs -> NoDup (map fst l) ->
  exists t bits hashes,
    tree_of A l = Some t /\ build A H l = Some (bits, hashes) /\
    extract A H eqA (lenL l) hashes bits = Some (thash A H t, matched A l).
Proof.
  intros Hne Hmax Hnd. pose proof max_txs_small as Hms.
  destruct (tree_of_total A l Hne) as [t [Ht [Hs Hl]]]; [lia|].
  exists t, (pad8 (tbits A t)), (thashes A H t). split; [exact Ht|]. split; [unfold build; rewrite Ht; reflexivity|].
  apply extract_tree; try assumption.
  apply (nodup_sib_ok A H H_inj _ _ _ _ Hs). rewrite Hl. exact Hnd.
Qed.

End Headline.

(* the tree hash is the block's merkle root computed level by level *)
Section Levels.
Variable A : Type.
Variable H : A -> A -> A.
Notation pair_up := (pair_up A H).
Notation root_levels := (root_levels A H).

(* the node hashes h levels above the leaves *)
Fixpoint level (h : nat) (l : list A) : list A :=
  match h with O => l | S h' => level h' (pair_up l) end.

Lemma level_S h : forall l, level (S h) l = pair_up (level h l).
Proof. induction h as [|h IH]; intro l; [reflexivity|]. exact (IH (pair_up l)). Qed.

Lemma level_nil h : level h [] = [].
Proof. induction h; [reflexivity|assumption]. Qed.

(* a subtree of height h hashes to the first node of level h *)
Lemma ttake_level : forall h l t r,
  ttake A h l = Some (t, r) -> level h (map fst l) = thash A H t :: level h (map fst r).
Proof.
  induction h as [|h IH]; intros l t r T; cbn [ttake] in T.
  - destruct l as [|[a m] l']; [discriminate|]. injection T as <- <-. reflexivity.
  - destruct (ttake A h l) as [[tl r1]|] eqn:T1; [|discriminate].
    rewrite !level_S, (IH _ _ _ T1). destruct r1 as [|y r1'].
    + injection T as <- <-. cbn [map]. rewrite level_nil. reflexivity.
    + destruct (ttake A h (y :: r1')) as [[tr r2]|] eqn:T2; [|discriminate].
      rewrite (IH _ _ _ T2). injection T as <- <-. reflexivity.
Qed.

Lemma pair_up_len : forall l, (length l <= 2 * length (pair_up l))%nat.
Proof.
  fix IH 1. intros [|a [|b l]]; cbn [PartialMerkle.pair_up length]; [lia|lia|].
  specialize (IH l). lia.
Qed.

Lemma root_levels_level : forall h l x fuel,
  level h l = [x] -> (h = 0%nat \/ 2 ^ (N.of_nat h - 1) < lenL l) -> (h <= fuel)%nat ->
  root_levels fuel l = Some x.
Proof.
  induction h as [|h IH]; intros l x fuel T Hlow Hf.
  - cbn [level] in T. subst l. destruct fuel; reflexivity.
  - destruct Hlow as [|Hlow]; [discriminate|].
    replace (N.of_nat (S h) - 1) with (N.of_nat h) in Hlow by lia.
    pose proof (pow2_pos (N.of_nat h)) as Hp.
    destruct l as [|a [|b r]]; try (unfold lenL in Hlow; cbn [length] in Hlow; lia).
    destruct fuel as [|f]; [lia|]. cbn [root_levels PartialMerkle.root_levels].
    change (H a b :: pair_up r) with (pair_up (a :: b :: r)).
    apply IH; [exact T| |lia].
    destruct h as [|h']; [left; reflexivity|right].
    replace (N.of_nat (S h') - 1) with (N.of_nat h') by lia.
    pose proof (pair_up_len (a :: b :: r)) as Hl. rewrite pow2_succ in Hlow. unfold lenL in *. lia.
Qed.

Theorem merkle_root_is_tree_hash (l : list (A * bool)) t :
  l <> [] -> tree_of A l = Some t -> merkle_root A H (map fst l) = Some (thash A H t).
Proof.
  intros Hne Ht. unfold tree_of in Ht.
  destruct (ttake A (tree_height (lenL l)) l) as [[t' r]|] eqn:T; [|discriminate].
  destruct r; [|discriminate]. injection Ht as ->.
  apply ttake_level in T. cbn [map] in T. rewrite level_nil in T. unfold merkle_root.
  pose proof (lenL_pos l Hne) as H1.
  assert (Hlen : lenL (map fst l) = lenL l) by (unfold lenL; rewrite map_length; reflexivity).
  unfold tree_height in *. apply (root_levels_level _ _ _ _ T).
  - destruct (N.eq_dec (lenL l) 1) as [E1|E1]; [left; rewrite E1; reflexivity|right].
    rewrite Nnat.N2Nat.id, Hlen, N.sub_1_r. apply N.log2_up_spec. lia.
  - rewrite map_length. destruct (N.eq_dec (lenL l) 1) as [E1|E1]; [rewrite E1; cbn; lia|].
    pose proof (N.log2_up_spec (lenL l) ltac:(lia)) as [Lo _].
    pose proof (N.pow_gt_lin_r 2 (N.pred (N.log2_up (lenL l))) ltac:(lia)) as Hg.
    pose proof (N.log2_up_pos (lenL l) ltac:(lia)). unfold lenL in *. lia.
Qed.

End Levels.

(* the free term algebra: an injective node hash with decidable equality (Hn_inj, term_eqb_spec), on which
   the Examples below and the refutations of Props/C20.v are evaluated *)
Inductive term := T (n : N) | Hn (l r : term).
Fixpoint term_eqb (a b : term) : bool :=
  match a, b with
  | T x, T y => x =? y
  | Hn a1 a2, Hn b1 b2 => term_eqb a1 b1 && term_eqb a2 b2
  | _, _ => false
  end.
Lemma term_eqb_spec a b : term_eqb a b = true <-> a = b.
Proof.
  revert b. induction a as [x|a1 IH1 a2 IH2]; intros [y|b1 b2]; cbn [term_eqb]; split; intro E; try discriminate.
  - apply N.eqb_eq in E. congruence.
  - injection E as ->. apply N.eqb_refl.
  - apply andb_true_iff in E as [E1 E2]. apply IH1 in E1. apply IH2 in E2. congruence.
  - injection E as -> ->. apply andb_true_iff. split; [apply IH1|apply IH2]; reflexivity.
Qed.
Lemma Hn_inj a b c d : Hn a b = Hn c d -> a = c /\ b = d.
Proof. intro E. injection E as -> ->. split; reflexivity. Qed.

Definition ex_block : list (term * bool) := [(T 1, false); (T 2, true); (T 3, false); (T 4, true); (T 5, false)].

Example extract_build_example :
  ex_block <> [] /\ lenL ex_block <= max_txs /\ NoDup (map fst ex_block) /\
  exists bits hashes, build term Hn ex_block = Some (bits, hashes) /\
    extract term Hn term_eqb 5 hashes bits =
      Some (Hn (Hn (Hn (T 1) (T 2)) (Hn (T 3) (T 4))) (Hn (Hn (T 5) (T 5)) (Hn (T 5) (T 5))), [T 2; T 4]) /\
    merkle_root term Hn (map fst ex_block) =
      Some (Hn (Hn (Hn (T 1) (T 2)) (Hn (T 3) (T 4))) (Hn (Hn (T 5) (T 5)) (Hn (T 5) (T 5)))).
Proof.
  split; [discriminate|]. split; [vm_compute; discriminate|]. split.
  - cbn. repeat constructor; cbn; intuition discriminate.
  - eexists. eexists. split; [vm_compute; reflexivity|]. split; vm_compute; reflexivity.
Qed.

(* equal siblings are refused (FBad) even though the tree hashes to the block root *)
Example equal_siblings_rejected :
  exists bits hashes, build term Hn [(T 1, true); (T 1, false)] = Some (bits, hashes) /\
    extract term Hn term_eqb 2 hashes bits = None.
Proof. eexists. eexists. split; vm_compute; reflexivity. Qed.

Lemma pack_byte_double : forall i bits w, pack_byte bits i (2 * w) = 2 * pack_byte bits i w.
Proof.
  induction i as [|i IH]; intros [|b r] w; cbn [pack_byte]; try lia. rewrite IH. destruct b; lia.
Qed.

(* bit k of a packed byte is the k-th flag *)
Lemma pack_byte_testbit : forall i bits k, (k < i)%nat ->
  N.testbit (pack_byte bits i 1) (N.of_nat k) = nth k bits false.
Proof.
  induction i as [|i IH]; intros bits k Hk; [lia|]. destruct bits as [|b r]; cbn [pack_byte].
  - rewrite N.bits_0. destruct k; reflexivity.
  - rewrite pack_byte_double.
    replace ((if b then 1 else 0) + 2 * pack_byte r i 1) with (2 * pack_byte r i 1 + N.b2n b) by (destruct b; cbn [N.b2n]; lia).
    destruct k as [|k]; [apply N.testbit_0_r|].
    rewrite Nnat.Nat2N.inj_succ, N.testbit_succ_r. cbn [nth]. apply IH. lia.
Qed.

Lemma byte_bits_pack bits :
  byte_bits (b8 (pack_byte bits 8 1)) = map (fun k => nth k bits false) (seq 0 8).
Proof.
  unfold byte_bits. rewrite n8_b8. set (v := _ mod 256).
  change (map (fun k => N.testbit v (N.of_nat k)) (seq 0 8) = map (fun k => nth k bits false) (seq 0 8)).
  apply map_ext_in. intros k Hk. apply in_seq in Hk. unfold v. change 256 with (2 ^ 8).
  rewrite N.mod_pow2_bits_low by lia. apply pack_byte_testbit. lia.
Qed.

(* serializeVBits undoes the packing of whole bytes *)
Lemma bits_of_bytes_pack : forall k bits fuel,
  length bits = (8 * k)%nat -> (k <= fuel)%nat -> bits_of_bytes (pack_bits fuel bits) = bits.
Proof.
  induction k as [|k IH]; intros bits fuel Hl Hf.
  - destruct bits; [|cbn in Hl; lia]. destruct fuel; reflexivity.
  - do 8 (destruct bits as [|? bits]; [cbn [length] in Hl; lia|]).
    destruct fuel as [|f]; [lia|]. cbn [pack_bits skipn]. unfold bits_of_bytes. cbn [flat_map].
    rewrite byte_bits_pack. cbn [seq map nth app]. do 8 f_equal. apply IH; [cbn [length] in Hl; lia|lia].
Qed.

Lemma bits_of_flags_pad8 bits : bits_of_bytes (flags_of_bits (pad8 bits)) = pad8 bits.
Proof.
  destruct (pad8_length bits) as [k [Hk [E Hm]]].
  apply (bits_of_bytes_pack ((length bits + k) / 8)); rewrite E, app_length, repeat_length.
  - pose proof (Nat.div_mod (length bits + k) 8). lia.
  - apply Nat.div_le_upper_bound; lia.
Qed.

(* the serialized form read back in two steps: header, count and number of hashes; hashes and number of flag bytes *)
Lemma mb_front_app {X} (k : bytes -> N -> N -> parser X) hd cnt nh r :
  length hd = 80%nat -> cnt < two32 -> nh < two64 ->
  (h <- take 80 ;; c <- p_le 4 ;; n <- p_varint ;; k h c n) (hd ++ le_enc 4 cnt ++ varint nh ++ r) = k hd cnt nh r.
Proof.
  intros Hh Hc Hn. unfold bind. rewrite (take_app_n 80) by exact Hh. rewrite p_le_app by exact Hc.
  rewrite p_varint_app by exact Hn. reflexivity.
Qed.

Lemma mb_hashes_app {X} (k : list bytes -> N -> parser X) hs nf r :
  Forall (fun h => length h = 32%nat) hs -> nf < two64 ->
  (l <- p_list (take 32) (lenL hs) ;; n <- p_varint ;; k l n) (concat hs ++ varint nf ++ r) = k hs nf r.
Proof.
  intros Hf Hn. rewrite Forall_forall in Hf. unfold bind.
  replace (concat hs) with (enc_list (fun x : bytes => x) hs) by (unfold enc_list; rewrite map_id; reflexivity).
  rewrite p_list_app.
  - rewrite p_varint_app by exact Hn. reflexivity.
  - intros a Ha q. apply (take_app_n 32), Hf, Ha.
  - intros a Ha E. apply Hf in Ha. subst a. discriminate.
Qed.

(* parse after serialize, for what the wire limits allow *)
Lemma parse_ser_merkle_block m rest :
  length (mb_header m) = 80%nat -> mb_count m < two32 ->
  Forall (fun h => length h = 32%nat) (mb_hashes m) ->
  lenL (mb_hashes m) <= wire_max_hashes -> lenN (mb_flags m) <= wire_max_flags ->
  parse_merkle_block (ser_merkle_block m ++ rest) = Some (m, rest).
Proof.
  destruct m as [hd cnt hs fl]. cbn [mb_header mb_count mb_hashes mb_flags].
  intros Hh Hc Hf Hnh Hnf. unfold ser_merkle_block, parse_merkle_block.
  cbn [mb_header mb_count mb_hashes mb_flags]. rewrite <- !app_assoc.
  unfold wire_max_hashes, wire_max_flags in *.
  rewrite mb_front_app by (try assumption; unfold two64; lia).
  destruct (N.ltb_spec 400001 (lenL hs)) as [|_]; [lia|].
  rewrite mb_hashes_app by (try assumption; unfold two64; lia).
  destruct (N.ltb_spec 50000 (lenN fl)) as [|_]; [lia|].
  unfold bind, lenN. rewrite takeN_app. reflexivity.
Qed.

(* byte level, on the executable instance (32-byte hashes, double SHA-256, bytes.Equal): the serialized partial
   merkle tree of a block is parsed and accepted *)
Theorem run_proof_build (header : bytes) (l : list (bytes * bool)) t bits hashes rest :
  l <> [] -> lenL l <= max_txs -> tree_of bytes l = Some t -> sib_ok bytes node_hash t ->
  build bytes node_hash l = Some (bits, hashes) ->
  length header = 80%nat -> Forall (fun h => length h = 32%nat) hashes ->
  lenN (flags_of_bits bits) <= wire_max_flags ->
  let m := mk_mb header (lenL l) hashes (flags_of_bits bits) in
  run_proof (ser_merkle_block m ++ rest) = POk m (thash bytes node_hash t) (matched bytes l).
Proof.
  intros Hne Hmax Ht Hok Hb Hh Hf Hfl m. unfold run_proof.
  pose proof max_txs_small as Hms.
  assert (Hmx : max_txs <= wire_max_hashes) by (vm_compute; discriminate).
  assert (Hm32 : max_txs < two32) by (vm_compute; reflexivity).
  pose proof (extract_build_sib bytes node_hash bytes_eqb bytes_eqb_eq l t bits hashes Hne Hmax Ht Hok Hb) as Ex.
  unfold build in Hb. rewrite Ht in Hb. injection Hb as <- <-.
  destruct (tree_of_shaped bytes l t Hne) as [_ Hl]; [lia|exact Ht|].
  pose proof (thashes_le bytes node_hash t) as [Hle _]. rewrite Hl in Hle.
  rewrite parse_ser_merkle_block; subst m; cbn [mb_header mb_count mb_hashes mb_flags];
    try assumption; try (unfold lenL in *; lia).
  unfold extract_mb. cbn [mb_count mb_hashes mb_flags]. rewrite bits_of_flags_pad8, Ex. reflexivity.
Qed.

(* the repeated-tail forgery (CVE-2012-2459 one level up): six transactions hash like eight with the last
   two repeated; Bitcoin's builder run on the eight-leaf "block" yields a proof with the six-leaf block's
   root, which the extractor refuses because of the equal siblings at height 2 *)
Definition ex6 : list (term * bool) := [(T 1, false); (T 2, false); (T 3, false); (T 4, false); (T 5, false); (T 6, true)].
Definition ex8 : list (term * bool) := ex6 ++ [(T 5, false); (T 6, true)].
Example repeated_tail_forgery_rejected :
  merkle_root term Hn (map fst ex8) = merkle_root term Hn (map fst ex6) /\
  exists bits hashes, build term Hn ex8 = Some (bits, hashes) /\ extract term Hn term_eqb 8 hashes bits = None.
Proof. split; [vm_compute; reflexivity|]. eexists. eexists. split; vm_compute; reflexivity. Qed.
