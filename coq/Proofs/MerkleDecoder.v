(* Proofs/MerkleDecoder.v — C12 for the merkle-block decoder: the blob parser accepts exactly
   the inputs that begin with a complete encoding (so it is stable under extension, and trailing
   bytes are ignored, as block.NewMerkleBlockFromBuffer does), the count check in front of it
   refuses nothing it accepts, the memory requested is bounded, and ExtractMatches never indexes
   out of range (the index-cursor model of Model/MerkleIx.v computes what the suffix model of
   Model/Merkle.v computes). *)
From GE Require Import Lib.Bytes Lib.Varint Lib.Sha256 Spec.PartialMerkle Model.Merkle Model.MerkleIx Proofs.Decoders Proofs.Merkle.
From Coq Require Import ZifyBool ZifyN ZifyNat.
Open Scope N_scope.

(* what the wire format can carry *)
Definition wf_mb (m : merkle_block) : Prop :=
  length (mb_header m) = 80%nat /\ mb_count m < two32 /\
  Forall (fun h => length h = 32%nat) (mb_hashes m) /\
  lenL (mb_hashes m) <= wire_max_hashes /\ lenN (mb_flags m) <= wire_max_flags.

Lemma mb_front_inv {X} (k : bytes -> N -> N -> parser X) bs res :
  (h <- take 80 ;; c <- p_le 4 ;; n <- p_varint ;; k h c n) bs = Some res ->
  exists hd cnt nh r, bs = hd ++ le_enc 4 cnt ++ varint nh ++ r /\
    length hd = 80%nat /\ cnt < two32 /\ nh < two64 /\ k hd cnt nh r = Some res.
Proof.
  destruct res as [x q]. intro P.
  apply (bind_inv (e := fun h => h) (take_inv 80)) in P as (hd & r1 & -> & L1 & P).
  apply (bind_inv p_le4_inv) in P as (cnt & r2 & -> & B2 & P).
  apply (bind_inv p_varint_inv) in P as (nh & r3 & -> & B3 & P).
  exists hd, cnt, nh, r3. auto.
Qed.

(* every accepted input starts with the complete encoding of the value returned *)
Theorem parse_merkle_block_inv bs m r :
  parse_merkle_block bs = Some (m, r) -> bs = ser_merkle_block m ++ r /\ wf_mb m.
Proof.
  unfold parse_merkle_block. intro P. apply mb_front_inv in P as (hd & cnt & nh & r3 & -> & L1 & B2 & B3 & P).
  destruct (N.ltb_spec wire_max_hashes nh) as [|Hnh]; [discriminate|].
  apply (bind_inv (p_list_inv (fun h => h) _ _ (take_inv 32) nh)) in P as (hs & r4 & -> & [L4 F4] & P).
  apply (bind_inv p_varint_inv) in P as (nf & r5 & -> & B5 & P).
  destruct (N.ltb_spec wire_max_flags nf) as [|Hnf]; [discriminate|].
  apply (bind_inv (e := fun b => b) (takeN_inv nf)) in P as (fl & r6 & -> & L6 & P). apply ret_inv in P as [<- <-].
  unfold ser_merkle_block, wf_mb, lenN. cbn [mb_header mb_count mb_hashes mb_flags].
  unfold enc_list. rewrite map_id, L4, L6, <- !app_assoc. repeat split; try assumption; lia.
Qed.

Lemma parse_ser_wf m rest : wf_mb m -> parse_merkle_block (ser_merkle_block m ++ rest) = Some (m, rest).
Proof. intros [W1 [W2 [W3 [W4 W5]]]]. apply parse_ser_merkle_block; assumption. Qed.

Theorem stable_parse_merkle_block : stable parse_merkle_block.
Proof. exact (stable_of_inv _ ser_merkle_block wf_mb parse_merkle_block_inv parse_ser_wf). Qed.

Lemma concat_len32 (hs : list bytes) : Forall (fun h => length h = 32%nat) hs -> lenN (concat hs) = 32 * lenL hs.
Proof.
  induction 1 as [|h hs Hh _ IH]; [reflexivity|]. cbn [concat]. rewrite lenN_app, IH.
  unfold lenN, lenL. cbn [length]. lia.
Qed.

(* 32-byte hashes are backed by the input they were read from *)
Lemma concat32_backed (hs : list bytes) r : Forall (fun h => length h = 32%nat) hs -> (lenN (concat hs ++ r) / 32 <? lenL hs) = false.
Proof. intro F. apply N.ltb_ge. rewrite lenN_app, (concat_len32 _ F). apply N.div_le_lower_bound; lia. Qed.

(* on an input with a well-formed front the pieces of the decoder see the same header, count and number of hashes *)
Section Front.
Variables (hd : bytes) (cnt nh : N) (r : bytes).
Hypothesis Hh : length hd = 80%nat.
Hypothesis Hn : nh < two64.
Let bs := hd ++ le_enc 4 cnt ++ varint nh ++ r.

(* checkMerkleBlockHashCount compares the number of hashes with the bytes behind it *)
Lemma check_value : hash_count_exceeds bs = (lenN r / 32 <? nh).
Proof.
  unfold hash_count_exceeds, bs.
  assert (Hv : (1 <= length (varint nh))%nat)
    by (destruct (varint nh) eqn:Ev; [exfalso; exact (varint_nonempty nh Ev)|cbn; lia]).
  destruct (Nat.leb_spec (length (hd ++ le_enc 4 cnt ++ varint nh ++ r)) 84) as [Hle|_].
  { rewrite !app_length, le_enc_length in Hle. lia. }
  rewrite app_assoc, (skipn_app_exact _ _ 84) by (rewrite app_length, le_enc_length, Hh; reflexivity).
  rewrite p_varint_app by exact Hn. reflexivity.
Qed.

Hypothesis Hc : cnt < two32.

Lemma parse_front : parse_merkle_block bs =
  if wire_max_hashes <? nh then None
  else (hs <- p_list (take 32) nh ;; nf <- p_varint ;;
        if wire_max_flags <? nf then pfail else fl <- takeN nf ;; ret (mk_mb hd cnt hs fl)) r.
Proof.
  unfold parse_merkle_block, bs. rewrite mb_front_app by assumption. destruct (wire_max_hashes <? nh); reflexivity.
Qed.

Lemma alloc_btcd_front : alloc_btcd bs =
  if wire_max_hashes <? nh then 0
  else 40 * nh + match (hs <- p_list (take 32) nh ;; nf <- p_varint ;; ret nf) r with
                 | None => 0
                 | Some (nf, _) => if wire_max_flags <? nf then 0 else nf
                 end.
Proof. unfold alloc_btcd, bs. rewrite mb_front_app by assumption. reflexivity. Qed.

End Front.

Lemma check_passes_on_accepted bs m r : parse_merkle_block bs = Some (m, r) -> hash_count_exceeds bs = false.
Proof.
  intro P. apply parse_merkle_block_inv in P as [-> [W1 [W2 [W3 [W4 W5]]]]].
  unfold ser_merkle_block. rewrite <- !app_assoc. unfold wire_max_hashes in W4.
  rewrite check_value by (try exact W1; unfold two64; lia). exact (concat32_backed _ _ W3).
Qed.

(* the check refuses nothing the decoder would have accepted: acceptance is that of the blob parser *)
Theorem decode_eq_parse bs :
  decode_merkle_block bs = match parse_merkle_block bs with Some (m, _) => Some m | None => None end.
Proof.
  unfold decode_merkle_block. destruct (parse_merkle_block bs) as [[m r]|] eqn:P.
  - rewrite (check_passes_on_accepted _ _ _ P). reflexivity.
  - destruct (hash_count_exceeds bs); reflexivity.
Qed.

(* both counts of an accepted input are backed by its bytes *)
Theorem merkleblock_accepted_size bs m r :
  parse_merkle_block bs = Some (m, r) ->
  84 + varint_size (lenL (mb_hashes m)) + 32 * lenL (mb_hashes m) +
  varint_size (lenN (mb_flags m)) + lenN (mb_flags m) + lenN r = lenN bs.
Proof.
  intro P. apply parse_merkle_block_inv in P as [-> [W1 [W2 [W3 [W4 W5]]]]].
  unfold ser_merkle_block. rewrite !lenN_app, !varint_length, lenN_le_enc, (concat_len32 _ W3).
  assert (E80 : lenN (mb_header m) = 80) by (unfold lenN; rewrite W1; reflexivity). lia.
Qed.

Lemma alloc_eq bs : alloc_merkle_block bs =
  if hash_count_exceeds bs then 0
  else alloc_btcd bs + match parse_merkle_block bs with Some (m, _) => alloc_repo m | None => 0 end.
Proof. unfold alloc_merkle_block. rewrite decode_eq_parse. destruct (parse_merkle_block bs) as [[m r]|]; reflexivity. Qed.

(* once the count check has let an input through, what btcd reserves for hashes is backed by input;
   the flag bytes (cap 50000) are the only reservation that is not *)
Lemma alloc_btcd_backed bs : hash_count_exceeds bs = false -> alloc_btcd bs <= 2 * lenN bs + wire_max_flags.
Proof.
  intro Hc. unfold alloc_btcd at 1.
  destruct ((hd <- take 80 ;; cnt <- p_le 4 ;; nh <- p_varint ;; ret nh) bs) as [[nh' r']|] eqn:E; [|lia].
  apply mb_front_inv in E as (hd & cnt & nh & r & -> & L1 & B2 & B3 & E). injection E as <- <-.
  rewrite check_value in Hc by assumption. apply N.ltb_ge in Hc.
  rewrite !lenN_app. unfold wire_max_flags.
  destruct (wire_max_hashes <? nh); [lia|].
  assert (Hb : 32 * nh <= lenN r) by lia.
  destruct ((hs <- p_list (take 32) nh ;; nf <- p_varint ;; ret nf) r) as [[nf r5]|]; [|lia].
  destruct (N.ltb_spec 50000 nf); lia.
Qed.

Lemma alloc_btcd_ser m rest : wf_mb m ->
  alloc_btcd (ser_merkle_block m ++ rest) = 40 * lenL (mb_hashes m) + lenN (mb_flags m).
Proof.
  intros [W1 [W2 [W3 [W4 W5]]]]. unfold ser_merkle_block. rewrite <- !app_assoc.
  unfold wire_max_hashes, wire_max_flags in *.
  rewrite alloc_btcd_front by (try assumption; unfold two64; lia).
  destruct (N.ltb_spec wire_max_hashes (lenL (mb_hashes m))) as [L|_]; [unfold wire_max_hashes in L; lia|].
  rewrite mb_hashes_app by (try assumption; unfold two64; lia). unfold ret.
  destruct (N.ltb_spec wire_max_flags (lenN (mb_flags m))) as [L|_]; [unfold wire_max_flags in L; lia|reflexivity].
Qed.

(* for an accepted input the request is proportional to the input *)
Theorem alloc_accepted_proportional bs m r :
  parse_merkle_block bs = Some (m, r) ->
  alloc_merkle_block bs = 96 * lenL (mb_hashes m) + 9 * lenN (mb_flags m) /\
  alloc_merkle_block bs <= 9 * lenN bs.
Proof.
  intro P. pose proof (merkleblock_accepted_size _ _ _ P) as Sz.
  pose proof (parse_merkle_block_inv _ _ _ P) as [E W].
  assert (A : alloc_merkle_block bs = 96 * lenL (mb_hashes m) + 9 * lenN (mb_flags m)).
  { rewrite alloc_eq, (check_passes_on_accepted _ _ _ P), P. rewrite E at 1.
    rewrite alloc_btcd_ser by exact W. unfold alloc_repo. lia. }
  split; [exact A|]. rewrite A. lia.
Qed.

(* for every input, accepted or not: at most the flag-byte cap (50000, within the allowance of the
   allocation oracle) plus nine times the input *)
Theorem alloc_bounded bs : alloc_merkle_block bs <= alloc_const_bound + 9 * lenN bs.
Proof.
  unfold alloc_const_bound.
  destruct (parse_merkle_block bs) as [[m r]|] eqn:P.
  - pose proof (alloc_accepted_proportional _ _ _ P) as [_ B]. lia.
  - rewrite alloc_eq, P. destruct (hash_count_exceeds bs) eqn:Hc; [lia|].
    pose proof (alloc_btcd_backed bs Hc). lia.
Qed.

(* without the count check in front of btcd (alloc_merkle_block_prefix, the decoder before fix c4c5793;
   `_prefix` reads "pre-fix") 89 bytes make btcd reserve 16 MB
   before the first hash is read; with it the same input is refused without any reservation *)
Definition greedy_blob : bytes := repeat x00 84 ++ [xfe; x81; x1a; x06; x00].
Example alloc_prefix_shape :
  lenN greedy_blob = 89 /\ alloc_merkle_block_prefix greedy_blob = 16000040 /\
  decode_merkle_block greedy_blob = None /\ alloc_merkle_block greedy_blob = 0.
Proof. split; [reflexivity|]. split; [vm_compute; reflexivity|]. split; vm_compute; reflexivity. Qed.

Theorem merkle_flag_count_checked m nf r :
  wf_mb m -> nf < two64 -> wire_max_flags < nf ->
  let bs := mb_header m ++ le_enc 4 (mb_count m) ++ varint (lenL (mb_hashes m)) ++ concat (mb_hashes m) ++ varint nf ++ r in
  parse_merkle_block bs = None /\ alloc_merkle_block bs = 40 * lenL (mb_hashes m).
Proof.
  intros [W1 [W2 [W3 [W4 W5]]]] Hn Hm bs. subst bs.
  assert (H64 : lenL (mb_hashes m) < two64) by (unfold wire_max_hashes, two64 in *; lia).
  apply N.ltb_ge in W4. apply N.ltb_lt in Hm.
  rewrite alloc_eq, parse_front, alloc_btcd_front, check_value, W4, !mb_hashes_app, Hm by assumption.
  rewrite (concat32_backed _ _ W3). split; [reflexivity|unfold ret, pfail; rewrite Hm; lia].
Qed.

Lemma skipn_nth {X} : forall (l : list X) i, (i < length l)%nat ->
  exists x, nth_error l i = Some x /\ skipn i l = x :: skipn (S i) l.
Proof.
  induction l as [|a l IH]; intros i Hi; [cbn in Hi; lia|].
  destruct i as [|i]; [exists a; split; reflexivity|].
  cbn [length] in Hi. destruct (IH i ltac:(lia)) as [x [E1 E2]]. exists x. split; [exact E1|exact E2].
Qed.

Section Refine.
Variable A : Type.
Variable H : A -> A -> A.
Variable eqA : A -> A -> bool.
Variables (vbits : list bool) (hashes : list A).
Notation traverse := (traverse A H eqA).
Notation traverse_ix := (traverse_gen A H eqA Nat.leb).

(* the unread suffixes that a pair of cursors stands for *)
Definition suffixes (i : ist A) : st A :=
  mk_st (skipn (i_bits_used i) vbits) (skipn (i_hash_used i) hashes) (i_match i) (i_bad i).
Definition in_range (i : ist A) : Prop :=
  (i_bits_used i <= length vbits)%nat /\ (i_hash_used i <= length hashes)%nat.

(* same verdict, same node hash, corresponding states; IxPanic corresponds to nothing *)
Definition ix_agree (r : ixres (A * ist A)) (o : option (A * st A)) : Prop :=
  match r, o with
  | IxErr, None => True
  | IxOk (x, i), Some (y, s) => x = y /\ in_range i /\ suffixes i = s
  | _, _ => False
  end.

(* TxHashes[hashUsed] behind its guard *)
Definition leaf_ix (bu hu : nat) (m : list A) (bad mh : bool) : ixres (A * ist A) :=
  if (length hashes <=? hu)%nat then IxErr
  else match nth_error hashes hu with
       | None => IxPanic
       | Some x => IxOk (x, mk_ist (S bu) (S hu) (if mh then m ++ [x] else m) bad)
       end.

Lemma leaf_ix_agree bu hu m bad mh : (S bu <= length vbits)%nat -> (hu <= length hashes)%nat ->
  ix_agree (leaf_ix bu hu m bad mh) (leaf A (suffixes (mk_ist bu hu m bad)) (skipn (S bu) vbits) mh).
Proof.
  intros Hb Hh. unfold leaf_ix, leaf, suffixes. cbn [s_hashes s_match s_bad i_hash_used i_match i_bad].
  destruct (Nat.leb_spec (length hashes) hu) as [Hge|Hlt].
  - rewrite skipn_all2 by exact Hge. exact I.
  - destruct (skipn_nth hashes hu Hlt) as [x [-> ->]]. repeat split; cbn; lia.
Qed.

(* the index-cursor walk computes what the suffix walk computes; it has no IxPanic outcome:
   the two guards ( >= len ) are exactly what makes the index expressions defined *)
Lemma traverse_ix_agree n : forall h pos i, in_range i ->
  ix_agree (traverse_ix n vbits hashes h pos i) (traverse n h pos (suffixes i)).
Proof.
  induction h as [|h IH]; intros pos [bu hu m bad] [Hb Hh]; [rewrite traverse_O|rewrite traverse_S];
    cbn [traverse_gen suffixes s_bits s_hashes s_match s_bad i_bits_used i_hash_used i_match i_bad] in *;
    destruct (Nat.leb_spec (length vbits) bu) as [Hge|Hlt]; try (rewrite skipn_all2 by exact Hge; exact I);
    destruct (skipn_nth vbits bu Hlt) as [b [-> ->]].
  - exact (leaf_ix_agree bu hu m bad b Hlt Hh).
  - destruct b; cbn [negb]; [|exact (leaf_ix_agree bu hu m bad false Hlt Hh)].
    pose proof (IH (pos * 2) (mk_ist (S bu) hu m bad) (conj Hlt Hh)) as L. unfold suffixes in L at 1.
    cbn [i_bits_used i_hash_used i_match i_bad] in L.
    destruct (traverse_gen _ _ _ _ _ _ _ h (pos * 2) _) as [[l i1]| |], (traverse n h (pos * 2) _) as [[l' s1]|];
      try contradiction; [|exact I].
    destruct L as (<- & W1 & <-).
    destruct (pos * 2 + 1 <? width n (N.of_nat h)); [|repeat split; apply W1].
    pose proof (IH (pos * 2 + 1) i1 W1) as R.
    destruct (traverse_gen _ _ _ _ _ _ _ h (pos * 2 + 1) _) as [[r i2]| |], (traverse n h (pos * 2 + 1) _) as [[r' s2]|];
      try contradiction; [|exact I].
    destruct R as (<- & W2 & <-). repeat split; apply W2.
Qed.

End Refine.

Section RefineExtract.
Variable A : Type.
Variable H : A -> A -> A.
Variable eqA : A -> A -> bool.

Theorem extract_ix_refines n hashes vbits :
  extract_ix A H eqA n hashes vbits =
  match extract A H eqA n hashes vbits with Some r => IxOk r | None => IxErr end.
Proof.
  unfold extract_ix, extract_gen. rewrite guards_eq, extract_eq.
  destruct (pre_ok n hashes vbits) eqn:P; [|reflexivity]. rewrite (pre_ok_height _ _ _ P).
  assert (W0 : in_range A vbits hashes (mk_ist 0 0 [] false)) by (split; cbn; lia).
  pose proof (traverse_ix_agree A H eqA vbits hashes n (tree_height n) 0 _ W0) as R.
  unfold tree_height in *. cbn [suffixes skipn i_bits_used i_hash_used i_match i_bad] in R.
  destruct (traverse_gen _ _ _ _ _ _ _ _ _ _) as [[x i]| |], (traverse _ _ _ _ _ _ _) as [[y s]|];
    try contradiction; [|reflexivity].
  destruct R as (<- & [Hb Hh] & <-). destruct i as [bu hu m bad].
  cbn [finish suffixes s_bits s_hashes s_match s_bad i_bits_used i_hash_used i_match i_bad] in *.
  destruct bad; [reflexivity|]. unfold lenL. rewrite !skipn_length.
  replace (N.of_nat (length vbits) - N.of_nat (length vbits - bu)) with (N.of_nat bu) by lia.
  destruct (negb ((N.of_nat bu + 7) / 8 =? (N.of_nat (length vbits) + 7) / 8)); [reflexivity|].
  destruct (Nat.eqb_spec hu (length hashes)), (Nat.eqb_spec (length hashes - hu) 0); try reflexivity; lia.
Qed.

Theorem extract_ix_no_panic n hashes vbits : extract_ix A H eqA n hashes vbits <> IxPanic.
Proof. rewrite extract_ix_refines. destruct (extract A H eqA n hashes vbits); discriminate. Qed.

End RefineExtract.

