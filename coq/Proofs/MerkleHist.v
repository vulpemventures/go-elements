(* Proofs/MerkleHist.v — C20 over histories of one MerkleBlock object: between calls
   ExtractMatches keeps nothing but FBad; with FBad clear the verdict is the pure function
   `extract` of the fields as they are now (what a freshly decoded proof with those fields gets);
   once FBad is set every later call is refused (FBad is a field of the value). *)
From GE Require Import Lib.Bytes Lib.Sha256 Spec.PartialMerkle Model.Merkle Model.MerkleHist Proofs.Merkle.
From Coq Require Import ZifyBool ZifyN ZifyNat.
Open Scope N_scope.

Section Hist.
Variable A : Type.
Variable H : A -> A -> A.
Variable eqA : A -> A -> bool.
Variable okA : A -> bool.
Notation traverse := (traverse A H eqA).
Notation traverse_h := (traverse_h A H eqA okA).
Notation extract_hist := (extract_hist A H eqA okA).
Notation okl := (Forall (fun x => okA x = true)).

(* the walk of Model/MerkleHist.v where it stops: NewHash on the next entry *)
Definition leaf_h (s : st A) (bits' : list bool) (mh : bool) : tres A :=
  match s_hashes s with
  | [] => TErr A true
  | x :: hs' =>
      if okA x then TOk A x (mk_st bits' hs' (if mh then s_match s ++ [x] else s_match s) (s_bad s))
      else TErr A (s_bad s)
  end.

(* the same outcome as the walk of Model/Merkle.v, whose failures are the two that set FBad *)
Definition h_agree (r : tres A) (o : option (A * st A)) : Prop :=
  match o with
  | Some (x, s') => r = TOk A x s' /\ okl (s_hashes s')
  | None => r = TErr A true
  end.

Lemma leaf_h_agree s bits' mh : okl (s_hashes s) -> h_agree (leaf_h s bits' mh) (leaf A s bits' mh).
Proof.
  unfold leaf_h, leaf. destruct (s_hashes s) as [|y hs']; [reflexivity|].
  intro Hok. inversion Hok as [|? ? Hy Hr]; subst. rewrite Hy. split; [reflexivity|exact Hr].
Qed.

(* on entries of the right length the walk of Model/MerkleHist.v is the walk of Model/Merkle.v *)
Lemma traverse_h_agree n : forall h pos (s : st A), okl (s_hashes s) ->
  h_agree (traverse_h n h pos s) (traverse n h pos s).
Proof.
  induction h as [|h IH]; intros pos s Hok; [rewrite traverse_O|rewrite traverse_S]; cbn [MerkleHist.traverse_h];
    destruct (s_bits s) as [|b bits']; try reflexivity.
  - exact (leaf_h_agree s bits' b Hok).
  - destruct b; cbn [negb]; [|exact (leaf_h_agree s bits' false Hok)].
    pose proof (IH (pos * 2) (mk_st bits' (s_hashes s) (s_match s) (s_bad s)) Hok) as L.
    destruct (traverse n h (pos * 2) _) as [[l s1]|]; cbn [h_agree] in L; [|rewrite L; reflexivity].
    destruct L as [-> Ok1]. destruct (pos * 2 + 1 <? width n (N.of_nat h)); [|split; [reflexivity|exact Ok1]].
    pose proof (IH (pos * 2 + 1) s1 Ok1) as R.
    destruct (traverse n h (pos * 2 + 1) s1) as [[r s2]|]; cbn [h_agree] in R; [|rewrite R; reflexivity].
    destruct R as [-> Ok2]. split; [reflexivity|exact Ok2].
Qed.

(* however the walk ends: a success has passed every entry it consumed through NewHash, and FBad is never cleared *)
Definition checked (s : st A) (r : tres A) : Prop :=
  match r with
  | TOk _ _ s' => (exists c, s_hashes s = c ++ s_hashes s' /\ okl c) /\ (s_bad s = true -> s_bad s' = true)
  | TErr _ e => s_bad s = true -> e = true
  end.

Lemma leaf_checked s bits' mh : checked s (leaf_h s bits' mh).
Proof.
  unfold leaf_h, checked. destruct (s_hashes s) as [|y hs']; [auto|]. destruct (okA y) eqn:Hy; cbn [s_hashes s_bad]; [|auto].
  split; [|auto]. exists [y]. split; [reflexivity|]. constructor; [exact Hy|constructor].
Qed.

Lemma traverse_h_checked n : forall h pos (s : st A), checked s (traverse_h n h pos s).
Proof.
  induction h as [|h IH]; intros pos s; cbn [MerkleHist.traverse_h]; destruct (s_bits s) as [|b bits']; try (intro; reflexivity).
  - exact (leaf_checked s bits' b).
  - destruct b; cbn [negb]; [|exact (leaf_checked s bits' false)].
    pose proof (IH (pos * 2) (mk_st bits' (s_hashes s) (s_match s) (s_bad s))) as L.
    destruct (traverse_h n h (pos * 2) _) as [l s1|e]; cbn [checked s_hashes s_bad] in L; [|exact L].
    destruct L as [[c1 [C1 O1]] B1]. destruct (pos * 2 + 1 <? width n (N.of_nat h)); [|split; [exists c1; auto|exact B1]].
    pose proof (IH (pos * 2 + 1) s1) as R.
    destruct (traverse_h n h (pos * 2 + 1) s1) as [r s2|e]; cbn [checked s_hashes s_bad] in *; [|auto].
    destruct R as [[c2 [C2 O2]] B2]. split.
    + exists (c1 ++ c2). rewrite C1, C2, app_assoc. split; [reflexivity|]. apply Forall_app. split; assumption.
    + intro B. rewrite (B2 (B1 B)). reflexivity.
Qed.

(* what ExtractMatches makes of the outcome of the walk, and of FBad *)
Definition finish_h (bits : list bool) (r : tres A) : option (A * list A) * bool :=
  match r with
  | TErr _ e => (None, e)
  | TOk _ root s =>
      if s_bad s then (None, true)
      else if negb ((lenL bits - lenL (s_bits s) + 7) / 8 =? (lenL bits + 7) / 8) then (None, false)
      else if negb (length (s_hashes s) =? 0)%nat then (None, false)
      else (Some (root, s_match s), false)
  end.

Lemma extract_hist_eq bad n hashes bits :
  extract_hist bad n hashes bits =
  if pre_ok n hashes bits then finish_h bits (traverse_h n (tree_height n) 0 (mk_st bits hashes [] bad)) else (None, bad).
Proof.
  unfold MerkleHist.extract_hist. rewrite guards_eq. destruct (pre_ok n hashes bits) eqn:P; [|reflexivity].
  rewrite (pre_ok_height _ _ _ P). reflexivity.
Qed.

(* a fresh object (FBad clear, entries of the right length): extract_hist is extract *)
Theorem extract_hist_fresh n hashes bits : okl hashes ->
  fst (extract_hist false n hashes bits) = extract A H eqA n hashes bits.
Proof.
  intro Hok. rewrite extract_hist_eq, extract_eq. destruct (pre_ok n hashes bits); [|reflexivity].
  pose proof (traverse_h_agree n (tree_height n) 0 (mk_st bits hashes [] false) Hok) as R.
  destruct (traverse _ _ _ _) as [[root s]|]; cbn [h_agree] in R; [|rewrite R; reflexivity].
  destruct R as [-> _]. cbn [finish_h finish]. destruct (s_bad s); [reflexivity|].
  destruct (negb (_ =? _)); [reflexivity|]. destruct (negb (_ =? _)%nat); reflexivity.
Qed.

(* an object whose FBad is set refuses everything, and stays that way *)
Theorem extract_hist_sticky n hashes bits :
  extract_hist true n hashes bits = (None, true).
Proof.
  rewrite extract_hist_eq. destruct (pre_ok n hashes bits); [|reflexivity].
  pose proof (traverse_h_checked n (tree_height n) 0 (mk_st bits hashes [] true)) as M.
  destruct (traverse_h _ _ _ _) as [root s|e]; cbn [checked s_bad finish_h] in *; [destruct M as [_ M]|]; rewrite M; reflexivity.
Qed.

(* an accepting call leaves FBad clear and has passed every entry through NewHash *)
Lemma extract_hist_some bad n hashes bits r bad' :
  extract_hist bad n hashes bits = (Some r, bad') -> bad' = false /\ okl hashes.
Proof.
  rewrite extract_hist_eq. destruct (pre_ok n hashes bits); [|discriminate].
  pose proof (traverse_h_checked n (tree_height n) 0 (mk_st bits hashes [] bad)) as M.
  destruct (traverse_h _ _ _ _) as [root s|e]; [|discriminate]. cbn [finish_h checked s_hashes] in *.
  destruct (s_bad s); [discriminate|]. destruct (negb (_ =? _)); [discriminate|].
  destruct (s_hashes s) as [|y ys]; [|discriminate]. intro E. injection E as _ <-.
  destruct M as [[c [-> O]] _]. rewrite app_nil_r. auto.
Qed.

End Hist.
