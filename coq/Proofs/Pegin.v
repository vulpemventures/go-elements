(* Proofs/Pegin.v — C20, claim part: shape of the peg-in claim built by pegin.Claim
   (Model/Pegin.v) and its fee / value split. *)
From GE Require Import Lib.Bytes Lib.Varint Lib.Sha256 Model.Tx Model.Merkle Model.Pegin.
From Coq Require Import ZifyBool ZifyN ZifyNat.
Open Scope N_scope.

Lemma value_of_value_bytes v : v < two64 -> value_of (value_bytes v) = v.
Proof. intro Hv. unfold value_of, value_bytes. apply be_dec_enc. exact Hv. Qed.

(* SerializeValue is the 8-byte little-endian amount *)
Lemma serialize_value_le v : serialize_value v = le_enc 8 v.
Proof.
  unfold serialize_value, value_bytes. cbn [rev]. rewrite removelast_last.
  unfold be_enc. apply rev_involutive.
Qed.

Definition outs_sum (t : tx) : N := fold_right (fun o acc => value_of (o_value o) + acc) 0 (t_outs t).

Definition claim_dummy (input : txin) (asset cs : bytes) (amount : N) : tx :=
  mk_tx 2 0 0 [input] [claim_out0 asset cs amount; claim_out1 asset 0].

(* the two outputs of a claim: the amount less the fee, modulo 2^64, and the fee *)
Lemma claim_tx_sum input asset cs amount fee_of :
  let fee := fee_of (vsize (claim_dummy input asset cs amount)) in
  fee < two64 ->
  outs_sum (claim_tx input asset cs amount fee_of) = (amount + two64 - fee) mod two64 + fee.
Proof.
  intros fee Hf. unfold claim_tx. fold (claim_dummy input asset cs amount). fold fee.
  unfold outs_sum. cbn [t_outs fold_right claim_out0 claim_out1 o_value].
  rewrite !value_of_value_bytes; [lia|exact Hf|]. apply N.mod_lt. discriminate.
Qed.

(* fee <= amount: the two outputs add up to the pegged amount *)
Theorem claim_tx_outputs_sum input asset cs amount fee_of :
  amount < two64 -> fee_of (vsize (claim_dummy input asset cs amount)) <= amount ->
  outs_sum (claim_tx input asset cs amount fee_of) = amount.
Proof.
  intros Ha Hf. rewrite claim_tx_sum by lia.
  set (fee := fee_of _) in *. clearbody fee.
  replace (amount + two64 - fee) with ((amount - fee) + 1 * two64) by lia.
  rewrite N.mod_add by discriminate. rewrite N.mod_small; lia.
Qed.

(* fee > amount: the subtraction wraps modulo 2^64 and the outputs add up to amount + 2^64 *)
Theorem claim_tx_outputs_wrap input asset cs amount fee_of :
  amount < two64 ->
  amount < fee_of (vsize (claim_dummy input asset cs amount)) ->
  fee_of (vsize (claim_dummy input asset cs amount)) < two64 ->
  outs_sum (claim_tx input asset cs amount fee_of) = amount + two64.
Proof.
  intros Ha Hf Hf2. rewrite claim_tx_sum by exact Hf2.
  set (fee := fee_of _) in *. clearbody fee. rewrite N.mod_small; lia.
Qed.

(* Claim once the input is there: the guard on amount and fee, then the transaction *)
Lemma claim_eq asset genesis cs proof bv fee_of input amount :
  create_pegin_input asset genesis cs proof bv = PgOk (input, amount) ->
  claim asset genesis cs proof bv fee_of =
  if (0x8000000000000000 <=? amount) || (amount <? claim_fee input asset cs amount fee_of) then PgErr
  else PgOk (claim_tx input asset cs amount fee_of).
Proof. intro P. unfold claim. rewrite P. reflexivity. Qed.

Lemma claim_inv asset genesis cs proof bv fee_of t :
  claim asset genesis cs proof bv fee_of = PgOk t ->
  exists input amount,
    create_pegin_input asset genesis cs proof bv = PgOk (input, amount) /\
    amount < 0x8000000000000000 /\ claim_fee input asset cs amount fee_of <= amount /\
    t = claim_tx input asset cs amount fee_of.
Proof.
  destruct (create_pegin_input asset genesis cs proof bv) as [[input amount]| |] eqn:P;
    [rewrite (claim_eq _ _ _ _ _ _ _ _ P)|unfold claim; rewrite P; discriminate..].
  destruct (N.leb_spec 0x8000000000000000 amount); [discriminate|].
  destruct (N.ltb_spec amount (claim_fee input asset cs amount fee_of)); [discriminate|].
  intro E. injection E as <-. exists input, amount. auto.
Qed.

(* the output found pays the main-chain script; its index and value are returned *)
Lemma find_out_spec script : forall outs k acc idx amount,
  find_out outs script k acc = Some (idx, amount) ->
  acc = Some (idx, amount) \/
  exists i s, nth_error outs i = Some (amount, s) /\ s = script /\ idx = (k + N.of_nat i) mod two32.
Proof.
  induction outs as [|[v s] r IH]; intros k acc idx amount F; cbn [find_out] in F.
  - left. exact F.
  - apply IH in F as [F|[i [s' [Hn [Hs Hi]]]]].
    + destruct (bytes_eqb s script) eqn:Eb.
      * injection F as <- <-. right. exists 0%nat, s. apply bytes_eqb_eq in Eb.
        split; [reflexivity|]. split; [exact Eb|]. f_equal. lia.
      * left. exact F.
    + right. exists (S i), s'. split; [exact Hn|]. split; [exact Hs|]. rewrite Hi. f_equal. lia.
Qed.

(* an accepted claim: the proof's root is the header's, its one match is the bitcoin txid, the outpoint
   is the output that pays the main-chain script, six witness elements in order *)
Theorem claim_shape asset genesis cs proof bv fee_of t :
  claim asset genesis cs proof bv fee_of = PgOk t ->
  exists mb rest v idx amount a0 tail i,
    parse_merkle_block proof = Some (mb, rest) /\
    extract_mb mb = Some (header_root (mb_header mb), [bv_txid v]) /\     (* proof root = header root, one match = the bitcoin txid *)
    bv = Some v /\
    nth_error (bv_outs v) i = Some (amount, bv_main_script v) /\ idx = N.of_nat i mod two32 /\
    asset = a0 :: tail /\
    t_version t = 2 /\ t_locktime t = 0 /\
    t_ins t = [pegin_input (bv_txid v) idx
                 [le_enc 8 amount; tail; rev genesis; cs; bv_stripped v; proof]] /\
    (exists v0 v1, t_outs t = [claim_out0 asset cs v0; claim_out1 asset v1]) /\
    t = claim_tx (pegin_input (bv_txid v) idx [le_enc 8 amount; tail; rev genesis; cs; bv_stripped v; proof])
                 asset cs amount fee_of.
Proof.
  intro C. apply claim_inv in C as (input & amount & P & _ & _ & ->).
  unfold create_pegin_input in P.
  destruct (parse_merkle_block proof) as [[mb rest]|] eqn:Pm; [|discriminate].
  destruct (extract_mb mb) as [[root ms]|] eqn:Ex; [|discriminate].
  destruct (bytes_eqb (header_root (mb_header mb)) root) eqn:Er; cbn [negb] in P; [|discriminate].
  apply bytes_eqb_eq in Er. subst root.
  destruct bv as [v|]; [|discriminate].
  destruct ms as [|m0 [|m1 ms']]; try discriminate.
  destruct (bytes_eqb (bv_txid v) m0) eqn:Et; cbn [negb] in P; [|discriminate].
  apply bytes_eqb_eq in Et. subst m0.
  destruct (find_out (bv_outs v) (bv_main_script v) 0 None) as [[idx am]|] eqn:F; [|discriminate].
  destruct asset as [|a0 tail]; [discriminate|].
  injection P as <- <-. rewrite serialize_value_le.
  apply find_out_spec in F as [F|[i [s [Hn [Hs Hi]]]]]; [discriminate|]. subst s.
  exists mb, rest, v, idx, am, a0, tail, i.
  repeat split; try reflexivity; try assumption.
  unfold claim_tx. cbn [t_outs]. eexists. eexists. reflexivity.
Qed.

(* every accepted claim's outputs sum to the pegged amount *)
Theorem claim_outputs_sum asset genesis cs proof bv fee_of t :
  claim asset genesis cs proof bv fee_of = PgOk t ->
  exists input amount,
    create_pegin_input asset genesis cs proof bv = PgOk (input, amount) /\ outs_sum t = amount.
Proof.
  intro C. apply claim_inv in C as (input & amount & P & Ha & Hf & ->). exists input, amount.
  split; [exact P|]. apply claim_tx_outputs_sum; [unfold two64; lia | exact Hf].
Qed.

Definition ex_txid : bytes := repeat x07 32.
Definition ex_header : bytes := repeat x00 36 ++ ex_txid ++ repeat x00 12.
(* one-transaction block: count 1, one hash, one flag byte 0x01 *)
Definition ex_proof : bytes := ex_header ++ le_enc 4 1 ++ [x01] ++ ex_txid ++ [x01; x01].
Definition ex_script : bytes := [x00; x20] ++ repeat xaa 32.
Definition ex_view : btc_view := mk_bv ex_txid [x02; x00] [(5, [x51]); (1000, ex_script)] ex_script.
Definition ex_asset : bytes := x01 :: repeat x25 32.

Example claim_example :
  exists t, claim ex_asset (repeat x06 32) [x00; x14] ex_proof (Some ex_view) (fun vs => vs) = PgOk t /\
            outs_sum t = 1000 /\ (exists i, t_ins t = [i] /\ in_index i = 1 /\ in_hash i = ex_txid).
Proof. eexists. split; [vm_compute; reflexivity|]. split; [vm_compute; reflexivity|]. eexists. split; vm_compute; auto. Qed.

(* a fee above the pegged amount is refused *)
Example claim_fee_above_amount_refused :
  claim ex_asset (repeat x06 32) [x00; x14] ex_proof (Some ex_view) (fun _ => 2000) = PgErr.
Proof. vm_compute. reflexivity. Qed.

(* once the proof and the transaction are accepted, the claim is produced exactly when the amount is a
   non-negative int64 and the fee does not exceed it *)
Theorem claim_succeeds_iff asset genesis cs proof bv fee_of input amount :
  create_pegin_input asset genesis cs proof bv = PgOk (input, amount) ->
  (exists t, claim asset genesis cs proof bv fee_of = PgOk t) <->
  (amount < 0x8000000000000000 /\ claim_fee input asset cs amount fee_of <= amount).
Proof.
  intro P. rewrite (claim_eq _ _ _ _ _ fee_of _ _ P).
  destruct (N.leb_spec 0x8000000000000000 amount), (N.ltb_spec amount (claim_fee input asset cs amount fee_of));
    cbn [orb]; split; try (intros [t E]; discriminate E); try lia; eauto.
Qed.
