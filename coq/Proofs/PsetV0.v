(* Proofs/PsetV0.v — round-trip theorems for the PSET v0 codec (C08).  A section is read as the fold
   of its decode switch over well-framed key/value pairs (v0_fold).  Serialize-then-parse computes
   that fold segment by segment over what the encoder emits; parse-then-serialize rests on every
   step of the switch staying inside the wire domain.  The last part is the envelope of what the
   roles can build, on which the round trip loses nothing. *)
From GE Require Import Lib.Bytes Lib.Varint Model.Tx Proofs.TxCodec Model.PsetV0 Gen.PsetV0Consts.
From Coq Require Import ZifyBool ZifyN ZifyNat Permutation.
Open Scope N_scope.

(* the magic bytes are those of today's pset/pset.go *)
Definition v0_consts_tied : Prop :=
  map (fun b => Z.of_N (n8 b)) v0_magic = g_psbtMagic /\ Z.of_nat (length v0_magic) = g_psbtMagicLength.

(* the fields of an explicit input or output record, read or replaced *)
Ltac v0_fields :=
  cbn [vi_nwu vi_wu vi_sigs vi_sighash vi_redeem vi_wscript vi_ders vi_fsig vi_fwit vi_unk
       v0_set_nwu v0_set_wu v0_set_sigs v0_set_sighash v0_set_redeem v0_set_wscript v0_set_ders v0_set_fsig v0_set_fwit v0_set_unk
       vo_redeem vo_wscript vo_ders] in *.

(* a conjunction of boolean tests: as hypothesis, one hypothesis per test; as goal, one goal per test *)
Ltac btrue :=
  repeat match goal with
  | H : _ && _ = true |- _ => apply andb_true_iff in H; destruct H
  end.
Ltac bsplit := repeat match goal with |- _ && _ = true => apply andb_true_intro; split end.

Lemma existsb_map_c {A B} (f : B -> bool) (g : A -> B) l : existsb f (map g l) = existsb (fun x => f (g x)) l.
Proof. induction l as [|a l IH]; cbn; [reflexivity | rewrite IH; reflexivity]. Qed.

Lemma bytes_eqb_refl a : bytes_eqb a a = true.
Proof. apply bytes_eqb_eq; reflexivity. Qed.

Lemma forallb_In {A} (f : A -> bool) l x : forallb f l = true -> In x l -> f x = true.
Proof. intro H. apply forallb_forall. exact H. Qed.

Lemma forallb_impl {A} (f g : A -> bool) l : (forall x, f x = true -> g x = true) -> forallb f l = true -> forallb g l = true.
Proof. intros H W. apply forallb_forall. intros x Hx. apply H. apply (forallb_In f l x W Hx). Qed.
Lemma forallb_const {A B} (f : B -> bool) (b : B) (l : list A) : f b = true -> forallb f (map (fun _ => b) l) = true.
Proof. intro H. induction l; cbn; [reflexivity | rewrite H; assumption]. Qed.
Lemma forallb_replace {A} (f : A -> bool) a x y b :
  (f x = true -> f y = true) -> forallb f (a ++ x :: b) = true -> forallb f (a ++ y :: b) = true.
Proof. intro H. rewrite !forallb_app. cbn [forallb]. intro W. btrue. bsplit; auto. Qed.

Lemma forallb_Forall_map {A B} (f : A -> bool) (g : A -> B) (P : B -> Prop) l :
  (forall a, f a = true -> P (g a)) -> forallb f l = true -> Forall P (map g l).
Proof.
  intros H W. apply Forall_forall. intros y Hy. apply in_map_iff in Hy as [a [<- Ha]].
  apply H. apply (forallb_In f l a W Ha).
Qed.

Lemma Forall2_map {A B C} (R : B -> C -> Prop) (f : A -> B) (g : A -> C) l :
  (forall a, In a l -> R (f a) (g a)) -> Forall2 R (map f l) (map g l).
Proof.
  induction l as [|a l IH]; intro H; cbn [map]; constructor.
  - apply H. left. reflexivity.
  - apply IH. intros b Hb. apply H. right. exact Hb.
Qed.
Lemma Forall2_length {A B} {R : A -> B -> Prop} {l l'} : Forall2 R l l' -> length l = length l'.
Proof. induction 1 as [|a b l l' _ _ IH]; [reflexivity | cbn [length]; rewrite IH; reflexivity]. Qed.
Lemma Forall2_map_r {A B} (R : A -> B -> Prop) (f : A -> B) l : (forall a, In a l -> R a (f a)) -> Forall2 R l (map f l).
Proof. intro H. rewrite <- (map_id l) at 1. apply Forall2_map. exact H. Qed.

(* stated for a variable x: converting [v0_len_ok max x] into [lenN x <=? max] in place, with a
   serialization for x, sends the kernel into the length of that serialization *)
Lemma v0_len_ok_le max x : v0_len_ok max x = true <-> lenN x <= max.
Proof. apply N.leb_le. Qed.

Section NoDupB.
Context {A : Type} (eqb : A -> A -> bool) (eqb_spec : forall a b, eqb a b = true <-> a = b).

Lemma nodupb_NoDup l : v0_nodupb eqb l = true <-> NoDup l.
Proof.
  induction l as [|x l IH]; cbn [v0_nodupb].
  - split; [constructor | reflexivity].
  - rewrite andb_true_iff, negb_true_iff, IH. split.
    + intros [H1 H2]. constructor; [|exact H2]. intro Hin.
      assert (existsb (eqb x) l = true) as E; [|congruence].
      apply existsb_exists. exists x. split; [exact Hin | apply eqb_spec; reflexivity].
    + intro N. inversion N as [|? ? Hn Hd]; subst. split; [|exact Hd].
      destruct (existsb (eqb x) l) eqn:E; [|reflexivity].
      apply existsb_exists in E as [y [Hy Ey]]. apply eqb_spec in Ey. subst y. contradiction.
Qed.

Lemma nodupb_mid a x l : v0_nodupb eqb (a ++ x :: l) = true -> existsb (fun y => eqb y x) a = false.
Proof.
  induction a as [|y a IH]; cbn [app v0_nodupb existsb]; [reflexivity|].
  intro H. apply andb_true_iff in H as [H1 H2]. apply negb_true_iff in H1.
  rewrite existsb_app in H1. cbn [existsb] in H1. apply orb_false_iff in H1 as [_ H1].
  apply orb_false_iff in H1 as [H1 _]. rewrite H1, (IH H2). reflexivity.
Qed.

Lemma nodupb_snoc l x :
  v0_nodupb eqb l = true -> existsb (fun y => eqb y x) l = false -> v0_nodupb eqb (l ++ [x]) = true.
Proof.
  induction l as [|y l IH]; cbn [app v0_nodupb existsb]; [reflexivity|].
  intros H E. apply andb_true_iff in H as [H1 H2]. apply orb_false_iff in E as [E1 E2].
  rewrite existsb_app. cbn [existsb]. apply negb_true_iff in H1. rewrite H1, E1. cbn. apply IH; assumption.
Qed.
End NoDupB.

Lemma unk_eqb_spec a b : v0_unk_eqb a b = true <-> a = b.
Proof.
  destruct a as [k1 v1], b as [k2 v2]. unfold v0_unk_eqb. cbn [uk_key uk_val].
  rewrite andb_true_iff, !bytes_eqb_eq. split; [intros [-> ->]; reflexivity | intro H; inversion H; auto].
Qed.

Lemma v0_insert_perm {A} (key : A -> bytes) a l : Permutation (v0_insert key a l) (a :: l).
Proof.
  induction l as [|y l IH]; cbn [v0_insert]; [apply Permutation_refl|].
  destruct (v0_bytes_ltb (key y) (key a)); [|apply Permutation_refl].
  eapply perm_trans; [apply perm_skip; exact IH | apply perm_swap].
Qed.
Lemma v0_sort_perm {A} (key : A -> bytes) l : Permutation (v0_sort key l) l.
Proof. apply fold_insert_perm, v0_insert_perm. Qed.
Lemma v0_sort_sorted {A} (key : A -> bytes) l : v0_sortedb key l = true -> v0_sort key l = l.
Proof.
  induction l as [|a l IH]; [reflexivity|]. cbn [v0_sortedb]. intro H. apply andb_true_iff in H as [H1 H2].
  cbn [v0_sort fold_right]. fold (v0_sort key l). rewrite (IH H2).
  destruct l as [|b l]; [reflexivity|]. cbn [v0_insert]. apply negb_true_iff in H1. rewrite H1. reflexivity.
Qed.
Lemma v0_sort_forallb {A} (key : A -> bytes) f l : forallb f l = true -> forallb f (v0_sort key l) = true.
Proof.
  intro H. apply forallb_forall. intros x Hx. apply (forallb_In f l x H).
  apply (Permutation_in x (v0_sort_perm key l) Hx).
Qed.
Lemma v0_sort_nodupb {A} (key : A -> bytes) l :
  v0_nodupb bytes_eqb (map key l) = true -> v0_nodupb bytes_eqb (map key (v0_sort key l)) = true.
Proof.
  rewrite !(nodupb_NoDup bytes_eqb bytes_eqb_eq). apply Permutation_NoDup.
  apply Permutation_map, Permutation_sym, v0_sort_perm.
Qed.

(* what the parser asks of one key/value pair *)
Definition v0_wf_kvp (kv : bytes * bytes) : Prop :=
  1 <= lenN (fst kv) /\ lenN (fst kv) <= v0_MaxKeyLen /\ lenN (snd kv) <= v0_MaxValLen.

Lemma v0_p_key_sep r : v0_p_key (v0_sep ++ r) = Some (None, r).
Proof. reflexivity. Qed.

Lemma v0_p_key_app k r : 1 <= lenN k -> lenN k <= v0_MaxKeyLen -> v0_p_key (var_slice k ++ r) = Some (Some k, r).
Proof.
  intros H1 H2. unfold v0_p_key, var_slice, bind, v0_MaxKeyLen in *. rewrite <- app_assoc.
  rewrite p_varint_app by (unfold two64; lia).
  destruct (N.eqb_spec (lenN k) 0); [lia|]. destruct (N.ltb_spec 10000 (lenN k)); [lia|].
  unfold lenN. rewrite takeN_app. reflexivity.
Qed.

Lemma v0_p_val_app v r : lenN v <= v0_MaxValLen -> v0_p_val (var_slice v ++ r) = Some (v, r).
Proof.
  intro H. unfold v0_p_val, var_slice, bind, v0_MaxValLen in *. rewrite <- app_assoc.
  rewrite p_varint_app by (unfold two64; lia).
  destruct (N.ltb_spec 4000000 (lenN v)); [lia|]. unfold lenN. apply takeN_app.
Qed.

Lemma v0_p_key_inv bs k r : v0_p_key bs = Some (Some k, r) ->
  bs = var_slice k ++ r /\ 1 <= lenN k /\ lenN k <= v0_MaxKeyLen.
Proof.
  unfold v0_p_key, bind. destruct (p_varint bs) as [[n r0]|] eqn:P; [|discriminate].
  apply p_varint_inv in P as [-> Hn].
  destruct (N.eqb_spec n 0); [discriminate|]. unfold v0_MaxKeyLen.
  destruct (N.ltb_spec 10000 n); [discriminate|].
  destruct (takeN n r0) as [[k' r']|] eqn:T; [|discriminate]. intro HH; inversion HH; subst.
  apply takeN_inv in T as [-> E]. unfold var_slice, lenN. rewrite <- app_assoc, E. repeat split; lia.
Qed.

Lemma v0_p_key_inv_sep bs r : v0_p_key bs = Some (None, r) -> bs = v0_sep ++ r.
Proof.
  unfold v0_p_key, bind. destruct (p_varint bs) as [[n r0]|] eqn:P; [|discriminate].
  apply p_varint_inv in P as [-> Hn].
  destruct (N.eqb_spec n 0) as [->|].
  - intro HH; inversion HH; subst. reflexivity.
  - destruct (v0_MaxKeyLen <? n); [discriminate|]. destruct (takeN n r0) as [[k' r']|]; discriminate.
Qed.

Lemma v0_p_val_inv bs v r : v0_p_val bs = Some (v, r) -> bs = var_slice v ++ r /\ lenN v <= v0_MaxValLen.
Proof.
  unfold v0_p_val, bind. destruct (p_varint bs) as [[n r0]|] eqn:P; [|discriminate].
  apply p_varint_inv in P as [-> Hn]. unfold v0_MaxValLen.
  destruct (N.ltb_spec 4000000 n); [discriminate|]. intro T.
  apply takeN_inv in T as [-> E]. unfold var_slice, lenN. rewrite <- app_assoc, E. split; [reflexivity | lia].
Qed.

Lemma v0_ser_section_length l : (length l < length (v0_ser_section l))%nat.
Proof.
  unfold v0_ser_section. rewrite app_length. cbn [v0_sep length].
  assert (H : (length l <= length (enc_list v0_kv l))%nat); [|lia].
  apply enc_list_length_ge. intros a _ E. apply app_eq_nil in E as [E _]. exact (var_slice_nonempty _ E).
Qed.

Section Framing.
Context {St : Type} (step : St -> bytes -> bytes -> option St).

Fixpoint v0_fold (st : St) (l : list (bytes * bytes)) : option St :=
  match l with
  | [] => Some st
  | kv :: r => match step st (fst kv) (snd kv) with Some st' => v0_fold st' r | None => None end
  end.

Lemma v0_p_section_app l :
  Forall v0_wf_kvp l -> forall st st' fuel rest,
  v0_fold st l = Some st' -> (length l < fuel)%nat ->
  v0_p_section step fuel st (v0_ser_section l ++ rest) = Some (st', rest).
Proof.
  unfold v0_ser_section. induction 1 as [|kv l [K1 [K2 K3]] _ IH]; intros st st' fuel rest F L.
  - cbn in F. inversion F; subst. destruct fuel as [|f]; [cbn in L; lia|]. reflexivity.
  - destruct fuel as [|f]; [cbn in L; lia|]. cbn [v0_fold] in F.
    destruct (step st (fst kv) (snd kv)) as [st1|] eqn:S1; [|discriminate].
    unfold enc_list. cbn [map concat v0_p_section]. unfold v0_kv at 1. rewrite <- !app_assoc.
    rewrite v0_p_key_app by assumption. rewrite v0_p_val_app by assumption. rewrite S1.
    fold (enc_list v0_kv l). rewrite app_assoc. apply IH; [exact F | cbn [length] in L; lia].
Qed.

Lemma v0_section_app l st st' rest :
  Forall v0_wf_kvp l -> v0_fold st l = Some st' ->
  v0_section step st (v0_ser_section l ++ rest) = Some (st', rest).
Proof.
  intros W F. unfold v0_section. apply v0_p_section_app; [exact W | exact F|].
  rewrite app_length. pose proof (v0_ser_section_length l). lia.
Qed.

Lemma v0_p_section_inv fuel :
  forall st bs st' rest, v0_p_section step fuel st bs = Some (st', rest) ->
  exists l, v0_fold st l = Some st' /\ Forall v0_wf_kvp l /\ bs = v0_ser_section l ++ rest /\ (length l < fuel)%nat.
Proof.
  induction fuel as [|f IH]; intros st bs st' rest H; cbn [v0_p_section] in H; [discriminate|].
  destruct (v0_p_key bs) as [[[k|] r]|] eqn:K; [| |discriminate].
  - destruct (v0_p_val r) as [[v r']|] eqn:V; [|discriminate].
    destruct (step st k v) as [st1|] eqn:S1; [|discriminate].
    apply v0_p_key_inv in K as [-> [K1 K2]]. apply v0_p_val_inv in V as [-> V1].
    apply IH in H as [l [F [W [-> L]]]]. exists ((k, v) :: l). cbn [v0_fold fst snd length]. rewrite S1.
    split; [exact F|]. split; [constructor; [repeat split; assumption | exact W]|]. split; [|lia].
    unfold v0_ser_section, enc_list. cbn [map concat].
    change (v0_kv (k, v)) with (var_slice k ++ var_slice v). rewrite <- !app_assoc. reflexivity.
  - inversion H; subst. apply v0_p_key_inv_sep in K as ->. exists []. repeat split; [constructor | cbn; lia].
Qed.

Lemma v0_section_inv st bs st' rest :
  v0_section step st bs = Some (st', rest) ->
  exists l, v0_fold st l = Some st' /\ Forall v0_wf_kvp l /\ bs = v0_ser_section l ++ rest.
Proof. intro H. apply v0_p_section_inv in H as (l & F & W & E & _). exists l. repeat split; assumption. Qed.

(* the fuel handed out by v0_section is never exhausted: a success is kept by any fuel above the
   length of the input, so any two such fuels agree *)
Lemma v0_p_section_fuel f1 :
  forall f2 st bs, (length bs < f1)%nat -> (length bs < f2)%nat ->
  v0_p_section step f1 st bs = v0_p_section step f2 st bs.
Proof.
  intros f2 st bs L1 L2.
  assert (M : forall f f' y, (length bs < f')%nat -> v0_p_section step f st bs = Some y -> v0_p_section step f' st bs = Some y).
  { intros f f' [x r] L H. apply v0_p_section_inv in H as (l & F & W & -> & _).
    apply v0_p_section_app; [exact W | exact F|].
    rewrite app_length in L. pose proof (v0_ser_section_length l). lia. }
  destruct (v0_p_section step f1 st bs) as [y|] eqn:E1.
  - symmetry. apply (M f1); assumption.
  - destruct (v0_p_section step f2 st bs) as [y|] eqn:E2; [|reflexivity].
    rewrite (M f2 f1 y L1 E2) in E1. discriminate.
Qed.

(* The decode switch run over what the encoder emits: each lemma consumes one segment of the emitted
   pairs and hands the rest of the fold on; [set] is the field the segment decodes into. *)
Lemma seg_val {X} (kv : X -> bytes * bytes) (nrm : X -> X)
      (set : St -> option X -> St) st (x : option X) rest :
  (forall y, x = Some y -> step st (fst (kv y)) (snd (kv y)) = Some (set st (Some (nrm y)))) -> set st None = st ->
  v0_fold st (match x with Some y => [kv y] | None => [] end ++ rest) = v0_fold (set st (option_map nrm x)) rest.
Proof.
  intros S N. destruct x as [y|]; cbn [app v0_fold option_map].
  - rewrite (S y eq_refl). reflexivity.
  - rewrite N. reflexivity.
Qed.

Lemma seg_opt (get : St -> option bytes) (set : St -> option bytes -> St) ty :
  (forall s, set s (get s) = s) -> (forall s v, get s = None -> step s [b8 ty] v = Some (set s (Some v))) ->
  forall st x rest, get st = None -> v0_fold st (v0_opt_kv ty x ++ rest) = v0_fold (set st x) rest.
Proof.
  intros SG S st x rest N. destruct x as [v|]; cbn [v0_opt_kv app v0_fold fst snd].
  - rewrite (S st v N). reflexivity.
  - rewrite <- N, SG. reflexivity.
Qed.

(* a list field of the state, read by [get] and replaced by [set] *)
Definition v0_lens {E} (get : St -> list E) (set : St -> list E -> St) : Prop :=
  (forall st l, get (set st l) = l) /\ (forall st a b, set (set st a) b = set st b) /\ (forall st, set st (get st) = st).

(* a list field: every element passes its test and the duplicate test against what is already there *)
Lemma seg_list {E K} (kv : E -> bytes * bytes)
      (get : St -> list E) (set : St -> list E -> St) (key : E -> K) (eqb : K -> K -> bool) (ok : E -> bool) :
  v0_lens get set ->
  (forall st x, ok x = true -> existsb (fun y => eqb y (key x)) (map key (get st)) = false ->
                step st (fst (kv x)) (snd (kv x)) = Some (set st (get st ++ [x]))) ->
  forall l st rest, forallb ok l = true -> v0_nodupb eqb (map key (get st ++ l)) = true ->
  v0_fold st (map kv l ++ rest) = v0_fold (set st (get st ++ l)) rest.
Proof.
  intros (GS & SS & SG) S. induction l as [|x l IH]; intros st rest W N.
  - rewrite app_nil_r, SG. reflexivity.
  - cbn [forallb] in W. apply andb_true_iff in W as [Wx W]. rewrite map_app in N. cbn [map] in N.
    cbn [map app v0_fold]. rewrite (S st x Wx (nodupb_mid eqb _ _ _ N)).
    rewrite IH; [| exact W | rewrite GS, <- app_assoc, map_app; exact N].
    rewrite GS, SS, <- app_assoc. reflexivity.
Qed.

(* the well-framed pairs kvs, read by the decode switch from the state st, give a *)
Definition v0_reads (st : St) (kvs : list (bytes * bytes)) (a : St) : Prop :=
  Forall v0_wf_kvp kvs /\ v0_fold st kvs = Some a.

Lemma v0_sections_app {X} st0 ls l :
  Forall2 (v0_reads st0) ls l -> forall (xs : list X) rest, length ls = length xs ->
  v0_sections (v0_section step st0) xs (concat (map v0_ser_section ls) ++ rest) = Some (l, rest).
Proof.
  induction 1 as [|k a ls l [W F] _ IH]; intros [|x xs] rest L; try discriminate; [reflexivity|].
  cbn [map concat v0_sections]. unfold bind. rewrite <- app_assoc, (v0_section_app k st0 a _ W F).
  rewrite IH by (cbn [length] in L; lia). reflexivity.
Qed.

Lemma v0_sections_inv {X} st0 (xs : list X) : forall bs l rest,
  v0_sections (v0_section step st0) xs bs = Some (l, rest) ->
  exists ls, length ls = length xs /\ bs = concat (map v0_ser_section ls) ++ rest /\ Forall2 (v0_reads st0) ls l.
Proof.
  induction xs as [|x xs IH]; intros bs l rest; cbn [v0_sections]; unfold bind, ret.
  - intro H. inversion H; subst. exists []. repeat split; constructor.
  - destruct (v0_section step st0 bs) as [[a r]|] eqn:P; [|discriminate].
    destruct (v0_sections _ xs r) as [[b r']|] eqn:E; [|discriminate]. intro H; inversion H; subst.
    apply v0_section_inv in P as (k & F & W & ->). apply IH in E as (ls & L & -> & R).
    exists (k :: ls). cbn [length map concat]. rewrite <- app_assoc.
    repeat split; [lia | constructor; [split; assumption | exact R]].
Qed.

Lemma v0_reads_inv (P : St -> Prop) :
  (forall st k v st', P st -> v0_wf_kvp (k, v) -> step st k v = Some st' -> P st') ->
  forall l st st', P st -> v0_reads st l st' -> P st'.
Proof.
  intros Hs. induction l as [|[k v] l IH]; intros st st' Pst [W F]; cbn [v0_fold fst snd] in F.
  - inversion F; subst; exact Pst.
  - inversion W as [|? ? Wk Wl]; subst. destruct (step st k v) as [st1|] eqn:S1; [|discriminate].
    apply (IH st1 st' (Hs _ _ _ _ Pst Wk S1)). split; assumption.
Qed.

Lemma v0_reads_all (Q : St -> bool) st0 :
  (forall st k v st', Q st = true -> v0_wf_kvp (k, v) -> step st k v = Some st' -> Q st' = true) -> Q st0 = true ->
  forall ls l, Forall2 (v0_reads st0) ls l -> forallb Q l = true.
Proof.
  intros Hs H0 ls l F. induction F as [|k a ls l R _ IH]; [reflexivity|]. cbn [forallb].
  rewrite IH, (v0_reads_inv (fun s => Q s = true) Hs k st0 a H0 R). reflexivity.
Qed.

End Framing.

Lemma v0_read_txout_ser o :
  wf_out o = true -> v0_wufloor o = true -> v0_read_txout (v0_ser_wu o) = Some (v0_norm_wu o).
Proof.
  intros W L. unfold v0_read_txout. unfold v0_wufloor in L.
  destruct (Nat.ltb_spec (length (v0_ser_wu o)) v0_MinTxOutLen) as [Hlt|Hge]; [lia|].
  pose proof (wf_out_slices o W) as [Hrp Hsp].
  unfold v0_ser_wu, bind. rewrite (p_out_app o _ W).
  change (v0_is_conf (strip_out o)) with (v0_is_conf o). unfold v0_norm_wu.
  destruct (v0_is_conf o).
  - rewrite p_var_slice_app by exact Hsp.
    rewrite <- (app_nil_r (var_slice (o_rp o))). rewrite p_var_slice_app by exact Hrp.
    unfold ret. destruct o; reflexivity.
  - unfold ret. reflexivity.
Qed.

Lemma v0_read_txout_inv v o : v0_read_txout v = Some o ->
  wf_out o = true /\ exists rest, v = v0_ser_wu o ++ rest.
Proof.
  unfold v0_read_txout. destruct (length v <? v0_MinTxOutLen)%nat; [discriminate|]. unfold bind.
  destruct (p_out v) as [[o1 r1]|] eqn:P; [|discriminate].
  apply p_out_inv in P as [-> [W1 _]].
  destruct (v0_is_conf o1) eqn:C.
  - destruct (p_var_slice r1) as [[sp r2]|] eqn:P2; [|discriminate].
    destruct (p_var_slice r2) as [[rp r3]|] eqn:P3; [|discriminate].
    unfold ret. intro HH; inversion HH; subst.
    apply p_var_slice_inv in P2 as [-> Hsp]. apply p_var_slice_inv in P3 as [-> Hrp].
    apply wf_out_parts in W1 as (A1 & A2 & A3 & A4 & _).
    split.
    + apply wf_out_iff. proj_out. repeat split; assumption.
    + exists r3. unfold v0_ser_wu, v0_is_conf in *. proj_out.
      rewrite C. unfold ser_out. proj_out. rewrite <- !app_assoc. reflexivity.
  - unfold ret. intro HH; inversion HH; subst. split; [exact W1|].
    exists r1. unfold v0_ser_wu. rewrite C, app_nil_r. reflexivity.
Qed.

Lemma v0_words_enc l : forallb (fun x => x <? two32) l = true -> v0_words (concat (map (le_enc 4) l)) = Some l.
Proof.
  induction l as [|x l IH]; [reflexivity|]. cbn [forallb map concat].
  intro H. apply andb_true_iff in H as [Hx H]. apply N.ltb_lt in Hx. specialize (IH H).
  change (le_enc 4 x) with [b8 x; b8 (x / 256); b8 (x / 256 / 256); b8 (x / 256 / 256 / 256)].
  cbn [app v0_words]. rewrite IH.
  change [b8 x; b8 (x / 256); b8 (x / 256 / 256); b8 (x / 256 / 256 / 256)] with (le_enc 4 x).
  rewrite le_dec_enc by exact Hx. reflexivity.
Qed.

Local Opaque le_dec.
Lemma v0_words_inv : forall l v, v0_words v = Some l ->
  concat (map (le_enc 4) l) = v /\ forallb (fun x => x <? two32) l = true.
Proof.
  induction l as [|x l IH]; intros [|a [|b [|c [|d r]]]] H; cbn [v0_words] in H; try discriminate.
  - split; reflexivity.
  - destruct (v0_words r); discriminate.
  - destruct (v0_words r) as [l'|] eqn:E; [|discriminate]. inversion H; subst.
    apply IH in E as [E1 E2]. cbn [map concat forallb]. rewrite E1, E2, andb_true_r. split.
    + pose proof (le_enc_dec [a; b; c; d]) as R. cbn [length] in R. rewrite R. reflexivity.
    + apply N.ltb_lt. apply (le_dec_bound [a; b; c; d]).
Qed.
Local Transparent le_dec.

(* the value of a derivation is the word list fingerprint :: path *)
Lemma v0_read_bip32_ser d : forallb (fun x => x <? two32) (dv_fp d :: dv_path d) = true ->
  v0_read_bip32 (v0_ser_bip32 d) = Some (dv_fp d, dv_path d).
Proof.
  intro H. unfold v0_read_bip32, v0_ser_bip32.
  change (le_enc 4 (dv_fp d) ++ concat (map (le_enc 4) (dv_path d)))
    with (concat (map (le_enc 4) (dv_fp d :: dv_path d))).
  rewrite (v0_words_enc _ H). reflexivity.
Qed.

Lemma v0_read_bip32_inv v fp path : v0_read_bip32 v = Some (fp, path) ->
  v0_ser_bip32 (mk_v0der [] fp path) = v /\ forallb (fun x => x <? two32) (fp :: path) = true.
Proof.
  unfold v0_read_bip32. destruct (v0_words v) as [[|a l]|] eqn:E; try discriminate.
  intro HH; inversion HH; subst. exact (v0_words_inv _ _ E).
Qed.

Lemma v0_parse_tx_value_ser t : wf_tx t = true -> v0_parse_tx_value (ser_full t) = Some (norm_tx t).
Proof.
  intro W. unfold v0_parse_tx_value. rewrite <- (app_nil_r (ser_full t)).
  rewrite (tx_parse_ser t [] W). reflexivity.
Qed.

Section Fwd.
Variable valid_pk valid_sig : bytes -> bool.
Notation in_step := (v0_in_step valid_pk valid_sig).
Notation out_step := (v0_out_step valid_pk).

Lemma set_sigs_set st a b : v0_set_sigs (v0_set_sigs st a) b = v0_set_sigs st b. Proof. reflexivity. Qed.

Lemma step_nwu st t : vi_nwu st = None -> wf_tx t = true ->
  in_step st [b8 v0_T_NonWitnessUtxo] (ser_full t) = Some (v0_set_nwu st (Some (norm_tx t))).
Proof. intros H W. unfold v0_in_step. rewrite H, (v0_parse_tx_value_ser t W). reflexivity. Qed.
Lemma step_wu st o : vi_wu st = None -> wf_out o = true -> v0_wufloor o = true ->
  in_step st [b8 v0_T_WitnessUtxo] (v0_ser_wu o) = Some (v0_set_wu st (Some (v0_norm_wu o))).
Proof. intros H W L. unfold v0_in_step. rewrite H, (v0_read_txout_ser o W L). reflexivity. Qed.
Lemma step_sighash st x : vi_sighash st = 0 -> x < two32 ->
  in_step st [b8 v0_T_Sighash] (le_enc 4 x) = Some (v0_set_sighash st x).
Proof. intros H W. unfold v0_in_step. rewrite H, le_enc_length, le_dec_enc by exact W. reflexivity. Qed.

Lemma step_redeem st v : vi_redeem st = None -> in_step st [b8 v0_T_RedeemScript] v = Some (v0_set_redeem st (Some v)).
Proof. intro H. unfold v0_in_step. rewrite H. reflexivity. Qed.
Lemma step_wscript st v : vi_wscript st = None -> in_step st [b8 v0_T_WitnessScript] v = Some (v0_set_wscript st (Some v)).
Proof. intro H. unfold v0_in_step. rewrite H. reflexivity. Qed.
Lemma step_fsig st v : vi_fsig st = None -> in_step st [b8 v0_T_FinalScriptSig] v = Some (v0_set_fsig st (Some v)).
Proof. intro H. unfold v0_in_step. rewrite H. reflexivity. Qed.
Lemma step_fwit st v : vi_fwit st = None -> in_step st [b8 v0_T_FinalScriptWitness] v = Some (v0_set_fwit st (Some v)).
Proof. intro H. unfold v0_in_step. rewrite H. reflexivity. Qed.

Lemma wf_der_vals d : v0_wf_der valid_pk d = true ->
  valid_pk (dv_pk d) = true /\ forallb (fun x => x <? two32) (dv_fp d :: dv_path d) = true.
Proof.
  unfold v0_wf_der. rewrite !andb_true_iff. intros [[[[A _] B] C] _].
  cbn [forallb]. rewrite B, C. split; [exact A | reflexivity].
Qed.

Lemma sigs_lens : v0_lens vi_sigs v0_set_sigs. Proof. repeat split; intros []; reflexivity. Qed.
Lemma ders_lens : v0_lens vi_ders v0_set_ders. Proof. repeat split; intros []; reflexivity. Qed.
Lemma unk_lens : v0_lens vi_unk v0_set_unk. Proof. repeat split; intros []; reflexivity. Qed.
Lemma out_ders_lens : v0_lens vo_ders (fun o l => mk_v0out (vo_redeem o) (vo_wscript o) l).
Proof. repeat split; intros []; reflexivity. Qed.
Lemma set_redeem_id st : v0_set_redeem st (vi_redeem st) = st. Proof. destruct st; reflexivity. Qed.
Lemma set_wscript_id st : v0_set_wscript st (vi_wscript st) = st. Proof. destruct st; reflexivity. Qed.
Lemma set_fsig_id st : v0_set_fsig st (vi_fsig st) = st. Proof. destruct st; reflexivity. Qed.
Lemma set_fwit_id st : v0_set_fwit st (vi_fwit st) = st. Proof. destruct st; reflexivity. Qed.

Lemma step_sig st s : v0_wf_sig valid_pk valid_sig s = true ->
  existsb (fun y => bytes_eqb y (sg_pk s)) (map sg_pk (vi_sigs st)) = false ->
  in_step st (fst (v0_sig_kv s)) (snd (v0_sig_kv s)) = Some (v0_set_sigs st (vi_sigs st ++ [s])).
Proof.
  intros W E. rewrite existsb_map_c in E. unfold v0_wf_sig in W. rewrite !andb_true_iff in W.
  destruct W as [[[V1 V2] _] _]. destruct s as [pk sg]. cbn [sg_pk sg_sig v0_sig_kv fst snd] in *.
  unfold v0_in_step. rewrite V1, V2, E. reflexivity.
Qed.

Lemma step_der st d : v0_wf_der valid_pk d = true ->
  existsb (fun y => bytes_eqb y (dv_pk d)) (map dv_pk (vi_ders st)) = false ->
  in_step st (fst (v0_der_kv v0_T_Bip32 d)) (snd (v0_der_kv v0_T_Bip32 d)) = Some (v0_set_ders st (vi_ders st ++ [d])).
Proof.
  intros W E. rewrite existsb_map_c in E. apply wf_der_vals in W as [V1 V2].
  unfold v0_in_step. cbn [v0_der_kv fst snd]. rewrite V1, (v0_read_bip32_ser d V2), E. destruct d; reflexivity.
Qed.

Lemma step_out_der o d : v0_wf_der valid_pk d = true ->
  existsb (fun y => bytes_eqb y (dv_pk d)) (map dv_pk (vo_ders o)) = false ->
  out_step o (fst (v0_der_kv v0_TO_Bip32 d)) (snd (v0_der_kv v0_TO_Bip32 d)) =
  Some (mk_v0out (vo_redeem o) (vo_wscript o) (vo_ders o ++ [d])).
Proof.
  intros W E. rewrite existsb_map_c in E. apply wf_der_vals in W as [V1 V2].
  unfold v0_out_step. cbn [v0_der_kv fst snd]. rewrite V1, (v0_read_bip32_ser d V2), E. destruct d; reflexivity.
Qed.

Lemma eqb_above x c : v0_known_in_type x = false -> v0_known_in_type c = true -> (x =? c) = false.
Proof. unfold v0_known_in_type. intros H1 H2. lia. Qed.

Lemma step_unk st u : v0_wf_unk u = true ->
  existsb (fun y => v0_unk_eqb y u) (map (fun y => y) (vi_unk st)) = false ->
  in_step st (fst (v0_unk_kv u)) (snd (v0_unk_kv u)) = Some (v0_set_unk st (vi_unk st ++ [u])).
Proof.
  intros W E. rewrite map_id in E. unfold v0_wf_unk in W. rewrite !andb_true_iff in W. destruct W as [[Wk _] _].
  destruct u as [[|tb kd] v]; [discriminate|]. apply negb_true_iff in Wk.
  unfold v0_unk_eqb in E. cbn [uk_key uk_val v0_unk_kv fst snd] in *.
  unfold v0_in_step. rewrite !(eqb_above (n8 tb) _ Wk) by reflexivity. rewrite E. reflexivity.
Qed.

Lemma seg_sighash st x rest : vi_sighash st = 0 -> x < two32 ->
  v0_fold in_step st ((if x =? 0 then [] else [([b8 v0_T_Sighash], le_enc 4 x)]) ++ rest)
  = v0_fold in_step (v0_set_sighash st x) rest.
Proof.
  intros H W. destruct (N.eqb_spec x 0) as [->|]; cbn [app v0_fold fst snd].
  - rewrite <- H. destruct st; reflexivity.
  - rewrite (step_sighash st x H W). reflexivity.
Qed.

Lemma in_fold i : v0_wf_in_core valid_pk valid_sig i = true -> v0_wufloor_in i = true ->
  v0_fold in_step v0_in_empty (v0_in_kvs i) = Some (v0_norm_in i).
Proof.
  destruct i as [nwu wu sigs sh rd ws ders fs fw unk].
  unfold v0_wf_in_core, v0_wufloor_in, v0_in_kvs, v0_norm_in.
  v0_fields.
  intros W L. btrue.
  rewrite (seg_val in_step (fun t => ([b8 v0_T_NonWitnessUtxo], ser_full t)) norm_tx v0_set_nwu); [| | reflexivity].
  2:{ intros t ->. unfold v0_wf_nwu in *. btrue. apply step_nwu; [reflexivity | assumption]. }
  rewrite (seg_val in_step (fun o => ([b8 v0_T_WitnessUtxo], v0_ser_wu o)) v0_norm_wu v0_set_wu); [| | reflexivity].
  2:{ intros o ->. unfold v0_wf_wu in *. btrue. apply step_wu; [reflexivity | assumption | assumption]. }
  rewrite <- (app_nil_r (map v0_unk_kv unk)).
  destruct (v0_finalized _); cbn [app].
  - rewrite (seg_opt in_step vi_fsig v0_set_fsig _ set_fsig_id step_fsig), (seg_opt in_step vi_fwit v0_set_fwit _ set_fwit_id step_fwit) by reflexivity.
    rewrite (seg_list in_step v0_unk_kv _ _ (fun y => y) v0_unk_eqb _ unk_lens step_unk) by (try rewrite map_id; assumption).
    reflexivity.
  - rewrite <- !app_assoc.
    rewrite (seg_list in_step v0_sig_kv _ _ sg_pk bytes_eqb _ sigs_lens step_sig)
      by (first [apply v0_sort_forallb | apply v0_sort_nodupb]; assumption).
    rewrite seg_sighash; [| reflexivity | apply N.ltb_lt; assumption].
    rewrite (seg_opt in_step vi_redeem v0_set_redeem _ set_redeem_id step_redeem), (seg_opt in_step vi_wscript v0_set_wscript _ set_wscript_id step_wscript) by reflexivity.
    rewrite (seg_list in_step (v0_der_kv v0_T_Bip32) _ _ dv_pk bytes_eqb _ ders_lens step_der)
      by (first [apply v0_sort_forallb | apply v0_sort_nodupb]; assumption).
    rewrite (seg_opt in_step vi_fsig v0_set_fsig _ set_fsig_id step_fsig), (seg_opt in_step vi_fwit v0_set_fwit _ set_fwit_id step_fwit) by reflexivity.
    rewrite (seg_list in_step v0_unk_kv _ _ (fun y => y) v0_unk_eqb _ unk_lens step_unk) by (try rewrite map_id; assumption).
    reflexivity.
Qed.
Lemma step_out_redeem o v : vo_redeem o = None ->
  out_step o [b8 v0_TO_RedeemScript] v = Some (mk_v0out (Some v) (vo_wscript o) (vo_ders o)).
Proof. intro H. unfold v0_out_step. rewrite H. reflexivity. Qed.
Lemma step_out_wscript o v : vo_wscript o = None ->
  out_step o [b8 v0_TO_WitnessScript] v = Some (mk_v0out (vo_redeem o) (Some v) (vo_ders o)).
Proof. intro H. unfold v0_out_step. rewrite H. reflexivity. Qed.

Lemma out_fold o : v0_wf_out valid_pk o = true ->
  v0_fold out_step v0_out_empty (v0_out_kvs o) = Some (v0_norm_out o).
Proof.
  destruct o as [rd ws ders]. unfold v0_wf_out, v0_out_kvs, v0_norm_out. v0_fields.
  intro W. btrue. rewrite <- (app_nil_r (map _ (v0_sort dv_pk ders))).
  rewrite (seg_opt out_step vo_redeem (fun o x => mk_v0out x (vo_wscript o) (vo_ders o)) _
             (fun o => match o with mk_v0out _ _ _ => eq_refl end) step_out_redeem) by reflexivity.
  rewrite (seg_opt out_step vo_wscript (fun o x => mk_v0out (vo_redeem o) x (vo_ders o)) _
             (fun o => match o with mk_v0out _ _ _ => eq_refl end) step_out_wscript) by reflexivity.
  rewrite (seg_list out_step (v0_der_kv v0_TO_Bip32) _ _ dv_pk bytes_eqb _ out_ders_lens step_out_der)
    by (first [apply v0_sort_forallb | apply v0_sort_nodupb]; assumption).
  reflexivity.
Qed.

(* every pair the encoder emits is within the key and value length limits *)
Lemma kvp_single ty v : v0_len_ok v0_MaxValLen v = true -> v0_wf_kvp ([b8 ty], v).
Proof.
  unfold v0_len_ok. intro H. unfold v0_wf_kvp, v0_MaxKeyLen, lenN in *. cbn [fst snd length]. lia.
Qed.
Lemma opt_kv_wf ty o : v0_wf_script o = true -> Forall v0_wf_kvp (v0_opt_kv ty o).
Proof.
  destruct o as [v|]; cbn [v0_opt_kv v0_wf_script]; [|constructor].
  intro H. constructor; [apply kvp_single; exact H | constructor].
Qed.
Lemma der_kv_wf ty d : v0_wf_der valid_pk d = true -> v0_wf_kvp (v0_der_kv ty d).
Proof.
  unfold v0_wf_der, v0_len_ok. rewrite !andb_true_iff. intros [[[[_ A] _] _] B].
  unfold v0_wf_kvp, v0_der_kv, lenN in *. cbn [fst snd length]. lia.
Qed.
Lemma sig_kv_wf s : v0_wf_sig valid_pk valid_sig s = true -> v0_wf_kvp (v0_sig_kv s).
Proof.
  unfold v0_wf_sig, v0_len_ok. rewrite !andb_true_iff. intros [[_ A] B].
  unfold v0_wf_kvp, v0_sig_kv, lenN in *. cbn [fst snd length]. lia.
Qed.
Lemma gunk_kv_wf u : v0_wf_gunk u = true -> v0_wf_kvp (v0_unk_kv u).
Proof.
  unfold v0_wf_gunk, v0_len_ok. rewrite !andb_true_iff. intros [[A B] C].
  unfold v0_wf_kvp, v0_unk_kv, lenN in *. cbn [fst snd]. destruct (uk_key u); [discriminate|]. cbn [length] in *. lia.
Qed.
Lemma wf_unk_gunk u : v0_wf_unk u = true -> v0_wf_gunk u = true.
Proof.
  unfold v0_wf_unk, v0_wf_gunk. rewrite !andb_true_iff. intros [[A B] C].
  destruct (uk_key u); [discriminate | auto].
Qed.

Lemma in_kvs_wf i : v0_wf_in_core valid_pk valid_sig i = true -> Forall v0_wf_kvp (v0_in_kvs i).
Proof.
  destruct i as [nwu wu sigs sh rd ws ders fs fw unk].
  unfold v0_wf_in_core, v0_in_kvs.
  v0_fields.
  intros W. btrue.
  repeat (apply Forall_app; split); try (apply opt_kv_wf; assumption).
  - destruct nwu as [t|]; [|constructor]. unfold v0_wf_nwu in *. btrue.
    constructor; [apply kvp_single; assumption | constructor].
  - destruct wu as [o|]; [|constructor]. unfold v0_wf_wu in *. btrue.
    constructor; [apply kvp_single; assumption | constructor].
  - destruct (v0_finalized _); [constructor|].
    repeat (apply Forall_app; split); try (apply opt_kv_wf; assumption).
    + apply (forallb_Forall_map _ _ _ _ sig_kv_wf). apply v0_sort_forallb. assumption.
    + destruct (sh =? 0); [constructor|]. constructor; [|constructor].
      apply kvp_single. unfold v0_len_ok, lenN. rewrite le_enc_length. reflexivity.
    + apply (forallb_Forall_map _ _ _ _ (der_kv_wf _)). apply v0_sort_forallb. assumption.
  - apply (forallb_Forall_map _ _ _ _ (fun u H => gunk_kv_wf u (wf_unk_gunk u H))). assumption.
Qed.

Lemma out_kvs_wf o : v0_wf_out valid_pk o = true -> Forall v0_wf_kvp (v0_out_kvs o).
Proof.
  destruct o as [rd ws ders]. unfold v0_wf_out, v0_out_kvs. v0_fields. intro W. btrue.
  repeat (apply Forall_app; split); try (apply opt_kv_wf; assumption).
  apply (forallb_Forall_map _ _ _ _ (der_kv_wf _)). apply v0_sort_forallb. assumption.
Qed.

End Fwd.

Definition v0_stream (secs : list (list (bytes * bytes))) : bytes :=
  v0_magic ++ concat (map v0_ser_section secs).

Lemma v0_stream_packet v gk inl outl rest :
  v0_stream ((([b8 v0_T_UnsignedTx], v) :: gk) :: inl ++ outl) ++ rest =
  v0_magic ++ var_slice [b8 v0_T_UnsignedTx] ++ var_slice v ++ v0_ser_section gk ++
  concat (map v0_ser_section inl) ++ concat (map v0_ser_section outl) ++ rest.
Proof.
  unfold v0_stream. cbn [map concat]. rewrite map_app, concat_app.
  change (v0_ser_section (([b8 v0_T_UnsignedTx], v) :: gk))
    with ((var_slice [b8 v0_T_UnsignedTx] ++ var_slice v ++ enc_list v0_kv gk) ++ v0_sep).
  unfold v0_ser_section. rewrite <- !app_assoc. reflexivity.
Qed.

Lemma v0_sane_norm i : v0_sane i = true -> v0_sane (v0_norm_in i) = true.
Proof.
  destruct i as [nwu wu sigs sh rd ws ders fs fw unk]. unfold v0_sane, v0_norm_in, v0_finalized.
  v0_fields.
  destruct nwu, wu, ws, fs, fw; cbn; intro H; try discriminate; reflexivity.
Qed.

Section Packet.
Variable valid_pk valid_sig : bytes -> bool.
Notation parse := (v0_parse valid_pk valid_sig).
Notation wf := (v0_wf valid_pk valid_sig).
Notation wf_core := (v0_wf_core valid_pk valid_sig).
Notation in_step := (v0_in_step valid_pk valid_sig).
Notation out_step := (v0_out_step valid_pk).

(* the packet a stream of sections decodes to: the transaction from the value of the first pair, the
   global unknowns from the rest of the first section, then one section per input and per output *)
Definition v0_decodes (v : bytes) (gk : list (bytes * bytes)) (inl outl : list (list (bytes * bytes))) (p : v0pset) : Prop :=
  lenN v <= v0_MaxValLen /\ v0_parse_tx_value v = Some (vp_tx p) /\ v0_unsigned_ok (vp_tx p) = true /\
  v0_reads v0_gunk_step [] gk (vp_unk p) /\
  length inl = length (t_ins (vp_tx p)) /\ Forall2 (v0_reads in_step v0_in_empty) inl (vp_ins p) /\
  length outl = length (t_outs (vp_tx p)) /\ Forall2 (v0_reads out_step v0_out_empty) outl (vp_outs p) /\
  forallb v0_sane (vp_ins p) = true.

Lemma v0_parse_rest_app v gk inl outl p rest : v0_decodes v gk inl outl p ->
  v0_parse_rest valid_pk valid_sig (v0_stream ((([b8 v0_T_UnsignedTx], v) :: gk) :: inl ++ outl) ++ rest) = Some (p, rest).
Proof.
  intros (LV & PT & U & [WG FG] & LI & FI & LO & FO & SA). rewrite v0_stream_packet.
  unfold v0_parse_rest, bind. rewrite (take_app_n 5) by reflexivity.
  change (bytes_eqb v0_magic v0_magic) with true. cbn [negb].
  rewrite v0_p_key_app by (unfold lenN, v0_MaxKeyLen; cbn [length]; lia).
  change (negb (n8 (b8 v0_T_UnsignedTx) =? v0_T_UnsignedTx)) with false. cbv beta iota.
  rewrite v0_p_val_app by exact LV. rewrite PT, U. cbn [negb].
  rewrite (v0_section_app _ gk [] _ _ WG FG).
  rewrite (v0_sections_app _ _ _ _ FI) by exact LI. rewrite (v0_sections_app _ _ _ _ FO) by exact LO.
  rewrite SA. destruct p; reflexivity.
Qed.

Lemma v0_parse_rest_inv bs p rest : v0_parse_rest valid_pk valid_sig bs = Some (p, rest) ->
  exists v gk inl outl,
    bs = v0_stream ((([b8 v0_T_UnsignedTx], v) :: gk) :: inl ++ outl) ++ rest /\ v0_decodes v gk inl outl p.
Proof.
  unfold v0_parse_rest, bind.
  destruct (take 5 bs) as [[m r0]|] eqn:T; [|discriminate]. apply take_inv in T as [-> _].
  destruct (bytes_eqb m v0_magic) eqn:M; [|discriminate]. apply bytes_eqb_eq in M. subst m. cbn [negb].
  destruct (v0_p_key r0) as [[[[|tb [|? ?]]|] r1]|] eqn:K; try discriminate.
  destruct (N.eqb_spec (n8 tb) v0_T_UnsignedTx) as [TB|]; [|discriminate]. cbn [negb].
  destruct (v0_p_val r1) as [[v r2]|] eqn:PV; [|discriminate].
  destruct (v0_parse_tx_value v) as [t|] eqn:PT; [|discriminate].
  destruct (v0_unsigned_ok t) eqn:U; [|discriminate]. cbn [negb].
  destruct (v0_section v0_gunk_step [] r2) as [[unk r3]|] eqn:SG; [|discriminate].
  destruct (v0_sections _ (t_ins t) r3) as [[ins r4]|] eqn:SI; [|discriminate].
  destruct (v0_sections _ (t_outs t) r4) as [[outs r5]|] eqn:SO; [|discriminate].
  destruct (forallb v0_sane ins) eqn:SA; [|discriminate]. unfold ret. intro HH; inversion HH; subst. clear HH.
  apply v0_p_key_inv in K as [-> _]. apply v0_p_val_inv in PV as [-> LV].
  apply v0_section_inv in SG as (gk & FG & WG & ->).
  apply v0_sections_inv in SI as (inl & LI & -> & FI). apply v0_sections_inv in SO as (outl & LO & -> & FO).
  exists v, gk, inl, outl. split.
  - rewrite v0_stream_packet, <- TB, b8_n8. reflexivity.
  - repeat split; assumption.
Qed.

Lemma wf_core_parts p : wf_core p = true ->
  wf_tx (vp_tx p) = true /\ v0_unsigned_ok (vp_tx p) = true /\ lenN (ser_full (vp_tx p)) <= v0_MaxValLen /\
  length (vp_ins p) = length (t_ins (vp_tx p)) /\ length (vp_outs p) = length (t_outs (vp_tx p)) /\
  forallb (v0_wf_in_core valid_pk valid_sig) (vp_ins p) = true /\ forallb v0_sane (vp_ins p) = true /\
  forallb (v0_wf_out valid_pk) (vp_outs p) = true /\ forallb v0_wf_gunk (vp_unk p) = true.
Proof. unfold v0_wf_core. rewrite !andb_true_iff, v0_len_ok_le, !Nat.eqb_eq. tauto. Qed.

Lemma v0_wf_ser p : wf p = true ->
  v0_ser p = Some (v0_stream (v0_global_kvs p :: map v0_in_kvs (vp_ins p) ++ map v0_out_kvs (vp_outs p))).
Proof.
  intro W. apply andb_true_iff in W as [WC _]. apply wf_core_parts in WC as (_ & _ & _ & _ & _ & _ & Ws & _).
  unfold v0_ser, v0_stream. rewrite Ws. cbn [map concat]. rewrite map_app, concat_app, !map_map. reflexivity.
Qed.

Lemma fold_gunk l : forall acc, v0_fold v0_gunk_step acc (map v0_unk_kv l) = Some (acc ++ l).
Proof.
  induction l as [|u l IH]; intro acc; cbn [map v0_fold v0_unk_kv fst snd v0_gunk_step]; [rewrite app_nil_r; reflexivity|].
  rewrite IH, <- app_assoc. destruct u; reflexivity.
Qed.

(* C08, first clause: what ToHex/ToBase64 write is accepted by the parsers and yields the packet
   up to v0_norm, whatever follows the last section *)
Theorem v0_parse_rest_ser p bs extra : wf p = true -> v0_ser p = Some bs ->
  v0_parse_rest valid_pk valid_sig (bs ++ extra) = Some (v0_norm p, extra).
Proof.
  intros W S. rewrite (v0_wf_ser p W) in S. inversion S. apply v0_parse_rest_app.
  apply andb_true_iff in W as [WC W45]. unfold v0_wufloor_all in W45.
  apply wf_core_parts in WC as (Wt & Wu & Wl & Li & Lo & Wi & Ws & Wo & Wg).
  unfold v0_decodes, v0_norm. cbn [vp_tx vp_ins vp_outs vp_unk]. rewrite !map_length.
  repeat split; try assumption.
  - apply v0_parse_tx_value_ser. exact Wt.
  - apply (forallb_Forall_map _ _ _ _ (gunk_kv_wf valid_pk valid_sig) Wg).
  - apply (fold_gunk _ []).
  - apply Forall2_map. intros i Hi. split.
    + apply (in_kvs_wf valid_pk valid_sig). apply (forallb_In _ _ i Wi Hi).
    + apply in_fold; [apply (forallb_In _ _ i Wi Hi) | apply (forallb_In _ _ i W45 Hi)].
  - apply Forall2_map. intros o Ho. split; [apply (out_kvs_wf valid_pk valid_sig) | apply out_fold]; apply (forallb_In _ _ o Wo Ho).
  - apply forallb_forall. intros x Hx. apply in_map_iff in Hx as [i [<- Hi]].
    apply v0_sane_norm. apply (forallb_In _ _ i Ws Hi).
Qed.

Theorem v0_parse_ser p extra : wf p = true ->
  exists bs, v0_ser p = Some bs /\ parse (bs ++ extra) = Some (v0_norm p).
Proof.
  intro W. eexists. split; [apply (v0_wf_ser p W)|].
  unfold v0_parse. rewrite (v0_parse_rest_ser p _ extra W (v0_wf_ser p W)). reflexivity.
Qed.

End Packet.

Lemma v0_parse_tx_value_wf v t : v0_parse_tx_value v = Some t -> v0_len_ok v0_MaxValLen v = true -> v0_wf_nwu t = true.
Proof.
  unfold v0_parse_tx_value. destruct (parse_tx v) as [[t' r]|] eqn:P; [|discriminate].
  intro HH; inversion HH; subst. apply parse_tx_any_flag in P as (W & L & _). rewrite v0_len_ok_le. intro LV.
  unfold v0_wf_nwu. rewrite W. apply v0_len_ok_le. lia.
Qed.

Lemma v0_read_txout_wf v o : v0_read_txout v = Some o -> v0_len_ok v0_MaxValLen v = true -> v0_wf_wu o = true.
Proof.
  intros R LV. apply v0_read_txout_inv in R as [W [rest ->]]. apply v0_len_ok_le in LV.
  unfold v0_wf_wu. rewrite W. apply v0_len_ok_le. rewrite lenN_app in LV. lia.
Qed.

Lemma snoc_ok {E K} (ok : E -> bool) (key : E -> K) (eqb : K -> K -> bool) l x :
  forallb ok l = true -> v0_nodupb eqb (map key l) = true -> ok x = true ->
  existsb (fun y => eqb (key y) (key x)) l = false ->
  forallb ok (l ++ [x]) = true /\ v0_nodupb eqb (map key (l ++ [x])) = true.
Proof.
  intros W N Wx D. rewrite forallb_app, map_app, W. cbn [forallb map]. rewrite Wx. split; [reflexivity|].
  apply nodupb_snoc; [exact N | rewrite existsb_map_c; exact D].
Qed.

Section Inv.
Variable valid_pk valid_sig : bytes -> bool.
Notation in_step := (v0_in_step valid_pk valid_sig).
Notation out_step := (v0_out_step valid_pk).
Notation wf_in_core := (v0_wf_in_core valid_pk valid_sig).

Lemma wf_der_intro kd fp path v :
  valid_pk kd = true -> 1 + lenN kd <= v0_MaxKeyLen -> v0_read_bip32 v = Some (fp, path) ->
  v0_len_ok v0_MaxValLen v = true -> v0_wf_der valid_pk (mk_v0der kd fp path) = true.
Proof.
  intros V K R L. apply v0_read_bip32_inv in R as [E B]. cbn [forallb] in B. apply andb_true_iff in B as [Hf Hp].
  unfold v0_wf_der. cbn [dv_pk dv_fp dv_path]. rewrite V.
  change (v0_ser_bip32 (mk_v0der kd fp path)) with (v0_ser_bip32 (mk_v0der [] fp path)). rewrite E, L.
  rewrite (proj2 (N.leb_le _ _) K), Hf, Hp. reflexivity.
Qed.

(* the guards of a single-valued field: not yet present, and no key data *)
Lemma arm_inv {A} (b : bool) kd (r : option A) x :
  (if b then None else if negb (v0_no_kd kd) then None else r) = Some x -> r = Some x.
Proof. destruct b, (v0_no_kd kd); try discriminate. auto. Qed.

Lemma v0_type_gt8 x : x <> 0 -> x <> 1 -> x <> 2 -> x <> 3 -> x <> 4 -> x <> 5 -> x <> 6 -> x <> 7 -> x <> 8 ->
  v0_known_in_type x = false.
Proof. intros. unfold v0_known_in_type, v0_T_FinalScriptWitness. apply N.leb_gt. lia. Qed.

Lemma in_step_wf st k v st' :
  wf_in_core st = true -> v0_wf_kvp (k, v) -> in_step st k v = Some st' -> wf_in_core st' = true.
Proof.
  intros W [K1 [K2 LV]] S. cbn [fst snd] in *. apply v0_len_ok_le in LV.
  destruct st as [nwu wu sigs sh rd ws ders fs fw unk]. destruct k as [|tb kd]; [discriminate|].
  rewrite lenN_cons in K2. apply N.leb_le in K2. clear K1.
  unfold v0_in_step in S. unfold v0_wf_in_core in *. v0_fields. btrue.
  destruct (N.eqb_spec (n8 tb) v0_T_NonWitnessUtxo) as [_|T0].
  { apply arm_inv in S. destruct (v0_parse_tx_value v) as [t|] eqn:P; [|discriminate]. inversion S.
    pose proof (v0_parse_tx_value_wf v t P LV). v0_fields. bsplit; auto. }
  destruct (N.eqb_spec (n8 tb) v0_T_WitnessUtxo) as [_|T1].
  { apply arm_inv in S. destruct (v0_read_txout v) as [o|] eqn:P; [|discriminate]. inversion S.
    pose proof (v0_read_txout_wf v o P LV). v0_fields. bsplit; auto. }
  destruct (N.eqb_spec (n8 tb) v0_T_PartialSig) as [_|T2].
  { destruct (valid_pk kd && valid_sig v) eqn:V; [|discriminate]. cbn [negb] in S.
    destruct (existsb _ sigs) eqn:E; [discriminate|]. inversion S.
    destruct (snoc_ok (v0_wf_sig valid_pk valid_sig) sg_pk bytes_eqb sigs (mk_v0sig kd v)) as [A B]; try assumption.
    { unfold v0_wf_sig. cbn [sg_pk sg_sig]. rewrite V, LV, K2. reflexivity. }
    v0_fields. bsplit; auto. }
  destruct (N.eqb_spec (n8 tb) v0_T_Sighash) as [_|T3].
  { apply arm_inv in S. destruct (Nat.eqb_spec (length v) 4) as [L4|]; [|discriminate]. inversion S.
    pose proof (le_dec_bound v) as B. rewrite L4 in B. apply N.ltb_lt in B. v0_fields. bsplit; auto. }
  destruct (N.eqb_spec (n8 tb) v0_T_RedeemScript) as [_|T4].
  { apply arm_inv in S. inversion S. v0_fields. bsplit; auto. }
  destruct (N.eqb_spec (n8 tb) v0_T_WitnessScript) as [_|T5].
  { apply arm_inv in S. inversion S. v0_fields. bsplit; auto. }
  destruct (N.eqb_spec (n8 tb) v0_T_Bip32) as [_|T6].
  { destruct (valid_pk kd) eqn:V; [|discriminate]. cbn [negb] in S.
    destruct (v0_read_bip32 v) as [[fp path]|] eqn:R; [|discriminate].
    destruct (existsb _ ders) eqn:E; [discriminate|]. inversion S.
    destruct (snoc_ok (v0_wf_der valid_pk) dv_pk bytes_eqb ders (mk_v0der kd fp path)) as [A B]; try assumption.
    { apply (wf_der_intro kd fp path v V); [apply N.leb_le; exact K2 | exact R | exact LV]. }
    v0_fields. bsplit; auto. }
  destruct (N.eqb_spec (n8 tb) v0_T_FinalScriptSig) as [_|T7].
  { apply arm_inv in S. inversion S. v0_fields. bsplit; auto. }
  destruct (N.eqb_spec (n8 tb) v0_T_FinalScriptWitness) as [_|T8].
  { apply arm_inv in S. inversion S. v0_fields. bsplit; auto. }
  destruct (existsb _ unk) eqn:E; [discriminate|]. inversion S. v0_fields.
  assert (WU : v0_wf_unk (mk_v0unk (tb :: kd) v) = true).
  { unfold v0_wf_unk, v0_len_ok at 1. cbn [uk_key uk_val].
    rewrite (v0_type_gt8 (n8 tb)), LV, lenN_cons, K2 by assumption. reflexivity. }
  rewrite forallb_app, (nodupb_snoc v0_unk_eqb unk _) by assumption. cbn [forallb]. rewrite WU. bsplit; auto.
Qed.

Lemma out_step_wf o k v o' :
  v0_wf_out valid_pk o = true -> v0_wf_kvp (k, v) -> out_step o k v = Some o' -> v0_wf_out valid_pk o' = true.
Proof.
  intros W [K1 [K2 LV]] S. cbn [fst snd] in *. apply v0_len_ok_le in LV.
  destruct o as [rd ws ders]. destruct k as [|tb kd]; [discriminate|]. rewrite lenN_cons in K2.
  unfold v0_out_step in S. unfold v0_wf_out in *. v0_fields. btrue.
  destruct (n8 tb =? v0_TO_RedeemScript). { apply arm_inv in S. inversion S. v0_fields. bsplit; auto. }
  destruct (n8 tb =? v0_TO_WitnessScript). { apply arm_inv in S. inversion S. v0_fields. bsplit; auto. }
  destruct (n8 tb =? v0_TO_Bip32); [|discriminate].
  destruct (valid_pk kd) eqn:V; [|discriminate]. cbn [negb] in S.
  destruct (v0_read_bip32 v) as [[fp path]|] eqn:R; [|discriminate].
  destruct (existsb _ ders) eqn:E; [discriminate|]. inversion S.
  destruct (snoc_ok (v0_wf_der valid_pk) dv_pk bytes_eqb ders (mk_v0der kd fp path)) as [A B]; try assumption.
  { apply (wf_der_intro kd fp path v V K2 R LV). }
  v0_fields. bsplit; auto.
Qed.

Lemma gunk_step_wf st k v st' :
  forallb v0_wf_gunk st = true -> v0_wf_kvp (k, v) -> v0_gunk_step st k v = Some st' -> forallb v0_wf_gunk st' = true.
Proof.
  intros W [K1 [K2 K3]] S. cbn [fst snd] in *. unfold v0_gunk_step in S. inversion S; subst.
  rewrite forallb_app, W. cbn [forallb andb]. unfold v0_wf_gunk, v0_len_ok. cbn [uk_key uk_val].
  rewrite (proj2 (N.leb_le _ _) K2), (proj2 (N.leb_le _ _) K3).
  destruct k; [unfold lenN in K1; cbn in K1; lia | reflexivity].
Qed.

(* everything the parser accepts lies in the wire domain (except the 44-byte floor, see v0_wufloor) *)
Theorem v0_parse_wf bs p : v0_parse valid_pk valid_sig bs = Some p -> v0_wf_core valid_pk valid_sig p = true.
Proof.
  unfold v0_parse. destruct (v0_parse_rest valid_pk valid_sig bs) as [[q r]|] eqn:E; [|discriminate].
  intro H; inversion H; subst q.
  apply v0_parse_rest_inv in E as (v & gk & inl & outl & _ & LV & PT & U & RG & LI & FI & LO & FO & SA).
  apply v0_len_ok_le in LV. pose proof (v0_parse_tx_value_wf v _ PT LV) as WN. apply andb_true_iff in WN as [WT WL].
  unfold v0_wf_core. rewrite WT, U, WL, SA, <- (Forall2_length FI), <- (Forall2_length FO), LI, LO, !Nat.eqb_refl.
  rewrite (v0_reads_all in_step wf_in_core v0_in_empty in_step_wf eq_refl _ _ FI).
  rewrite (v0_reads_all out_step (v0_wf_out valid_pk) v0_out_empty out_step_wf eq_refl _ _ FO).
  apply (v0_reads_inv v0_gunk_step (fun s => forallb v0_wf_gunk s = true) gunk_step_wf gk [] _ eq_refl RG).
Qed.

(* C08, second clause in its general form: parse, serialize, parse lands on the v0_norm image of
   the first parse, for every accepted byte string whose witness UTXOs re-serialize to at least
   44 bytes (the floor readTxOut applies to the value, not to what it consumed; it only bites on
   null-valued outputs, v0_wufloor_nonnull) *)
Theorem v0_parse_ser_parse bs p : v0_parse valid_pk valid_sig bs = Some p -> v0_wufloor_all p = true ->
  exists bs', v0_ser p = Some bs' /\ v0_parse valid_pk valid_sig bs' = Some (v0_norm p).
Proof.
  intros P L. pose proof (v0_parse_wf bs p P) as W.
  destruct (v0_parse_ser valid_pk valid_sig p [] ) as [bs' [S R]]; [unfold v0_wf; rewrite W, L; reflexivity|].
  exists bs'. rewrite app_nil_r in R. split; assumption.
Qed.

End Inv.

Lemma v0_flag_canon_norm t : v0_flag_canon t = true -> norm_tx t = t.
Proof. unfold v0_flag_canon, norm_tx. intro H. apply N.eqb_eq in H. destruct t; cbn in *. rewrite <- H. reflexivity. Qed.
Lemma v0_wu_canon_norm o : v0_wu_canon o = true -> v0_norm_wu o = o.
Proof.
  unfold v0_wu_canon, v0_norm_wu. destruct (v0_is_conf o); [reflexivity|]. cbn [orb].
  destruct o as [a v s n rp sp]; cbn. destruct rp, sp; cbn; try discriminate; reflexivity.
Qed.
Lemma v0_wu_canon_opt wu : match wu with Some o => v0_wu_canon o | None => true end = true ->
  option_map v0_norm_wu wu = wu.
Proof. destruct wu as [o|]; [|reflexivity]. intro C. cbn. rewrite (v0_wu_canon_norm o C). reflexivity. Qed.
Lemma v0_canon_in_norm i : v0_canon_in i = true -> v0_norm_in i = i.
Proof.
  destruct i as [nwu wu sigs sh rd ws ders fs fw unk]. unfold v0_canon_in, v0_norm_in.
  v0_fields.
  intro H. rewrite !andb_true_iff in H. destruct H as [[A B] C].
  assert (EA : option_map norm_tx nwu = nwu) by (destruct nwu; [cbn; rewrite v0_flag_canon_norm by exact A|]; reflexivity).
  rewrite EA, (v0_wu_canon_opt wu B). destruct (v0_finalized _).
  - rewrite !andb_true_iff in C. destruct C as [[[[C1 C2] C3] C4] C5]. apply N.eqb_eq in C2. subst sh.
    destruct sigs, rd, ws, ders; try discriminate. reflexivity.
  - apply andb_true_iff in C as [C1 C2]. rewrite (v0_sort_sorted _ _ C1), (v0_sort_sorted _ _ C2). reflexivity.
Qed.

Theorem v0_canon_norm p : v0_canon p = true -> v0_norm p = p.
Proof.
  destruct p as [t ins outs unk]. unfold v0_canon, v0_norm. cbn [vp_tx vp_ins vp_outs vp_unk].
  intro H. rewrite !andb_true_iff in H. destruct H as [[A C] D].
  rewrite (v0_flag_canon_norm t A).
  rewrite (map_id_on v0_norm_in ins), (map_id_on v0_norm_out outs); [reflexivity | |].
  - intros o Ho. pose proof (forallb_In _ _ o D Ho) as Do. destruct o as [rd ws ders].
    unfold v0_norm_out. v0_fields. rewrite (v0_sort_sorted _ _ Do). reflexivity.
  - intros i Hi. apply v0_canon_in_norm. apply (forallb_In _ _ i C Hi).
Qed.

(* what one hop keeps, field by field *)
Definition v0_wu_kept (o o' : txout) : Prop :=
  o_asset o' = o_asset o /\ o_value o' = o_value o /\ o_script o' = o_script o /\ o_nonce o' = o_nonce o /\
  (v0_is_conf o = true -> o_rp o' = o_rp o /\ o_sp o' = o_sp o).
Definition v0_tx_kept (t t' : tx) : Prop :=
  t_version t' = t_version t /\ t_locktime t' = t_locktime t /\ t_ins t' = t_ins t /\ t_outs t' = t_outs t /\
  ser_full t' = ser_full t.
Definition v0_in_kept (i j : v0in) : Prop :=
  vi_unk j = vi_unk i /\ vi_fsig j = vi_fsig i /\ vi_fwit j = vi_fwit i /\
  match vi_nwu i, vi_nwu j with Some t, Some t' => v0_tx_kept t t' | None, None => True | _, _ => False end /\
  match vi_wu i, vi_wu j with Some o, Some o' => v0_wu_kept o o' | None, None => True | _, _ => False end /\
  (v0_finalized i = false ->
     Permutation (vi_sigs j) (vi_sigs i) /\ vi_sighash j = vi_sighash i /\
     vi_redeem j = vi_redeem i /\ vi_wscript j = vi_wscript i /\ Permutation (vi_ders j) (vi_ders i)).
Definition v0_out_kept (o o' : v0out) : Prop :=
  vo_redeem o' = vo_redeem o /\ vo_wscript o' = vo_wscript o /\ Permutation (vo_ders o') (vo_ders o).

Lemma norm_tx_kept t : v0_tx_kept t (norm_tx t).
Proof.
  unfold v0_tx_kept. repeat split. unfold ser_full, ser_tx. rewrite has_witness_norm. reflexivity.
Qed.

Lemma norm_in_kept i : v0_in_kept i (v0_norm_in i).
Proof.
  destruct i as [nwu wu sigs sh rd ws ders fs fw unk]. unfold v0_in_kept, v0_norm_in.
  v0_fields.
  repeat split.
  - destruct nwu; cbn; [apply norm_tx_kept | exact I].
  - destruct wu as [o|]; cbn; [|exact I]. unfold v0_wu_kept, v0_norm_wu.
    destruct (v0_is_conf o); proj_out; repeat split; discriminate.
  - rewrite H. apply v0_sort_perm.
  - rewrite H. reflexivity.
  - rewrite H. reflexivity.
  - rewrite H. reflexivity.
  - rewrite H. apply v0_sort_perm.
Qed.

Lemma norm_out_kept o : v0_out_kept o (v0_norm_out o).
Proof. repeat split. apply v0_sort_perm. Qed.

(* concrete packets: the hypotheses are satisfiable, and where the identity fails *)
Definition ex_yes (_ : bytes) : bool := true.
Definition ex_h32 : bytes := repeat x00 32.
Definition ex_tx0 : tx := mk_tx 2 0 0 [] [].
Definition ex_tx1 : tx := mk_tx 2 0 0 [mk_in ex_h32 0 4294967295 [] [] false [] None [] []] [].
Definition ex_out_conf : txout :=
  mk_out (x0a :: ex_h32) (x08 :: ex_h32) [x00; x14] (x02 :: ex_h32) [x01; x02; x03] [x04].
Definition ex_in_full : v0in :=
  mk_v0in None (Some ex_out_conf) [mk_v0sig [x03; x01] [x30; x41]; mk_v0sig [x02; x09] [x30; x01]] 0x41
    (Some [x51]) (Some []) [mk_v0der [x02] 7 [0x80000000; 1]] None None [mk_v0unk [xfc; x01] [x09]].
Definition ex_p_full : v0pset := mk_v0pset ex_tx1 [ex_in_full] [] [].

Example ex_full_wf : v0_wf ex_yes ex_yes ex_p_full = true.
Proof. vm_compute. reflexivity. Qed.
(* a non-trivial packet meeting the hypotheses of v0_parse_ser: confidential witness UTXO with proofs,
   two unsorted signatures, sighash ALL|RANGEPROOF (0x41), scripts, a derivation and an unknown *)
Example ex_full_roundtrip :
  exists bs, v0_ser ex_p_full = Some bs /\ v0_parse ex_yes ex_yes bs = Some (v0_norm ex_p_full) /\
             vi_wu (hd v0_in_empty (vp_ins (v0_norm ex_p_full))) = Some ex_out_conf /\
             vi_sighash (hd v0_in_empty (vp_ins (v0_norm ex_p_full))) = 0x41.
Proof. eexists. split; [vm_compute; reflexivity|]. split; vm_compute; split; reflexivity. Qed.

(* The second clause in full, parse bs = Some p -> exists bs', ser p = Some bs' /\ parse bs' = Some p,
   fails of the code as it is; v0_parse_ser_parse and v0_canon_norm say what holds instead, and
   the packets below show where the difference lies. *)
Definition v0_psp_fails (bs : bytes) : Prop :=
  exists p, v0_parse ex_yes ex_yes bs = Some p /\
  forall bs', v0_ser p = Some bs' -> v0_parse ex_yes ex_yes bs' <> Some p.
Definition v0_psp_holds (bs : bytes) : Prop :=
  exists p bs', v0_parse ex_yes ex_yes bs = Some p /\ v0_ser p = Some bs' /\ v0_parse ex_yes ex_yes bs' = Some p.

(* a global unknown pair is written back *)
Example v0_psp_global_unknown :
  v0_psp_holds (v0_stream [[([x00], ser_full ex_tx0); ([xfc; x01], [x02])]]).
Proof. eexists. eexists. split; [vm_compute; reflexivity|]. split; [vm_compute; reflexivity|]. vm_compute. reflexivity. Qed.

(* a 45-byte witness UTXO value = 44 meaningful bytes + 1 ignored byte re-serializes to 44 bytes,
   which readTxOut accepts *)
Example v0_psp_wu44 :
  v0_psp_holds (v0_stream [[([x00], ser_full ex_tx1)];
                           [([x01], (x01 :: ex_h32) ++ (x01 :: repeat x00 8) ++ [x00; x00] ++ [xff])]]).
Proof. eexists. eexists. split; [vm_compute; reflexivity|]. split; [vm_compute; reflexivity|]. vm_compute. reflexivity. Qed.

(* a final script next to signing fields: the signing fields are not written *)
Theorem v0_psp_refuted_finalized :
  v0_psp_fails (v0_stream [[([x00], ser_full ex_tx1)]; [([x04], [x51]); ([x07], [x00])]]).
Proof.
  eexists. split; [vm_compute; reflexivity|].
  intros bs' S. vm_compute in S. inversion S. subst. vm_compute. discriminate.
Qed.

(* what is left of the floor: a witness UTXO whose value is the one-byte null value 0x00 with an
   empty script is 36 bytes long; padded to 44 it is accepted, re-serialized it is rejected *)
Theorem v0_psp_refuted_null_value_floor :
  v0_psp_fails (v0_stream [[([x00], ser_full ex_tx1)];
                           [([x01], (x01 :: ex_h32) ++ [x00; x00; x00] ++ repeat xff 8)]]).
Proof.
  eexists. split; [vm_compute; reflexivity|].
  intros bs' S. vm_compute in S. inversion S. subst. vm_compute. discriminate.
Qed.

(* The packet of C08_v0_roundtrip_refuted_null_nonce_proofs (Props/C08.v): the first clause with
   identical fields fails inside v0_wf, where v0_parse_ser holds: a null-nonce witness UTXO
   carrying proofs round-trips and loses both proofs.  v0_reach_roundtrip has identical fields
   for what the roles build. *)
Definition ex_out_nullnonce : txout :=
  mk_out (x0a :: ex_h32) (x08 :: ex_h32) [x00; x14] [x00] [x01; x02; x03] [x04].
Definition ex_p_nullnonce : v0pset :=
  mk_v0pset ex_tx1 [mk_v0in None (Some ex_out_nullnonce) [] 0 None None [] None None []] [] [].

(* a derivation with an empty path round-trips *)
Definition ex_p_emptypath : v0pset :=
  mk_v0pset ex_tx1 [mk_v0in None None [] 0 None None [mk_v0der [x02] 7 []] None None []] [] [].
Example v0_roundtrip_empty_path :
  v0_wf ex_yes ex_yes ex_p_emptypath = true /\
  exists bs, v0_ser ex_p_emptypath = Some bs /\ v0_parse ex_yes ex_yes bs = Some ex_p_emptypath.
Proof. split; [vm_compute; reflexivity|]. eexists. split; [vm_compute; reflexivity | vm_compute; reflexivity]. Qed.

(* a witness UTXO with explicit value, null nonce and empty script (44 bytes) *)
Definition ex_p_wu44 : v0pset :=
  mk_v0pset ex_tx1 [mk_v0in None (Some (mk_out (x01 :: ex_h32) (x01 :: repeat x00 8) [] [x00] [] [])) [] 0 None None [] None None []] [] [].
Example v0_roundtrip_wu44 :
  v0_wf ex_yes ex_yes ex_p_wu44 = true /\
  exists bs, v0_ser ex_p_wu44 = Some bs /\ v0_parse ex_yes ex_yes bs = Some ex_p_wu44.
Proof. split; [vm_compute; reflexivity|]. eexists. split; [vm_compute; reflexivity | vm_compute; reflexivity]. Qed.

(* a packet with global unknowns (any key type, duplicates allowed) round-trips with them *)
Definition ex_p_gunk : v0pset :=
  mk_v0pset ex_tx0 [] [] [mk_v0unk [xfc; x01] [x02]; mk_v0unk [x00; x07] []; mk_v0unk [xfc; x01] [x02]].
Example v0_roundtrip_global_unknowns :
  v0_wf ex_yes ex_yes ex_p_gunk = true /\
  exists bs, v0_ser ex_p_gunk = Some bs /\ v0_parse ex_yes ex_yes bs = Some ex_p_gunk.
Proof. split; [vm_compute; reflexivity|]. eexists. split; [vm_compute; reflexivity | vm_compute; reflexivity]. Qed.

(* the 44-byte floor only concerns null-valued outputs *)
Lemma v0_wufloor_nonnull o : wf_out o = true ->
  match o_value o with v :: _ => negb (n8 v =? 0) | [] => false end = true -> v0_wufloor o = true.
Proof.
  intros W NN. apply wf_out_parts in W as (Ha & Hv & Hn & _).
  unfold v0_wufloor, v0_ser_wu, ser_out, v0_MinTxOutLen. rewrite !app_length.
  destruct (o_asset o) as [|a ar]; [discriminate|]. cbn [is_asset] in Ha. apply andb_true_iff in Ha as [_ La].
  apply Nat.eqb_eq in La.
  destruct (o_value o) as [|v vr]; [discriminate|]. cbn [is_value] in Hv. apply negb_true_iff in NN. rewrite NN in Hv.
  assert (Lv : (8 <= length vr)%nat).
  { destruct (n8 v =? 1); [apply Nat.eqb_eq in Hv; lia|].
    destruct ((n8 v =? 8) || (n8 v =? 9)); [apply Nat.eqb_eq in Hv; lia | discriminate]. }
  destruct (o_nonce o) as [|n nr]; [discriminate|].
  pose proof (var_slice_nonempty (o_script o)) as NE. destruct (var_slice (o_script o)); [congruence|].
  cbn [length app]. apply Nat.leb_le. lia.
Qed.

(* Reachability envelope: what creator / updater / signer / finalizer can build.  The roles are
   abstracted to their effect on the codec-relevant state of one input or output, each with the
   guard the Go code applies (btcec validity, duplicate-key tests, SanityCheck) and with the domain
   condition on the caller's argument that the wire format needs (lengths, Elements
   value/asset/nonce shapes, a witness UTXO of at least 44 bytes whose proofs come with a
   confidential nonce).  Arguments outside that domain are exactly the known findings / wf
   exclusions; role order is creator, then updater/signer on non-finalized inputs, then finalizer
   (which clears the signing fields, finalizer.go). *)
Section Reach.
Variable valid_pk valid_sig : bytes -> bool.

Definition v0_cleared (i : v0in) : bool :=
  negb (nonempty (vi_sigs i)) && (vi_sighash i =? 0) && negb (v0_is_some (vi_redeem i)) &&
  negb (v0_is_some (vi_wscript i)) && negb (nonempty (vi_ders i)).
Definition v0_inv_in (i : v0in) : bool :=
  v0_wf_in_core valid_pk valid_sig i && v0_sane i && v0_wufloor_in i &&
  match vi_wu i with Some o => v0_wu_canon o | None => true end &&
  (if v0_finalized i then v0_cleared i else true).

Inductive v0_in_op : v0in -> v0in -> Prop :=
| O_nwu i t : v0_finalized i = false -> v0_wf_nwu t = true -> vi_wu i = None -> vi_wscript i = None ->
    v0_in_op i (v0_set_nwu i (Some t))                                   (* AddInNonWitnessUtxo + SanityCheck *)
| O_wu i o : v0_finalized i = false -> v0_wf_wu o = true -> v0_wufloor o = true -> v0_wu_canon o = true ->
    vi_nwu i = None -> v0_in_op i (v0_set_wu i (Some o))                 (* AddInWitnessUtxo + SanityCheck *)
| O_to_witness i o : v0_finalized i = false -> v0_wf_wu o = true -> v0_wufloor o = true -> v0_wu_canon o = true ->
    v0_in_op i (v0_set_wu (v0_set_nwu i None) (Some o))                  (* nonWitnessToWitness *)
| O_sig i s : v0_finalized i = false -> v0_wf_sig valid_pk valid_sig s = true ->
    existsb (fun x => bytes_eqb (sg_pk x) (sg_pk s)) (vi_sigs i) = false ->
    v0_in_op i (v0_set_sigs i (vi_sigs i ++ [s]))                        (* addPartialSignature *)
| O_sighash i x : v0_finalized i = false -> x < two32 -> v0_in_op i (v0_set_sighash i x)   (* AddInSighashType *)
| O_redeem i s : v0_finalized i = false -> v0_len_ok v0_MaxValLen s = true ->
    v0_in_op i (v0_set_redeem i (Some s))                                (* AddInRedeemScript *)
| O_wscript i s : v0_finalized i = false -> v0_len_ok v0_MaxValLen s = true -> v0_is_some (vi_wu i) = true ->
    v0_in_op i (v0_set_wscript i (Some s))                               (* AddInWitnessScript + SanityCheck *)
| O_der i d : v0_finalized i = false -> v0_wf_der valid_pk d = true ->
    existsb (fun x => bytes_eqb (dv_pk x) (dv_pk d)) (vi_ders i) = false ->
    v0_in_op i (v0_set_ders i (vi_ders i ++ [d]))                        (* AddInBip32Derivation *)
| O_unk i u : v0_wf_unk u = true -> existsb (fun x => v0_unk_eqb x u) (vi_unk i) = false ->
    v0_in_op i (v0_set_unk i (vi_unk i ++ [u]))                          (* Inputs[i].Unknowns = append(...) *)
| O_finalize i fs fw : v0_finalized i = false -> v0_is_some fs || v0_is_some fw = true ->
    v0_wf_script fs = true -> v0_wf_script fw = true -> (v0_is_some fw = true -> v0_is_some (vi_wu i) = true) ->
    v0_in_op i (v0_finalize_in i fs fw). (* finalize*Input: NewPsetInput + final scripts *)

(* v0_fields, and the tests on what the fields hold *)
Ltac proj3 := v0_fields; cbn [v0_wf_script v0_is_some negb andb orb forallb map nonempty] in *.

Lemma v0_in_op_inv i j : v0_in_op i j -> v0_inv_in i = true -> v0_inv_in j = true.
Proof.
  intros Op I. unfold v0_inv_in in I. btrue.
  destruct Op as [i t F Wt Ewu Ews | i o F Wo L C En | i o F Wo L C | i s F Ws E | i x F Hx | i s F Ls | i s F Ls Hw
                 | i d F Wd E | i u Wu E | i fs fw F Hf Wfs Wfw Hsw];
  destruct i as [nwu wu sigs sh rd ws ders fsg fwt unk];
  unfold v0_finalize_in, v0_inv_in, v0_wf_in_core, v0_sane, v0_wufloor_in, v0_finalized, v0_cleared in *; proj3; btrue; subst.
  - rewrite F, Wt. proj3. bsplit; auto.
  - rewrite F, Wo, L, C. proj3. bsplit; auto.
  - rewrite F, Wo, L, C. proj3. bsplit; auto.
  - destruct (snoc_ok (v0_wf_sig valid_pk valid_sig) sg_pk bytes_eqb sigs s) as [A B]; try assumption.
    rewrite F, A, B. proj3. bsplit; auto.
  - rewrite F, (proj2 (N.ltb_lt _ _) Hx). bsplit; auto.
  - rewrite F, Ls. bsplit; auto.
  - rewrite F, Ls. destruct wu; [|discriminate]. proj3. bsplit; auto.
  - destruct (snoc_ok (v0_wf_der valid_pk) dv_pk bytes_eqb ders d) as [A B]; try assumption.
    rewrite F, A, B. proj3. bsplit; auto.
  - rewrite forallb_app. proj3. rewrite Wu, (nodupb_snoc v0_unk_eqb unk u) by assumption. bsplit; auto.
  - rewrite Hf, Wfs, Wfw. change (0 <? two32) with true. change (0 =? 0) with true. proj3.
    destruct fw as [w|]; proj3; [specialize (Hsw eq_refl); destruct wu; [|discriminate]|];
      bsplit; try assumption; destruct nwu, wu; proj3; try discriminate; reflexivity.
Qed.

Inductive v0_out_op : v0out -> v0out -> Prop :=
| P_redeem o s : v0_len_ok v0_MaxValLen s = true -> v0_out_op o (mk_v0out (Some s) (vo_wscript o) (vo_ders o))
| P_wscript o s : v0_len_ok v0_MaxValLen s = true -> v0_out_op o (mk_v0out (vo_redeem o) (Some s) (vo_ders o))
| P_der o d : v0_wf_der valid_pk d = true -> existsb (fun x => bytes_eqb (dv_pk x) (dv_pk d)) (vo_ders o) = false ->
    v0_out_op o (mk_v0out (vo_redeem o) (vo_wscript o) (vo_ders o ++ [d])).
Lemma v0_out_op_inv o o' : v0_out_op o o' -> v0_wf_out valid_pk o = true -> v0_wf_out valid_pk o' = true.
Proof.
  intros Op I. destruct Op as [o s Ls | o s Ls | o d Wd E]; destruct o as [rd ws ders];
  unfold v0_wf_out in *; v0_fields; btrue.
  - bsplit; auto.
  - bsplit; auto.
  - destruct (snoc_ok (v0_wf_der valid_pk) dv_pk bytes_eqb ders d) as [A B]; try assumption. bsplit; auto.
Qed.

(* packets: creator (pset.New), then any sequence of the operations above on single inputs/outputs *)
Inductive v0_reach : v0pset -> Prop :=
| R_new t : wf_tx t = true -> v0_unsigned_ok t = true -> v0_len_ok v0_MaxValLen (ser_full t) = true ->
    v0_reach (mk_v0pset t (map (fun _ => v0_in_empty) (t_ins t)) (map (fun _ => v0_out_empty) (t_outs t)) [])
| R_in p a i b j : v0_reach p -> vp_ins p = a ++ i :: b -> v0_in_op i j ->
    v0_reach (mk_v0pset (vp_tx p) (a ++ j :: b) (vp_outs p) (vp_unk p))
| R_out p a o b o' : v0_reach p -> vp_outs p = a ++ o :: b -> v0_out_op o o' ->
    v0_reach (mk_v0pset (vp_tx p) (vp_ins p) (a ++ o' :: b) (vp_unk p)).

Definition v0_inv (p : v0pset) : Prop :=
  wf_tx (vp_tx p) = true /\ v0_unsigned_ok (vp_tx p) = true /\ v0_len_ok v0_MaxValLen (ser_full (vp_tx p)) = true /\
  length (vp_ins p) = length (t_ins (vp_tx p)) /\ length (vp_outs p) = length (t_outs (vp_tx p)) /\
  forallb v0_inv_in (vp_ins p) = true /\ forallb (v0_wf_out valid_pk) (vp_outs p) = true /\ vp_unk p = [].

Theorem v0_reach_inv p : v0_reach p -> v0_inv p.
Proof.
  induction 1 as [t Wt Ut Lt | p a i b j R IH E Op | p a o b o' R IH E Op].
  - unfold v0_inv. cbn [vp_tx vp_ins vp_outs vp_unk]. rewrite !map_length.
    repeat split; try assumption; apply forallb_const; reflexivity.
  - destruct IH as (A1 & A2 & A3 & A4 & A5 & A6 & A7 & A8). rewrite E in A4, A6.
    unfold v0_inv. cbn [vp_tx vp_ins vp_outs vp_unk]. repeat split; try assumption.
    + rewrite <- A4, !app_length. reflexivity.
    + apply (forallb_replace _ a i j b (v0_in_op_inv i j Op) A6).
  - destruct IH as (A1 & A2 & A3 & A4 & A5 & A6 & A7 & A8). rewrite E in A5, A7.
    unfold v0_inv. cbn [vp_tx vp_ins vp_outs vp_unk]. repeat split; try assumption.
    + rewrite <- A5, !app_length. reflexivity.
    + apply (forallb_replace _ a o o' b (v0_out_op_inv o o' Op) A7).
Qed.

(* on such packets the hop loses nothing: only the order of signatures/derivations and the derived
   transaction flag may change *)
Definition v0_in_same (i j : v0in) : Prop :=
  vi_unk j = vi_unk i /\ vi_fsig j = vi_fsig i /\ vi_fwit j = vi_fwit i /\ vi_wu j = vi_wu i /\
  match vi_nwu i, vi_nwu j with Some t, Some t' => v0_tx_kept t t' | None, None => True | _, _ => False end /\
  Permutation (vi_sigs j) (vi_sigs i) /\ vi_sighash j = vi_sighash i /\
  vi_redeem j = vi_redeem i /\ vi_wscript j = vi_wscript i /\ Permutation (vi_ders j) (vi_ders i).

Lemma v0_inv_in_same i : v0_inv_in i = true -> v0_in_same i (v0_norm_in i).
Proof.
  unfold v0_inv_in. intro I. btrue. destruct i as [nwu wu sigs sh rd ws ders fsg fwt unk].
  unfold v0_in_same, v0_norm_in, v0_cleared in *. proj3.
  rewrite (v0_wu_canon_opt wu) by assumption. destruct (v0_finalized _).
  - btrue. match goal with H : (sh =? 0) = true |- _ => apply N.eqb_eq in H; subst sh end.
    destruct sigs, rd, ws, ders; try discriminate.
    repeat split; try constructor. destruct nwu; cbn; [apply norm_tx_kept | exact I].
  - repeat split; try apply v0_sort_perm. destruct nwu; cbn; [apply norm_tx_kept | exact I].
Qed.

Lemma v0_inv_wf p : v0_inv p -> v0_wf valid_pk valid_sig p = true.
Proof.
  intros (A1 & A2 & A3 & A4 & A5 & A6 & A7 & A8). unfold v0_wf, v0_wf_core, v0_wufloor_all.
  assert (P : forall x, v0_inv_in x = true ->
              v0_wf_in_core valid_pk valid_sig x = true /\ v0_sane x = true /\ v0_wufloor_in x = true).
  { intros x H. unfold v0_inv_in in H. btrue. repeat split; assumption. }
  rewrite A1, A2, A3, A4, A5, !Nat.eqb_refl, A7, A8.
  rewrite (forallb_impl _ _ _ (fun x H => proj1 (P x H)) A6), (forallb_impl _ _ _ (fun x H => proj1 (proj2 (P x H))) A6),
          (forallb_impl _ _ _ (fun x H => proj2 (proj2 (P x H))) A6).
  reflexivity.
Qed.

(* C08, first clause, for everything the roles can build inside the argument domain *)
Theorem v0_reach_roundtrip p : v0_reach p ->
  exists bs q, v0_ser p = Some bs /\ v0_parse valid_pk valid_sig bs = Some q /\
    v0_tx_kept (vp_tx p) (vp_tx q) /\ Forall2 v0_in_same (vp_ins p) (vp_ins q) /\
    Forall2 v0_out_kept (vp_outs p) (vp_outs q) /\ vp_unk q = vp_unk p.
Proof.
  intro R. pose proof (v0_reach_inv p R) as I. pose proof (v0_inv_wf p I) as W.
  destruct (v0_parse_ser valid_pk valid_sig p [] W) as [bs [S P]]. rewrite app_nil_r in P.
  exists bs, (v0_norm p). destruct I as (_ & _ & _ & _ & _ & A6 & _ & A8).
  repeat split; try assumption.
  - apply norm_tx_kept.
  - apply Forall2_map_r. intros i Hi. apply v0_inv_in_same. apply (forallb_In _ _ i A6 Hi).
  - apply Forall2_map_r. intros o _. apply norm_out_kept.
Qed.

End Reach.

(* a representative history: create, add a confidential witness UTXO, two signatures, a sighash
   type with the 0x40 bit, a witness script, a derivation; then finalize *)
Example ex_reach :
  v0_reach ex_yes ex_yes
    (mk_v0pset ex_tx1 [mk_v0in None (Some ex_out_conf) [] 0 None None [] None (Some [x02; x00; x00]) []] [] []).
Proof.
  set (one i := mk_v0pset ex_tx1 [i] [] []).
  assert (S : forall i j, v0_reach ex_yes ex_yes (one i) -> v0_in_op ex_yes ex_yes i j -> v0_reach ex_yes ex_yes (one j)).
  { intros i j R Op. exact (R_in _ _ _ [] i [] j R eq_refl Op). }
  pose proof (R_new ex_yes ex_yes ex_tx1 eq_refl eq_refl eq_refl : v0_reach _ _ (one v0_in_empty)) as R.
  eapply S in R; [|apply O_wu with (o := ex_out_conf); reflexivity].
  eapply S in R; [|apply O_sig with (s := mk_v0sig [x03; x01] [x30; x41]); reflexivity].
  eapply S in R; [|apply O_sig with (s := mk_v0sig [x02; x09] [x30; x01]); reflexivity].
  eapply S in R; [|apply O_sighash with (x := 0x41); reflexivity].
  eapply S in R; [|apply O_wscript with (s := [x51]); reflexivity].
  eapply S in R; [|apply O_der with (d := mk_v0der [x02] 7 [0x80000000; 1]); reflexivity].
  eapply S in R; [|apply O_finalize with (fs := None) (fw := Some [x02; x00; x00]); try reflexivity].
  exact R.
Qed.
