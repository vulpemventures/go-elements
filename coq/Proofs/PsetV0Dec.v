(* Proofs/PsetV0Dec.v — decoder-level facts for the PSET v0 parser model (C12).  The stream decoder
   v0_parse_rest accepts exactly a well-framed stream of sections followed by anything
   (v0_parse_rest_app / v0_parse_rest_inv), so acceptance is stable under extension of the input
   and no strict prefix of a completely consumed input is accepted, although the whole-input decoder
   (NewPsetFromHex / NewPsetFromBase64 -> deserialize(bytes.NewReader)) never looks at the bytes that
   follow the last output section. *)
From GE Require Import Lib.Bytes Lib.Varint Model.Tx Proofs.Decoders Model.PsetV0 Proofs.PsetV0.
From Coq Require Import ZifyBool ZifyN ZifyNat.
Open Scope N_scope.

Section Dec.
Variable valid_pk valid_sig : bytes -> bool.
Notation parse_rest := (v0_parse_rest valid_pk valid_sig).
Notation parse := (v0_parse valid_pk valid_sig).

Theorem psetv0_decoder_stable bs p rest ext :
  parse_rest bs = Some (p, rest) -> parse_rest (bs ++ ext) = Some (p, rest ++ ext).
Proof.
  intro H. apply v0_parse_rest_inv in H as (v & gk & inl & outl & -> & D).
  rewrite <- app_assoc. apply v0_parse_rest_app. exact D.
Qed.

(* an input the stream decoder consumes entirely has no accepted strict prefix at all: neither the
   stream decoder (with any remainder) nor the whole-input decoder accepts one *)
Theorem psetv0_no_strict_prefix_of_complete bs p pre suf :
  parse_rest bs = Some (p, []) -> bs = pre ++ suf -> suf <> [] -> parse_rest pre = None /\ parse pre = None.
Proof.
  intros H -> Hs. pose proof (stable_strict_prefix parse_rest pre suf p psetv0_decoder_stable H Hs) as N.
  split; [exact N|]. unfold v0_parse. rewrite N. reflexivity.
Qed.

(* the serialization itself is consumed exactly: nothing is left unread *)
Theorem psetv0_valid_encoding_consumed p bs :
  v0_wf valid_pk valid_sig p = true -> v0_ser p = Some bs -> parse_rest bs = Some (v0_norm p, []).
Proof. intros W S. rewrite <- (app_nil_r bs). apply v0_parse_rest_ser; assumption. Qed.

(* no strict prefix of what ToHex / ToBase64 write for a packet in the wire domain is accepted,
   by the whole-input decoder exactly as the Go code treats trailing bytes (it ignores them) *)
Theorem psetv0_strict_prefix_rejected p bs pre suf :
  v0_wf valid_pk valid_sig p = true -> v0_ser p = Some bs -> bs = pre ++ suf -> suf <> [] -> parse pre = None.
Proof.
  intros W S E Hs.
  exact (proj2 (psetv0_no_strict_prefix_of_complete bs _ pre suf (psetv0_valid_encoding_consumed p bs W S) E Hs)).
Qed.

End Dec.

(* for the length-field theorems of Props/C12.v (C12_psetv0_key_bounded, ..._length_checked): a
   length prefix was compared with the bytes that follow it before they were taken *)
Lemma var_slice_bounded x r : lenN x < two64 ->
  lenN x < lenN (var_slice x ++ r) /\
  exists n r0, p_varint (var_slice x ++ r) = Some (n, r0) /\ n = lenN x /\ n <= lenN r0.
Proof.
  intro H. unfold var_slice. rewrite <- app_assoc, !lenN_app, (p_varint_app _ _ H). split.
  - pose proof (varint_nonempty (lenN x)) as NE. destruct (varint (lenN x)); [congruence|]. rewrite lenN_cons. lia.
  - exists (lenN x), (x ++ r). rewrite lenN_app. repeat split. lia.
Qed.

Lemma takeN_short n r : lenN r < n -> takeN n r = None.
Proof. intro H. unfold takeN. destruct (N.leb_spec n (N.of_nat (length r))); [unfold lenN in H; lia | reflexivity]. Qed.

(* hypotheses are satisfiable: the example packet of Proofs/PsetV0.v, cut anywhere, is rejected *)
Example ex_psetv0_prefixes_rejected :
  exists bs, v0_ser ex_p_full = Some bs /\ (length bs = 222)%nat /\
    forallb (fun n => match v0_parse ex_yes ex_yes (firstn n bs) with None => true | Some _ => false end)
            (seq 0 (length bs)) = true.
Proof.
  destruct (v0_parse_ser ex_yes ex_yes ex_p_full [] ex_full_wf) as (bs & S & _). exists bs. split; [exact S|].
  assert (L : option_map (@length byte) (v0_ser ex_p_full) = Some 222%nat) by (vm_compute; reflexivity).
  rewrite S in L. injection L as L. split; [exact L|].
  apply forallb_forall. intros n Hn. apply List.in_seq in Hn.
  rewrite (psetv0_strict_prefix_rejected ex_yes ex_yes ex_p_full bs (firstn n bs) (skipn n bs) ex_full_wf S);
    [reflexivity | symmetry; apply firstn_skipn |].
  intro E. apply (f_equal (@length byte)) in E. rewrite skipn_length in E. cbn [length] in E. lia.
Qed.
