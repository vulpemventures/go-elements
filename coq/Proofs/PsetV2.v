(* Round trip of the PSET v2 codec model (Model/PsetV2.v).  On a stream of framed key pairs the
   deserialize loop is a fold of sec_step; the round trip of a section is proved once, for an
   arbitrary field table, and carried over to sections in sequence and to packets by naming what
   a section decoder consumes. *)
From GE Require Import Lib.Bytes Lib.Varint Model.Tx Model.PsetV2 Proofs.TxCodec.
From Coq Require Import ZifyBool ZifyN ZifyNat Permutation.
Open Scope N_scope.

Lemma maxKeyLen_val : maxKeyLen = 10000. Proof. reflexivity. Qed.

Lemma cbind_ok {A B} (x : cres A) (f : A -> cres B) b :
  cbind x f = ROk b -> exists a, x = ROk a /\ f a = ROk b.
Proof. destruct x as [a| |]; cbn; intro H; try discriminate. exists a. split; [reflexivity | exact H]. Qed.

Lemma nth_mid {A} (a : list A) x r d i : length a = i -> nth i (a ++ x :: r) d = x.
Proof. intros <-. apply nth_middle. Qed.
Lemma lset_mid {A} (a : list A) x y r i : length a = i -> lset i x (a ++ y :: r) = a ++ x :: r.
Proof. intros <-. induction a as [|z a IH]; [reflexivity|]. cbn [length app lset]. rewrite IH. reflexivity. Qed.
Lemma lset_length {A} (x : A) : forall l i, length (lset i x l) = length l.
Proof. induction l as [|y l IH]; intros [|i]; cbn [lset length]; auto. Qed.
Lemma nth_lset_eq {A} (x d : A) : forall l i, (i < length l)%nat -> nth i (lset i x l) d = x.
Proof. induction l as [|y l IH]; intros [|i] H; cbn [lset nth length] in *; try lia; [reflexivity | apply IH; lia]. Qed.
Lemma nth_lset_neq {A} (x d : A) : forall l i j, i <> j -> nth j (lset i x l) d = nth j l d.
Proof.
  induction l as [|y l IH]; intros [|i] [|j] H; cbn [lset nth]; try reflexivity; try congruence.
  apply IH. congruence.
Qed.
Lemma skipn_cons_inv {A} (x : A) r : forall i l, skipn i l = x :: r -> nth_error l i = Some x /\ skipn (S i) l = r.
Proof.
  induction i as [|i IH]; intros [|y l] H; try discriminate.
  - inversion H. split; reflexivity.
  - apply IH. exact H.
Qed.

Lemma frame_ok_iff k : frame_ok k = true <->
  k_type k < 256 /\ 1 + lenN (k_data k) <= maxKeyLen /\ lenN (k_val k) < two64.
Proof. unfold frame_ok. rewrite !andb_true_iff, !N.ltb_lt, N.leb_le. tauto. Qed.

Lemma read_kp_app k rest : frame_ok k = true -> read_kp (ser_kp k ++ rest) = KGot k rest.
Proof.
  intro F. apply frame_ok_iff in F as (Ht & Hk & Hv).
  unfold read_kp, ser_kp. rewrite <- app_assoc.
  rewrite p_var_slice_app by (rewrite lenN_cons; rewrite maxKeyLen_val in Hk; unfold two64; lia).
  rewrite lenN_cons, (proj2 (N.ltb_ge _ _) Hk).
  rewrite p_var_slice_app by exact Hv.
  rewrite n8_b8_small by exact Ht. destruct k; reflexivity.
Qed.

Lemma read_kp_sep rest : read_kp (pset_sep :: rest) = KEnd rest.
Proof.
  change (pset_sep :: rest) with (var_slice [] ++ rest). unfold read_kp. rewrite p_var_slice_app by reflexivity. reflexivity.
Qed.

Lemma read_kp_inv bs :
  match read_kp bs with
  | KEnd r => bs = pset_sep :: r
  | KGot k r => bs = ser_kp k ++ r /\ frame_ok k = true
  | KErr => True
  end.
Proof.
  unfold read_kp. destruct (p_var_slice bs) as [[key r1]|] eqn:P1; [|exact I].
  apply p_var_slice_inv in P1 as [-> _]. destruct key as [|t kd]; [reflexivity|].
  destruct (N.ltb_spec maxKeyLen (lenN (t :: kd))) as [L|L]; [exact I|].
  destruct (p_var_slice r1) as [[v r2]|] eqn:P2; [|exact I]. apply p_var_slice_inv in P2 as [-> H2].
  unfold ser_kp. cbn [k_type k_data k_val]. rewrite b8_n8, <- app_assoc. split; [reflexivity|].
  apply frame_ok_iff. cbn [k_type k_data k_val]. rewrite lenN_cons in L.
  split; [apply n8_lt | split; assumption].
Qed.

Lemma ser_kp_nonempty k : ser_kp k <> [].
Proof. unfold ser_kp. intro E. apply app_eq_nil in E as [E _]. exact (var_slice_nonempty _ E). Qed.

Lemma enc_kps_length l : (length l <= length (enc_kps l))%nat.
Proof. apply (enc_list_length_ge ser_kp). intros k _. apply ser_kp_nonempty. Qed.

Section Codec.
Variable pk_ok der_ok xonly_ok : bytes -> bool.
Variable msgtx_canon : bytes -> option bytes.

Notation sec_step := (sec_step pk_ok der_ok xonly_ok msgtx_canon).
Notation parse_kps := (parse_kps pk_ok der_ok xonly_ok msgtx_canon).
Notation parse_section := (parse_section pk_ok der_ok xonly_ok msgtx_canon).
Notation parse_secs := (parse_secs pk_ok der_ok xonly_ok msgtx_canon).
Notation parse_pset := (parse_pset pk_ok der_ok xonly_ok msgtx_canon).
Notation parse_pset_rest := (parse_pset_rest pk_ok der_ok xonly_ok msgtx_canon).
Notation apply_slot := (apply_slot pk_ok der_ok xonly_ok msgtx_canon).
Notation s_dec := (s_dec pk_ok msgtx_canon).
Notation m_replay := (m_replay pk_ok der_ok xonly_ok).
Notation slot_wf := (slot_wf pk_ok der_ok xonly_ok msgtx_canon).
Notation slots_wf := (slots_wf pk_ok der_ok xonly_ok msgtx_canon).
Notation wf_sec := (wf_sec pk_ok der_ok xonly_ok msgtx_canon).
Notation wf_pset := (wf_pset pk_ok der_ok xonly_ok msgtx_canon).

Fixpoint fold_step (tbl : list slot) (s : sec) (kps : list kpair) : cres sec :=
  match kps with
  | [] => ROk s
  | k :: r => cbind (sec_step tbl s k) (fun s' => fold_step tbl s' r)
  end.

Lemma fold_step_app tbl a b s :
  fold_step tbl s (a ++ b) = cbind (fold_step tbl s a) (fun s' => fold_step tbl s' b).
Proof.
  revert s; induction a as [|k a IH]; intro s; [reflexivity|].
  cbn [app fold_step]. destruct (sec_step tbl s k) as [s'| |]; cbn [cbind]; [apply IH | reflexivity | reflexivity].
Qed.

Lemma parse_kps_app tbl kps : forall fuel s rest,
  Forall (fun k => frame_ok k = true) kps -> (length kps < fuel)%nat ->
  parse_kps tbl fuel s (enc_kps kps ++ pset_sep :: rest) =
  cbind (fold_step tbl s kps) (fun s' => ROk (s', rest)).
Proof.
  induction kps as [|k kps IH]; intros fuel s rest F L; (destruct fuel as [|f]; [cbn in L; lia|]).
  - cbn [enc_kps map concat app PsetV2.parse_kps]. rewrite read_kp_sep. reflexivity.
  - inversion F as [|? ? Fk Fr]; subst.
    unfold enc_kps. cbn [map concat PsetV2.parse_kps]. rewrite <- app_assoc.
    rewrite read_kp_app by exact Fk. cbn [fold_step].
    destruct (sec_step tbl s k) as [s'| |]; cbn [cbind]; [|reflexivity|reflexivity].
    apply IH; [exact Fr | cbn [length] in L; lia].
Qed.

Lemma parse_kps_inv tbl : forall fuel s bs s' rest,
  parse_kps tbl fuel s bs = ROk (s', rest) ->
  exists kps, bs = enc_kps kps ++ pset_sep :: rest /\
              Forall (fun k => frame_ok k = true) kps /\ fold_step tbl s kps = ROk s'.
Proof.
  induction fuel as [|f IH]; intros s bs s' rest H; [discriminate|].
  cbn [PsetV2.parse_kps] in H. pose proof (read_kp_inv bs) as R. destruct (read_kp bs) as [r|k r|]; [| |discriminate].
  - inversion H; subst. exists []. cbn. auto.
  - apply cbind_ok in H as (s1 & H1 & H2). apply IH in H2 as (kps & -> & F & Fo).
    destruct R as [-> Fk]. exists (k :: kps). unfold enc_kps. cbn [map concat].
    rewrite <- app_assoc. split; [reflexivity|]. split; [constructor; assumption|].
    cbn [fold_step]. rewrite H1. exact Fo.
Qed.

Lemma parse_section_iff tbl sanity bs s r :
  parse_section tbl sanity bs = ROk (s, r) <->
  exists kps, bs = enc_kps kps ++ pset_sep :: r /\ Forall (fun k => frame_ok k = true) kps /\
              fold_step tbl (empty_sec tbl) kps = ROk s /\ sanity s = true.
Proof.
  unfold PsetV2.parse_section. split.
  - intro H. apply cbind_ok in H as ([s0 r0] & Hk & Hs). cbn [fst] in Hs.
    destruct (sanity s0) eqn:San; [|discriminate]. inversion Hs; subst s0 r0.
    apply parse_kps_inv in Hk as (kps & E & F & Fo). exists kps. auto.
  - intros (kps & -> & F & Fo & San). rewrite parse_kps_app.
    + rewrite Fo. cbn [cbind fst]. rewrite San. reflexivity.
    + exact F.
    + rewrite app_length. pose proof (enc_kps_length kps). lia.
Qed.

Definition key_small (k : keyid) : bool :=
  match k with
  | KStd t => (t <? 256) && negb (t =? PsetProprietary)
  | KProp sub => sub <? 256
  end.
Fixpoint nodup_keys (l : list keyid) : bool :=
  match l with
  | [] => true
  | k :: r => negb (existsb (keyid_eqb k) r) && nodup_keys r
  end.
(* what the generic lemma needs from a table: decode labels pairwise distinct, all keys one byte,
   no standard key equal to the proprietary marker *)
Definition tbl_ok (tbl : list slot) : bool :=
  nodup_keys (map sl_dkey tbl) &&
  forallb (fun sl => key_small (sl_dkey sl) && key_small (sl_ekey sl)) tbl.

Lemma keyid_eqb_eq a b : keyid_eqb a b = true <-> a = b.
Proof. destruct a, b; cbn; rewrite ?N.eqb_eq; split; congruence. Qed.
Lemma keyid_eqb_refl a : keyid_eqb a a = true.
Proof. apply keyid_eqb_eq. reflexivity. Qed.

Lemma tbl_ok_parts tbl : tbl_ok tbl = true ->
  nodup_keys (map sl_dkey tbl) = true /\
  forall sl, In sl tbl -> key_small (sl_dkey sl) = true /\ key_small (sl_ekey sl) = true.
Proof.
  unfold tbl_ok. rewrite andb_true_iff. intros [H1 H2]. split; [exact H1|].
  intros sl Hin. rewrite forallb_forall in H2. apply andb_true_iff. apply H2. exact Hin.
Qed.

Lemma find_slot_nth : forall tbl o i sl,
  nodup_keys (map sl_dkey tbl) = true -> nth_error tbl i = Some sl ->
  find_slot_from o (sl_dkey sl) tbl = Some ((o + i)%nat, sl).
Proof.
  induction tbl as [|x tbl IH]; intros o i sl ND Hi; [destruct i; discriminate|].
  cbn [map nodup_keys] in ND. apply andb_true_iff in ND as [N1 N2]. cbn [find_slot_from].
  destruct i as [|i]; cbn [nth_error] in Hi.
  - inversion Hi; subst. rewrite keyid_eqb_refl, Nat.add_0_r. reflexivity.
  - destruct (keyid_eqb (sl_dkey x) (sl_dkey sl)) eqn:E.
    + apply negb_true_iff in N1. rewrite (proj2 (existsb_exists _ _)) in N1; [discriminate|].
      exists (sl_dkey sl). split; [apply in_map, (nth_error_In _ _ Hi) | exact E].
    + rewrite (IH (S o) i sl N2 Hi), Nat.add_succ_r. reflexivity.
Qed.

Lemma find_slot_sound key : forall tbl o i sl, find_slot_from o key tbl = Some (i, sl) ->
  exists k, i = (o + k)%nat /\ nth_error tbl k = Some sl /\ sl_dkey sl = key.
Proof.
  induction tbl as [|x tbl IH]; intros o i sl H; [discriminate|]. cbn [find_slot_from] in H.
  destruct (keyid_eqb (sl_dkey x) key) eqn:E.
  - inversion H; subst. exists 0%nat. split; [lia|]. split; [reflexivity | apply keyid_eqb_eq; exact E].
  - apply IH in H as (k & -> & Hk & Hd). exists (S k). split; [lia|]. split; assumption.
Qed.

Lemma prop_key_len sub kd : lenN (prop_key sub kd) = 6 + lenN kd.
Proof.
  unfold prop_key, prop_key_id. rewrite !lenN_app. change (lenN (var_slice pset_magic)) with 5.
  change (lenN [b8 sub]) with 1. lia.
Qed.

Lemma parse_prop_key_id id sub kd v : sub < 256 -> id <> [] -> lenN id < two64 ->
  parse_prop (mk_kpair PsetProprietary (prop_key_id id sub kd) v) = Some (mk_pd id sub kd v).
Proof.
  intros Hs Hne Hl. unfold parse_prop, prop_key_id, var_slice. cbn [k_data k_val]. rewrite <- !app_assoc.
  rewrite p_varint_app by exact Hl.
  destruct (N.eqb_spec (lenN id) 0) as [Z|_]; [destruct id; [congruence | discriminate Z]|].
  unfold lenN. rewrite takeN_app.
  cbn [app]. rewrite n8_b8_small by exact Hs. reflexivity.
Qed.
Lemma parse_prop_key sub kd v : sub < 256 ->
  parse_prop (mk_kpair PsetProprietary (prop_key sub kd) v) = Some (mk_pd pset_magic sub kd v).
Proof. intro Hs. apply parse_prop_key_id; [exact Hs | discriminate | reflexivity]. Qed.

Lemma sec_step_emitted tbl i sl kd v s :
  tbl_ok tbl = true -> nth_error tbl i = Some sl -> sl_ekey sl = sl_dkey sl ->
  sec_step tbl s (mk_kp_id (sl_ekey sl) kd v) = apply_slot i sl kd v s.
Proof.
  intros T Hi E. apply tbl_ok_parts in T as [ND KS]. destruct (KS sl (nth_error_In _ _ Hi)) as [K1 _].
  pose proof (find_slot_nth tbl 0 i sl ND Hi) as F.
  unfold PsetV2.sec_step, find_slot. rewrite E. destruct (sl_dkey sl) as [t|sub]; cbn [mk_kp_id k_type k_data k_val key_small] in *.
  - apply andb_true_iff in K1 as [_ K1]. apply negb_true_iff in K1. rewrite K1, F. reflexivity.
  - apply N.ltb_lt in K1. rewrite N.eqb_refl, parse_prop_key by exact K1.
    cbn [pd_id pd_sub pd_kd]. rewrite bytes_eqb_refl, F. reflexivity.
Qed.

Lemma entries_eqb_eq a b : entries_eqb a b = true -> a = b.
Proof.
  revert b; induction a as [|[k v] a IH]; intros [|[k' v'] b]; cbn; intro H; try discriminate; [reflexivity|].
  apply andb_true_iff in H as [H1 H2]. unfold entry_eqb in H1. cbn in H1. apply andb_true_iff in H1 as [Hk Hv].
  apply bytes_eqb_eq in Hk. apply bytes_eqb_eq in Hv. subst. f_equal. apply IH. exact H2.
Qed.
Lemma entries_eqb_refl l : entries_eqb l l = true.
Proof.
  induction l as [|[k v] l IH]; [reflexivity|]. cbn [entries_eqb]. unfold entry_eqb. cbn [fst snd].
  rewrite !bytes_eqb_refl, IH. reflexivity.
Qed.

Lemma ins_perm e l : Permutation (ins_entry e l) (e :: l).
Proof.
  induction l as [|x r IH]; [reflexivity|]. cbn [ins_entry]. destruct (key_num e <? key_num x); [reflexivity|].
  rewrite IH. apply perm_swap.
Qed.
Lemma sort_perm l : Permutation (sort_entries l) l.
Proof. apply fold_insert_perm, ins_perm. Qed.

(* multi-valued slot: decoding the emitted entries replays them through the decode arm *)
Lemma ms_fold tbl i sl m V lpre R P U :
  tbl_ok tbl = true -> nth_error tbl i = Some sl -> sl_ekey sl = sl_dkey sl -> sl_k sl = MS m ->
  length lpre = i ->
  forall todo acc res, m_replay m acc todo = ROk res ->
  fold_step tbl (mk_sec V (lpre ++ acc :: R) P U)
            (map (fun e => mk_kp_id (sl_ekey sl) (fst e) (snd e)) todo)
  = ROk (mk_sec V (lpre ++ res :: R) P U).
Proof.
  intros T Hi E K Ll. induction todo as [|e todo IH]; intros acc res H.
  - cbn in H. inversion H; subst. reflexivity.
  - cbn [PsetV2.m_replay] in H. apply cbind_ok in H as (acc' & H1 & H2).
    cbn [map fold_step]. rewrite (sec_step_emitted tbl i) by assumption.
    unfold PsetV2.apply_slot, list_at, set_list. rewrite K. cbn [s_vals s_lists s_props s_unks].
    rewrite nth_mid by exact Ll. rewrite H1. cbn [cbind]. rewrite lset_mid by exact Ll.
    apply IH. exact H2.
Qed.

(* what norm_vals and norm_lists do at one position (norm_vals_nth, norm_lists_nth) *)
Definition norm_val (sl : slot) (b : bytes) : bytes :=
  match sl_k sl with SS k al => if s_emits k al b then b else [] | MS _ => b end.
Definition norm_list (sl : slot) (l : list mentry) : list mentry :=
  match sl_k sl with MS m => m_emit m l | SS _ _ => l end.

(* on a well-formed store the slot at position i emits key pairs that fit the framing limits and that,
   read into a store still empty at that position, fill it with the normal form of what the slot held *)
Lemma slot_fold tbl i sl t vpre vsuf lpre lsuf P U :
  tbl_ok tbl = true -> nth_error tbl i = Some sl -> length vpre = i -> length lpre = i ->
  slot_wf i sl t = true ->
  exists a, emit_slot i sl t = ROk a /\ Forall (fun k => frame_ok k = true) a /\
    fold_step tbl (mk_sec (vpre ++ [] :: vsuf) (lpre ++ [] :: lsuf) P U) a =
    ROk (mk_sec ((vpre ++ [norm_val sl (val_at i t)]) ++ vsuf) ((lpre ++ [norm_list sl (list_at i t)]) ++ lsuf) P U).
Proof.
  intros T Hi Lv Ll W. destruct (tbl_ok_parts tbl T) as [_ KS]. destruct (KS sl (nth_error_In _ _ Hi)) as [_ K1].
  unfold PsetV2.slot_wf in W. unfold emit_slot, norm_val, norm_list.
  rewrite <- !app_assoc. cbn [app]. destruct (sl_k sl) as [k al|m] eqn:K.
  - apply andb_true_iff in W as [W Wk]. apply andb_true_iff in W as [Ws Wl].
    destruct (list_at i t); [|discriminate]. unfold PsetV2.s_wf in Ws.
    destruct (s_emits k al (val_at i t)); [|exists []; split; [reflexivity|]; split; [constructor | reflexivity]].
    eexists. split; [reflexivity|].
    rewrite orb_false_r in Wk. apply keyid_eqb_eq in Wk. apply andb_true_iff in Ws as [Ws Wn]. split.
    + constructor; [|constructor]. unfold frame_ok.
      destruct (sl_ekey sl); cbn [mk_kp_id k_type k_data k_val key_small] in *.
      * apply andb_true_iff in K1 as [K1 _]. rewrite K1, Wn. reflexivity.
      * rewrite prop_key_len, Wn. reflexivity.
    + unfold cres_bytes_eqb in Ws.
      destruct (s_dec k (s_emit k (val_at i t))) as [b| |] eqn:D; try discriminate. apply bytes_eqb_eq in Ws. subst b.
      cbn [fold_step]. rewrite (sec_step_emitted tbl i) by assumption.
      unfold PsetV2.apply_slot, val_at at 1, set_val. rewrite K. cbn [s_vals s_lists s_props s_unks].
      rewrite nth_mid by exact Lv. cbn [nonemptyb]. rewrite D. cbn [cbind]. rewrite lset_mid by exact Lv. reflexivity.
  - apply andb_true_iff in W as [W Wf]. apply andb_true_iff in W as [W Wk].
    apply andb_true_iff in W as [Wb Wm]. destruct (val_at i t); [|discriminate]. apply keyid_eqb_eq in Wk.
    eexists. split; [reflexivity|]. split.
    + apply Forall_map, Forall_forall. apply forallb_forall. exact Wf.
    + unfold PsetV2.m_wf in Wm.
      destruct (m_replay m [] (m_emit m (list_at i t))) as [l'| |] eqn:Rp; try discriminate.
      apply entries_eqb_eq in Wm. subst l'. exact (ms_fold tbl i sl m _ lpre _ P U T Hi Wk K Ll _ _ _ Rp).
Qed.

Lemma emit_fold tbl t P U : tbl_ok tbl = true ->
  forall suf i vpre lpre,
  skipn i tbl = suf -> length vpre = i -> length lpre = i ->
  length (skipn i (s_vals t)) = length suf -> length (skipn i (s_lists t)) = length suf ->
  slots_wf i suf t = true ->
  exists kps, emit_slots i suf t = ROk kps /\ Forall (fun k => frame_ok k = true) kps /\
    fold_step tbl (mk_sec (vpre ++ repeat [] (length suf)) (lpre ++ repeat [] (length suf)) P U) kps
    = ROk (mk_sec (vpre ++ norm_vals suf (skipn i (s_vals t))) (lpre ++ norm_lists suf (skipn i (s_lists t))) P U).
Proof.
  intro T. induction suf as [|sl suf IH]; intros i vpre lpre Et Lv Ll Hv Hl W.
  - destruct (skipn i (s_vals t)); [|discriminate]. destruct (skipn i (s_lists t)); [|discriminate].
    exists []. split; [reflexivity|]. split; [constructor | reflexivity].
  - destruct (skipn i (s_vals t)) as [|b vs] eqn:Ev; [discriminate|].
    destruct (skipn i (s_lists t)) as [|l ls] eqn:El; [discriminate|].
    apply skipn_cons_inv in Et as [Hi Et], Ev as [Hb Ev], El as [Hc El].
    cbn [PsetV2.slots_wf] in W. apply andb_true_iff in W as [W1 W2].
    destruct (slot_fold tbl i sl t vpre (repeat [] (length suf)) lpre (repeat [] (length suf)) P U T Hi Lv Ll W1) as (a & Ea & Fa & Sa).
    destruct (IH (S i) (vpre ++ [norm_val sl (val_at i t)]) (lpre ++ [norm_list sl (list_at i t)]) Et) as (kb & Eb & Fb & Sb);
      try assumption.
    + rewrite last_length. f_equal. exact Lv.
    + rewrite last_length. f_equal. exact Ll.
    + rewrite Ev. cbn [length] in Hv. congruence.
    + rewrite El. cbn [length] in Hl. congruence.
    + exists (a ++ kb). cbn [emit_slots]. rewrite Ea, Eb. split; [reflexivity|].
      split; [apply Forall_app; split; assumption|]. rewrite fold_step_app. cbn [length repeat]. rewrite Sa. cbn [cbind]. rewrite Sb.
      unfold val_at, list_at. rewrite (nth_error_nth _ _ _ Hb), (nth_error_nth _ _ _ Hc), Ev, El, <- !app_assoc. reflexivity.
Qed.

Lemma eff_id_nonempty id : eff_id id <> [].
Proof. destruct id; discriminate. Qed.

Lemma props_fold tbl V L U : forall ps P,
  forallb (prop_wf tbl) ps = true ->
  fold_step tbl (mk_sec V L P U) (map prop_kp ps) = ROk (mk_sec V L (P ++ map norm_pd ps) U).
Proof.
  induction ps as [|p ps IH]; intros P W; [cbn; rewrite app_nil_r; reflexivity|].
  cbn [forallb] in W. apply andb_true_iff in W as [Wp W]. unfold prop_wf in Wp.
  apply andb_true_iff in Wp as [Wp Wfr]. apply andb_true_iff in Wp as [Ws Wf]. apply N.ltb_lt in Ws.
  assert (Hl : lenN (eff_id (pd_id p)) < two64).
  { apply frame_ok_iff in Wfr as (_ & Hk & _). unfold prop_kp in Hk. cbn [k_data] in Hk.
    unfold prop_key_id, var_slice in Hk. rewrite !lenN_app, maxKeyLen_val in Hk. unfold two64. lia. }
  cbn [map fold_step]. unfold PsetV2.sec_step, prop_kp. cbn [k_type k_data k_val]. rewrite N.eqb_refl.
  rewrite parse_prop_key_id by (try exact Ws; try exact Hl; apply eff_id_nonempty). cbn [pd_id pd_sub pd_kd].
  assert (Add : ROk (add_prop (mk_pd (eff_id (pd_id p)) (pd_sub p) (pd_kd p) (pd_val p)) (mk_sec V L P U))
                = ROk (mk_sec V L (P ++ [norm_pd p]) U)) by reflexivity.
  destruct (bytes_eqb (eff_id (pd_id p)) pset_magic); [destruct (find_slot (KProp (pd_sub p)) tbl); [discriminate|]|];
    rewrite Add; cbn [cbind]; rewrite IH by exact W; rewrite <- app_assoc; reflexivity.
Qed.

Lemma unks_fold tbl V L P : forall us U,
  forallb (unk_wf tbl) us = true ->
  fold_step tbl (mk_sec V L P U) us = ROk (mk_sec V L P (U ++ us)).
Proof.
  induction us as [|k us IH]; intros U W; [cbn; rewrite app_nil_r; reflexivity|].
  cbn [forallb] in W. apply andb_true_iff in W as [Wk W]. unfold unk_wf in Wk.
  apply andb_true_iff in Wk as [Wk _]. apply andb_true_iff in Wk as [Wt Wf]. apply negb_true_iff in Wt.
  cbn [fold_step]. unfold PsetV2.sec_step. rewrite Wt.
  destruct (find_slot (KStd (k_type k)) tbl); [discriminate|]. cbn [cbind].
  unfold add_unk. cbn [s_vals s_lists s_props s_unks]. rewrite IH by exact W. rewrite <- app_assoc. reflexivity.
Qed.

(* the field-table theorem: for any table whose decode labels are distinct one-byte keys, a
   well-formed store serializes, and its serialization followed by anything parses back to the
   normal form of the store, consuming exactly what was written *)
Theorem section_roundtrip tbl sanity s :
  tbl_ok tbl = true -> wf_sec tbl sanity s = true ->
  exists bs, ser_section tbl s = ROk bs /\ bs <> [] /\
    forall rest, parse_section tbl sanity (bs ++ rest) = ROk (norm_sec tbl s, rest).
Proof.
  intros T W. unfold PsetV2.wf_sec in W. rewrite !andb_true_iff in W.
  destruct W as [[[[[Lv Ll] Ws] Wp] Wu] Wsan]. apply Nat.eqb_eq in Lv, Ll.
  destruct (emit_fold tbl s [] [] T tbl 0 [] [] eq_refl eq_refl eq_refl Lv Ll Ws) as (kps & Ek & Fk & F).
  unfold ser_section, kps_of. rewrite Ek. cbn [cbind]. eexists. split; [reflexivity|].
  split; [intro E; apply app_eq_nil in E as [_ E]; discriminate|].
  intro rest. apply parse_section_iff. exists (kps ++ map prop_kp (s_props s) ++ s_unks s).
  split; [rewrite <- app_assoc; reflexivity|]. split; [|split; [|exact Wsan]].
  - apply Forall_app. split; [exact Fk|]. apply Forall_app. split; apply Forall_forall; intros k Hk.
    + apply in_map_iff in Hk as (p & <- & Hp). rewrite forallb_forall in Wp. apply Wp in Hp.
      unfold prop_wf in Hp. apply andb_true_iff in Hp. apply Hp.
    + rewrite forallb_forall in Wu. apply Wu in Hk. unfold unk_wf in Hk. apply andb_true_iff in Hk. apply Hk.
  - cbn [app skipn] in F. rewrite fold_step_app. unfold empty_sec. rewrite F. cbn [cbind]. rewrite fold_step_app.
    rewrite props_fold by exact Wp. cbn [cbind]. rewrite unks_fold by exact Wu. reflexivity.
Qed.

Lemma norm_val_nil sl : norm_val sl [] = [].
Proof. unfold norm_val. destruct (sl_k sl) as [k al|]; [destruct (s_emits k al [])|]; reflexivity. Qed.
Lemma norm_list_nil sl : norm_list sl [] = [].
Proof. unfold norm_list. destruct (sl_k sl) as [|[]]; reflexivity. Qed.

Lemma norm_vals_nth : forall tbl vs i,
  nth i (norm_vals tbl vs) [] =
  match nth_error tbl i with Some sl => norm_val sl (nth i vs []) | None => nth i vs [] end.
Proof.
  induction tbl as [|sl t IH]; intros [|b vs] [|i]; cbn [norm_vals nth nth_error];
    rewrite ?norm_val_nil; try reflexivity; [|apply IH].
  destruct (nth_error t i); [symmetry; apply norm_val_nil | reflexivity].
Qed.

Lemma norm_lists_nth : forall tbl ls i,
  nth i (norm_lists tbl ls) [] =
  match nth_error tbl i with Some sl => norm_list sl (nth i ls []) | None => nth i ls [] end.
Proof.
  induction tbl as [|sl t IH]; intros [|l ls] [|i]; cbn [norm_lists nth nth_error];
    rewrite ?norm_list_nil; try reflexivity; [|apply IH].
  destruct (nth_error t i); [symmetry; apply norm_list_nil | reflexivity].
Qed.

(* c is exactly what the section decoder consumes when it returns s *)
Definition sec_exact (tbl : list slot) (sanity : sec -> bool) (c : bytes) (s : sec) : Prop :=
  c <> [] /\ forall r, parse_section tbl sanity (c ++ r) = ROk (s, r).

Lemma parse_section_consumed tbl sanity bs s r : parse_section tbl sanity bs = ROk (s, r) ->
  exists c, bs = c ++ r /\ sec_exact tbl sanity c s.
Proof.
  intro H. apply parse_section_iff in H as (kps & -> & F & Fo & San).
  exists (enc_kps kps ++ [pset_sep]). split; [rewrite <- app_assoc; reflexivity|].
  split; [intro E; apply app_eq_nil in E as [_ E]; discriminate|].
  intro r'. apply parse_section_iff. exists kps. rewrite <- app_assoc. auto.
Qed.

Lemma sec_exact_intro tbl sanity c s : parse_section tbl sanity c = ROk (s, []) -> sec_exact tbl sanity c s.
Proof. intro H. apply parse_section_consumed in H as (c' & E & X). rewrite app_nil_r in E. subst c'. exact X. Qed.

Lemma parse_secs_exact tbl sanity cs l : Forall2 (sec_exact tbl sanity) cs l ->
  forall fuel r, (length (concat cs) < fuel)%nat ->
  parse_secs tbl sanity fuel (lenL l) (concat cs ++ r) = ROk (l, r).
Proof.
  induction 1 as [|c s cs l [Nc Pc] _ IH]; intros fuel r Lf; [destruct fuel; reflexivity|].
  destruct fuel as [|f]; [lia|]. cbn [concat] in *. rewrite app_length in Lf.
  cbn [PsetV2.parse_secs]. rewrite <- app_assoc, Pc. cbn [cbind fst snd].
  replace (N.pred (lenL (s :: l))) with (lenL l) by (unfold lenL; cbn [length]; lia).
  rewrite IH by (destruct c; [congruence | cbn [length] in Lf; lia]). reflexivity.
Qed.

Lemma parse_secs_inv tbl sanity : forall fuel n bs l r, parse_secs tbl sanity fuel n bs = ROk (l, r) ->
  lenL l = n /\ exists cs, bs = concat cs ++ r /\ Forall2 (sec_exact tbl sanity) cs l.
Proof.
  induction fuel as [|f IH]; intros n bs l r H; cbn [PsetV2.parse_secs] in H;
    destruct (N.eqb_spec n 0) as [->|NZ]; try discriminate.
  1,2: inversion H; subst; split; [reflexivity | exists []; split; [reflexivity | constructor]].
  apply cbind_ok in H as ([s0 r0] & H1 & H2). cbn [fst snd] in H2.
  apply cbind_ok in H2 as ([l1 r1] & H2 & H3). cbn [fst snd] in H3. inversion H3; subst l r; clear H3.
  apply parse_section_consumed in H1 as (c & -> & Xc). apply IH in H2 as (Ln & cs & -> & Xs).
  split; [unfold lenL in *; cbn [length]; lia|].
  exists (c :: cs). cbn [concat]. rewrite <- app_assoc. split; [reflexivity | constructor; assumption].
Qed.

Lemma ser_secs_exact tbl sanity : tbl_ok tbl = true ->
  forall l, forallb (wf_sec tbl sanity) l = true ->
  exists cs, ser_secs tbl l = ROk (concat cs) /\ Forall2 (sec_exact tbl sanity) cs (map (norm_sec tbl) l).
Proof.
  intro T. induction l as [|s l IH]; intro W; [exists []; split; [reflexivity | constructor]|].
  cbn [forallb] in W. apply andb_true_iff in W as [W1 W2].
  destruct (section_roundtrip tbl sanity s T W1) as (c & Sc & Xc). destruct (IH W2) as (cs & Ss & Xs).
  exists (c :: cs). cbn [ser_secs concat map]. rewrite Sc, Ss. split; [reflexivity | constructor; [exact Xc | exact Xs]].
Qed.

Lemma global_tbl_ok : tbl_ok global_tbl = true. Proof. vm_compute. reflexivity. Qed.
Lemma input_tbl_ok : tbl_ok input_tbl = true. Proof. vm_compute. reflexivity. Qed.
Lemma output_tbl_ok : tbl_ok output_tbl = true. Proof. vm_compute. reflexivity. Qed.

(* both counts are always written, so the normal form keeps them *)
Lemma counts_norm g :
  num_val gInputCount (norm_sec global_tbl g) = num_val gInputCount g /\
  num_val gOutputCount (norm_sec global_tbl g) = num_val gOutputCount g.
Proof. unfold num_val, val_at, norm_sec. cbn [s_vals]. rewrite !norm_vals_nth. split; reflexivity. Qed.

Lemma parse_pset_of_rest bs : parse_pset bs = cbind (parse_pset_rest bs) (fun pr => ROk (fst pr)).
Proof.
  unfold PsetV2.parse_pset, PsetV2.parse_pset_rest. destruct (take 5 bs) as [[m r]|]; [|reflexivity].
  destruct (bytes_eqb m magic_sep); [|reflexivity].
  destruct (parse_section global_tbl global_sanity r) as [[g r1]| |]; cbn [cbind fst snd]; try reflexivity.
  destruct (parse_secs input_tbl input_sanity (S (length r1)) (num_val gInputCount g) r1) as [[i r2]| |]; cbn [cbind fst snd]; try reflexivity.
  destruct (parse_secs output_tbl output_sanity (S (length r2)) (num_val gOutputCount g) r2) as [[o r3]| |]; cbn [cbind fst snd]; try reflexivity.
  destruct (pset_sanity (mk_pset g i o)); reflexivity.
Qed.

Lemma parse_pset_accepts bs p : parse_pset bs = ROk p <-> exists rest, parse_pset_rest bs = ROk (p, rest).
Proof.
  rewrite parse_pset_of_rest. split.
  - intro H. apply cbind_ok in H as ([p' r] & H1 & H2). cbn in H2. inversion H2; subst. exists r. exact H1.
  - intros [r H]. rewrite H. reflexivity.
Qed.

(* a packet is accepted exactly when the input is the magic bytes, then what the global decoder
   consumes, then what the input and output decoders consume for as many sections as the global
   section counts; what follows is left unread *)
Lemma parse_pset_rest_iff bs p rest :
  parse_pset_rest bs = ROk (p, rest) <->
  exists cg ci co, bs = magic_sep ++ cg ++ concat ci ++ concat co ++ rest /\
    sec_exact global_tbl global_sanity cg (p_global p) /\
    Forall2 (sec_exact input_tbl input_sanity) ci (p_ins p) /\
    Forall2 (sec_exact output_tbl output_sanity) co (p_outs p) /\
    num_val gInputCount (p_global p) = lenL (p_ins p) /\ num_val gOutputCount (p_global p) = lenL (p_outs p) /\
    pset_sanity p = true.
Proof.
  unfold PsetV2.parse_pset_rest. split.
  - intro H. destruct (take 5 bs) as [[m r0]|] eqn:T; [|discriminate]. apply take_inv in T as [-> _].
    destruct (bytes_eqb m magic_sep) eqn:Em; [|discriminate]. apply bytes_eqb_eq in Em. subst m.
    apply cbind_ok in H as ([g r1] & Hg & H). cbn [fst snd] in H.
    apply cbind_ok in H as ([i r2] & Hi & H). cbn [fst snd] in H.
    apply cbind_ok in H as ([o r3] & Ho & H). cbn [fst snd] in H.
    destruct (pset_sanity (mk_pset g i o)) eqn:PS; [|discriminate]. inversion H; subst p rest.
    apply parse_section_consumed in Hg as (cg & -> & Xg).
    apply parse_secs_inv in Hi as (Ci & ci & -> & Xi). apply parse_secs_inv in Ho as (Co & co & -> & Xo).
    exists cg, ci, co. auto 8.
  - intros (cg & ci & co & -> & [_ Pg] & Xi & Xo & Ci & Co & PS). destruct p as [g i o]. cbn [p_global p_ins p_outs] in *.
    rewrite (take_app_n 5 magic_sep) by reflexivity. rewrite bytes_eqb_refl, Pg. cbn [cbind fst snd].
    rewrite Ci, (parse_secs_exact _ _ _ _ Xi) by (rewrite app_length; lia). cbn [cbind fst snd].
    rewrite Co, (parse_secs_exact _ _ _ _ Xo) by (rewrite app_length; lia). cbn [cbind fst snd].
    rewrite PS. reflexivity.
Qed.

(* every well-formed packet serializes, and the decoder consumes exactly these bytes, whatever
   follows them, and returns the normal form of the packet *)
Theorem pset_parse_ser_rest p : wf_pset p = true ->
  exists bs, ser_pset p = ROk bs /\ forall rest, parse_pset_rest (bs ++ rest) = ROk (norm_pset p, rest).
Proof.
  intro W. unfold PsetV2.wf_pset in W. rewrite !andb_true_iff in W.
  destruct W as [[[[[Wg Wi] Wo] Ci] Co] San]. apply N.eqb_eq in Ci, Co.
  destruct (section_roundtrip global_tbl global_sanity (p_global p) global_tbl_ok Wg) as (bg & Sg & Xg).
  destruct (ser_secs_exact input_tbl input_sanity input_tbl_ok (p_ins p) Wi) as (ci & Si & Xi).
  destruct (ser_secs_exact output_tbl output_sanity output_tbl_ok (p_outs p) Wo) as (co & So & Xo).
  exists (magic_sep ++ bg ++ concat ci ++ concat co). unfold ser_pset. rewrite Sg, Si, So. split; [reflexivity|].
  intro rest. apply parse_pset_rest_iff. exists bg, ci, co. rewrite <- !app_assoc.
  cbn [norm_pset p_global p_ins p_outs]. destruct (counts_norm (p_global p)) as [-> ->]. rewrite !lenL_map.
  auto 8.
Qed.

(* every well-formed packet serializes, and the bytes (followed by anything) parse back to its normal form *)
Theorem pset_parse_ser p : wf_pset p = true ->
  exists bs, ser_pset p = ROk bs /\ forall rest, parse_pset (bs ++ rest) = ROk (norm_pset p).
Proof.
  intro W. destruct (pset_parse_ser_rest p W) as (bs & S & P). exists bs. split; [exact S|].
  intro rest. rewrite parse_pset_of_rest, P. reflexivity.
Qed.

Corollary pset_parse_ser_nil p : wf_pset p = true ->
  exists bs, ser_pset p = ROk bs /\ parse_pset bs = ROk (norm_pset p).
Proof.
  intro W. destruct (pset_parse_ser p W) as (bs & S & P). exists bs. split; [exact S|].
  rewrite <- (app_nil_r bs). apply P.
Qed.

End Codec.
