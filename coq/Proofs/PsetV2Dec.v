(* The PSET v2 parser model as a decoder (C12).  Everything follows from one fact: acceptance depends
   on the consumed bytes only (psetv2_consumed_exact). *)
From GE Require Import Lib.Bytes Lib.Varint Model.Tx Model.PsetV2 Proofs.PsetV2 Proofs.PsetV2Inv Proofs.PsetV2Ex.
From Coq Require Import ZifyBool ZifyN ZifyNat.
Open Scope N_scope.

Section Dec.
Variable pk_ok der_ok xonly_ok : bytes -> bool.
Variable msgtx_canon : bytes -> option bytes.

Notation parse_pset := (parse_pset pk_ok der_ok xonly_ok msgtx_canon).
Notation parse_pset_rest := (parse_pset_rest pk_ok der_ok xonly_ok msgtx_canon).
Notation wf_pset := (wf_pset pk_ok der_ok xonly_ok msgtx_canon).

(* acceptance depends on the consumed bytes only: the input splits into a consumed part c and the
   unread rest, and c followed by anything gives the same packet *)
Theorem psetv2_consumed_exact bs p rest : parse_pset_rest bs = ROk (p, rest) ->
  exists c, bs = c ++ rest /\ forall r', parse_pset_rest (c ++ r') = ROk (p, r').
Proof.
  intro H. apply parse_pset_rest_iff in H as (cg & ci & co & -> & X).
  exists (magic_sep ++ cg ++ concat ci ++ concat co). rewrite <- !app_assoc. split; [reflexivity|].
  intro r'. apply parse_pset_rest_iff. exists cg, ci, co. rewrite <- !app_assoc. split; [reflexivity | exact X].
Qed.

(* hence acceptance of a packet is stable under extension of the input: same packet, remainder extended *)
Theorem psetv2_parse_stable bs p r ext :
  parse_pset_rest bs = ROk (p, r) -> parse_pset_rest (bs ++ ext) = ROk (p, r ++ ext).
Proof. intro H. apply psetv2_consumed_exact in H as (c & -> & P). rewrite <- app_assoc. apply P. Qed.

(* no prefix that stops short of what the decoder consumed is accepted: if bs is accepted leaving
   `rest` unread, every prefix of bs that cuts into the consumed part is rejected *)
Theorem psetv2_short_prefix_rejected bs p rest pre suf :
  parse_pset_rest bs = ROk (p, rest) -> bs = pre ++ suf -> (length rest < length suf)%nat ->
  parse_pset pre = RErr.
Proof.
  intros H -> L. destruct (parse_pset pre) as [p'| |] eqn:P; [|reflexivity|].
  - exfalso. apply parse_pset_accepts in P as [r' P]. apply (psetv2_parse_stable _ _ _ suf) in P.
    rewrite H in P. inversion P; subst. rewrite app_length in L. lia.
  - exfalso. apply (parse_pset_no_panic pk_ok der_ok xonly_ok msgtx_canon pre). exact P.
Qed.

(* the bytes consumed are exactly the serialization when the input is one: for a well-formed packet
   the decoder consumes length (ser p) bytes, no more and no less *)
Theorem psetv2_accepted_size p bs rest : wf_pset p = true -> ser_pset p = ROk bs ->
  parse_pset_rest (bs ++ rest) = ROk (norm_pset p, rest).
Proof.
  intros W S. destruct (pset_parse_ser_rest _ _ _ _ p W) as (bs' & S' & P). rewrite S in S'. inversion S'; subst. apply P.
Qed.

End Dec.

Notation parse_ex_rest := (parse_pset_rest o_true o_true o_true o_id).

(* bytes consumed and length of the re-serialization differ in general, in both directions: an output
   section that omits the always-written amount, script and blinder index is accepted and re-serialized
   longer; a field written with a zero value or with key data the decoder ignores is re-serialized shorter *)
Definition ex_stream_sparse (extra : list kpair) : bytes :=
  magic_sep ++ enc_kps [mk_kpair 2 [] (le_enc 4 2); mk_kpair 4 [] [x00]; mk_kpair 5 [] [x01]; mk_kpair 251 [] (le_enc 4 2)] ++ [pset_sep]
            ++ enc_kps ([mk_kpair 252 (prop_key 2 []) (repeat x22 32)] ++ extra) ++ [pset_sep].
Definition size_check (bs : bytes) (longer : bool) : bool :=
  match parse_ex_rest bs with
  | ROk (p, []) => match ser_pset p with
                   | ROk bs' => if longer then (length bs <? length bs')%nat else (length bs' <? length bs)%nat
                   | _ => false end
  | _ => false end.
Example ex_reser_longer : size_check (ex_stream_sparse []) true = true. Proof. vm_compute. reflexivity. Qed.
Example ex_reser_shorter :
  size_check (ex_stream_sparse [mk_kpair 3 [xaa; xbb] (le_enc 8 0); mk_kpair 4 [x01] []; mk_kpair 252 (prop_key 8 [x07]) (le_enc 4 0);
                                mk_kpair 0 [x09] [x51]; mk_kpair 1 [x09; x09; x09; x09; x09; x09; x09; x09; x09; x09; x09; x09; x09; x09; x09; x09; x09; x09; x09; x09; x09; x09; x09; x09; x09; x09; x09; x09; x09; x09] [x51]]) false = true.
Proof. vm_compute. reflexivity. Qed.
