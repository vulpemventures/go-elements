(* Everything the PSET v2 parser model returns: it never panics, and what it accepts lies in the
   round-trip domain.  The second is an invariant of the deserialize loop (secI): a single-valued
   position is absent or holds a decoder output, a multi-valued one holds entries that replay to
   themselves; the invariant implies wf_sec given facts about the three tables that are checked
   by computation (tbl_good). *)
From GE Require Import Lib.Bytes Lib.Varint Model.Tx Model.PsetV2 Proofs.TxCodec Proofs.PsetV2.
From Coq Require Import ZifyBool ZifyN ZifyNat Permutation.
Open Scope N_scope.

(* takes apart, one after the other, the tests a decode arm makes *)
Ltac case_tests :=
  repeat match goal with
         | |- context [if ?c then _ else _] => destruct c
         | |- context [match ?x with _ => _ end] => destruct x
         end.

Lemma cbind_np {A B} (x : cres A) (f : A -> cres B) :
  x <> RPanic -> (forall a, f a <> RPanic) -> cbind x f <> RPanic.
Proof. destruct x; cbn; auto; congruence. Qed.

Lemma varint_len_le v : lenN (varint v) <= 9.
Proof. rewrite varint_length. unfold varint_size. destruct (v <? 0xfd), (v <=? 0xffff), (v <=? 0xffffffff); lia. Qed.

Lemma parse_prop_inv k pd : parse_prop k = Some pd ->
  k_data k = prop_key_id (pd_id pd) (pd_sub pd) (pd_kd pd) /\ pd_id pd <> [] /\ pd_sub pd < 256 /\ pd_val pd = k_val k.
Proof.
  unfold parse_prop. destruct (p_varint (k_data k)) as [[n r]|] eqn:P; [|discriminate].
  destruct (N.eqb_spec n 0) as [Z|NZ]; [discriminate|].
  destruct (takeN n r) as [[id r2]|] eqn:T; [|discriminate].
  destruct r2 as [|sb kd]; [discriminate|]. intro H; inversion H; subst pd; clear H. cbn [pd_id pd_sub pd_kd pd_val].
  apply p_varint_inv in P as [E _]. apply takeN_inv in T as [-> Ln].
  split; [|split; [|split; [apply n8_lt | reflexivity]]].
  - rewrite E. unfold prop_key_id, var_slice, lenN. rewrite Ln, b8_n8, <- app_assoc. reflexivity.
  - intro Z. subst id. cbn in Ln. lia.
Qed.

Section Single.
Variable pk_ok : bytes -> bool.
Variable msgtx_canon : bytes -> option bytes.
Notation s_dec := (s_dec pk_ok msgtx_canon).
Notation s_wf := (s_wf pk_ok msgtx_canon).

Lemma s_dec_np k v : s_dec k v <> RPanic.
Proof. destruct k; cbn [PsetV2.s_dec]; case_tests; discriminate. Qed.

(* s_wf k al b says: if the slot writes b at all (s_emits), decoding what it writes gives b back and
   the bytes written fit a 64-bit length.  So a value is well formed as soon as it is stable under
   emit-then-decode. *)
Lemma wf_of_stable k al b : s_dec k (s_emit k b) = ROk b -> lenN (s_emit k b) < two64 -> s_wf k al b = true.
Proof.
  intros D L. unfold PsetV2.s_wf. destruct (s_emits k al b); [|reflexivity].
  rewrite D. cbn [cres_bytes_eqb]. rewrite bytes_eqb_refl. apply N.ltb_lt. exact L.
Qed.

(* every non-witness UTXO the decoder returns is stable, whatever flag byte it was read with (C01):
   its serialization parses to its normal form, whose flag is 0 or 1 and which serializes alike *)
Lemma tx_stable_any al v t r : parse_tx v = Some (t, r) -> lenN v < two64 -> s_wf KTx al (ser_full t) = true.
Proof.
  intros P L. destruct (parse_tx_any_flag v t r P) as (_ & Ln & Q). specialize (Q []). rewrite app_nil_r in Q.
  pose proof (tx_ser_parse _ _ _ Q (canonical_flag_norm t)) as E. rewrite app_nil_r in E.
  apply wf_of_stable; cbn [s_emit PsetV2.s_dec].
  - rewrite Q, E. reflexivity.
  - lia.
Qed.

(* a witness UTXO whose canonical encoding has the 44 bytes readTxOut asks for *)
Lemma txout_stable al v b : read_txout v = Some b -> (44 <= length b)%nat -> lenN v < two64 -> s_wf KTxOut al b = true.
Proof.
  unfold read_txout. destruct (length v <? 44)%nat; [discriminate|].
  destruct (p_asset v) as [[a r1]|] eqn:P1; [|discriminate].
  destruct (p_value r1) as [[val r2]|] eqn:P2; [|discriminate].
  destruct (p_nonce r2) as [[n r3]|] eqn:P3; [|discriminate].
  destruct (p_var_slice r3) as [[sc r4]|] eqn:P4; [|discriminate].
  intro H; inversion H; subst b; clear H. intros L45 Lv.
  apply p_asset_inv in P1 as [-> Ha]. apply p_value_inv in P2 as [-> Hv]. apply p_nonce_inv in P3 as [-> Hn].
  apply p_var_slice_inv in P4 as [-> Hs].
  apply wf_of_stable; cbn [s_emit PsetV2.s_dec].
  - unfold read_txout. rewrite (proj2 (Nat.ltb_ge _ _) L45).
    rewrite p_asset_app by exact Ha. rewrite p_value_app by exact Hv. rewrite p_nonce_app by exact Hn.
    rewrite <- (app_nil_r (var_slice sc)). rewrite p_var_slice_app by exact Hs. rewrite app_nil_r. reflexivity.
  - rewrite !lenN_app in *. lia.
Qed.

(* what is asked of the externally decoded values an accepted packet holds: a witness UTXO must have
   the 44 canonical bytes readTxOut asks for, a peg-in transaction (btcd wire.MsgTx, an oracle here)
   must re-decode to itself; a non-witness UTXO needs nothing (C01) *)
Definition s_extb (k : skind) (b : bytes) : bool :=
  match k with
  | KTxOut => (44 <=? length b)%nat || negb (nonemptyb b)
  | KMsgTx => s_wf KMsgTx false b
  | _ => true
  end.

(* a non-empty decoder output is a fixpoint of its own decoder *)
Lemma dec_out_wf k al v b :
  s_dec k v = ROk b -> lenN v < two64 -> b <> [] -> s_extb k b = true -> s_wf k al b = true.
Proof.
  intros D Lv Nb X. destruct k; cbn [PsetV2.s_dec s_extb] in D, X.
  (* KBytes, KPtr, KModif, KPub: stored as decoded *)
  1,3,4,11: match type of D with (if ?c then _ else _) = _ => destruct c eqn:E end; [|discriminate];
    inversion D; subst b; apply wf_of_stable; cbn [s_emit PsetV2.s_dec]; [rewrite E; reflexivity | exact Lv].
  - (* KInt *) destruct (length v =? n)%nat eqn:E; [|discriminate].
    destruct (N.eqb_spec (le_dec v) 0) as [Z|NZ]; inversion D; subst b; [congruence|].
    assert (Em : s_emit (KInt n) v = v) by (destruct v; [congruence | reflexivity]).
    apply wf_of_stable; rewrite Em; [|exact Lv]. cbn [PsetV2.s_dec]. rewrite E, (proj2 (N.eqb_neq _ _) NZ). reflexivity.
  - (* KBool *) destruct v as [|c [|]]; try discriminate. inversion D; subst b.
    apply wf_of_stable; [destruct (n8 c =? 1)|]; reflexivity.
  - (* KCount *) destruct (p_varint v) as [[n r]|] eqn:P; [|discriminate].
    destruct r; [|discriminate]. apply p_varint_inv in P as [_ Hn].
    remember (le_enc 8 n) as e eqn:He.
    destruct (N.eqb_spec n 0) as [Z|NZ]; inversion D; subst b; [congruence|]. subst e.
    assert (Ld : le_dec (le_enc 8 n) = n) by (apply le_dec_enc; exact Hn).
    apply wf_of_stable; cbn [s_emit]; rewrite Ld.
    + cbn [PsetV2.s_dec]. pose proof (p_varint_app n [] Hn) as Q. rewrite app_nil_r in Q.
      rewrite Q, (proj2 (N.eqb_neq _ _) NZ). reflexivity.
    + pose proof (varint_len_le n). unfold two64. lia.
  - (* KTx *) destruct (parse_tx v) as [[t r]|] eqn:P; [|discriminate]. inversion D; subst b.
    apply (tx_stable_any al v t r P Lv).
  - (* KTxOut *) destruct (read_txout v) as [b'|] eqn:P; [|discriminate]. inversion D; subst b'.
    apply (txout_stable al v b P); [|exact Lv]. destruct b; [congruence|].
    rewrite orb_false_r in X. apply Nat.leb_le. exact X.
  - (* KMsgTx *) destruct b; [congruence|]. destruct al; exact X.
  - (* KVec *) destruct (p_vector v) as [[l r]|] eqn:P; [|discriminate].
    apply p_vector_inv in P as [-> Wl]. destruct l as [|x l]; inversion D; subst b; [congruence|].
    apply wf_of_stable; cbn [s_emit].
    + cbn [PsetV2.s_dec]. pose proof (p_vector_app (x :: l) [] Wl) as Q. rewrite app_nil_r in Q. rewrite Q. reflexivity.
    + rewrite lenN_app in Lv. lia.
Qed.

(* the value of a single-valued slot after the deserialize loop: absent, or a decoder output; it
   is well formed when absent values of always-written fields decode back to absent *)
Lemma ss_wf k al b :
  (al = true -> b = [] -> s_dec k (s_emit k []) = ROk [] /\ lenN (s_emit k []) < two64) ->
  (b = [] \/ exists v, lenN v < two64 /\ s_dec k v = ROk b) -> s_extb k b = true -> s_wf k al b = true.
Proof.
  intros Habs Hb X. destruct b as [|c b].
  - unfold PsetV2.s_wf. destruct (s_emits k al []) eqn:E; [|reflexivity].
    destruct al; [|destruct k; discriminate E]. destruct (Habs eq_refl eq_refl) as [D L].
    rewrite D. apply N.ltb_lt. exact L.
  - destruct Hb as [Z|(v & Lv & D)]; [discriminate Z|]. apply (dec_out_wf k al v _ D Lv); [discriminate | exact X].
Qed.

End Single.

Section Inv.
Variable pk_ok der_ok xonly_ok : bytes -> bool.
Variable msgtx_canon : bytes -> option bytes.

Notation sec_step := (sec_step pk_ok der_ok xonly_ok msgtx_canon).
Notation parse_kps := (parse_kps pk_ok der_ok xonly_ok msgtx_canon).
Notation parse_section := (parse_section pk_ok der_ok xonly_ok msgtx_canon).
Notation parse_secs := (parse_secs pk_ok der_ok xonly_ok msgtx_canon).
Notation parse_pset := (parse_pset pk_ok der_ok xonly_ok msgtx_canon).
Notation apply_slot := (apply_slot pk_ok der_ok xonly_ok msgtx_canon).
Notation s_dec := (s_dec pk_ok msgtx_canon).
Notation s_wf := (s_wf pk_ok msgtx_canon).
Notation m_step := (m_step pk_ok der_ok xonly_ok).
Notation m_replay := (m_replay pk_ok der_ok xonly_ok).
Notation m_wf := (m_wf pk_ok der_ok xonly_ok).
Notation wf_sec := (wf_sec pk_ok der_ok xonly_ok msgtx_canon).
Notation sec_exact := (sec_exact pk_ok der_ok xonly_ok msgtx_canon).

(* a decode arm of a multi-valued field rejects, or returns the entries with one added or replaced *)
Definition m_result (m : mkind) (kd v : bytes) (l : list mentry) : list mentry :=
  match m with
  | MScalar => l ++ [(kd, [])]
  | MMap n => map_put (fixlen n kd) v l
  | _ => l ++ [(kd, v)]
  end.
Lemma m_step_cases m kd v l : m_step m kd v l = RErr \/ m_step m kd v l = ROk (m_result m kd v l).
Proof. destruct m; cbn [PsetV2.m_step m_result]; case_tests; auto. Qed.

Lemma apply_slot_np i sl kd v s : apply_slot i sl kd v s <> RPanic.
Proof.
  unfold PsetV2.apply_slot. destruct (sl_k sl).
  - destruct (nonemptyb (val_at i s)); [discriminate|]. apply cbind_np; [apply s_dec_np | discriminate].
  - destruct (m_step_cases m kd v (list_at i s)) as [E|E]; rewrite E; discriminate.
Qed.

Lemma sec_step_np tbl s k : sec_step tbl s k <> RPanic.
Proof.
  unfold PsetV2.sec_step.
  destruct (k_type k =? PsetProprietary).
  - destruct (parse_prop k) as [pd|]; [|discriminate].
    destruct (bytes_eqb (pd_id pd) pset_magic); [|discriminate].
    destruct (find_slot (KProp (pd_sub pd)) tbl) as [[i sl]|]; [apply apply_slot_np | discriminate].
  - destruct (find_slot (KStd (k_type k)) tbl) as [[i sl]|]; [apply apply_slot_np | discriminate].
Qed.

Lemma parse_kps_np tbl : forall fuel s bs, parse_kps tbl fuel s bs <> RPanic.
Proof.
  induction fuel as [|f IH]; intros s bs; [discriminate|]. cbn [PsetV2.parse_kps].
  destruct (read_kp bs); try discriminate. apply cbind_np; [apply sec_step_np | intro a; apply IH].
Qed.

Lemma parse_section_np tbl sanity bs : parse_section tbl sanity bs <> RPanic.
Proof.
  unfold PsetV2.parse_section. apply cbind_np; [apply parse_kps_np|]. intro a. destruct (sanity (fst a)); discriminate.
Qed.

Lemma parse_secs_np tbl sanity : forall fuel n bs, parse_secs tbl sanity fuel n bs <> RPanic.
Proof.
  induction fuel as [|f IH]; intros n bs; cbn [PsetV2.parse_secs]; destruct (n =? 0); try discriminate.
  apply cbind_np; [apply parse_section_np|]. intro a. apply cbind_np; [apply IH | discriminate].
Qed.

(* decoders are total and panic-free: every byte string is accepted or rejected *)
Theorem parse_pset_no_panic bs : parse_pset bs <> RPanic.
Proof.
  unfold PsetV2.parse_pset. destruct (take 5 bs) as [[m r]|]; [|discriminate].
  destruct (bytes_eqb m magic_sep); [|discriminate].
  apply cbind_np; [apply parse_section_np|]. intro g.
  apply cbind_np; [apply parse_secs_np|]. intro i.
  apply cbind_np; [apply parse_secs_np|]. intro o.
  destruct (pset_sanity _); discriminate.
Qed.

Lemma le_dec_repeat0 n : le_dec (repeat x00 n) = 0.
Proof. apply le_dec_zeros. Qed.

Lemma replay_snoc m : forall todo acc e,
  m_replay m acc (todo ++ [e]) = cbind (m_replay m acc todo) (fun a => m_step m (fst e) (snd e) a).
Proof.
  induction todo as [|x todo IH]; intros acc e; cbn [app PsetV2.m_replay].
  - cbn [cbind]. destruct (m_step m (fst e) (snd e) acc); reflexivity.
  - destruct (m_step m (fst x) (snd x) acc) as [a| |]; cbn [cbind]; [apply IH | reflexivity | reflexivity].
Qed.

Lemma fixlen_length n kd : length (fixlen n kd) = n.
Proof. unfold fixlen. rewrite firstn_length, app_length, repeat_length. lia. Qed.
Lemma fixlen_id n k : length k = n -> fixlen n k = k.
Proof. apply firstn_app_exact. Qed.

Lemma map_put_keys k v : forall l,
  map fst (map_put k v l) = if has_key k l then map fst l else map fst l ++ [k].
Proof.
  induction l as [|[k' v'] l IH]; [reflexivity|]. cbn [map_put has_key existsb fst].
  destruct (bytes_eqb k' k) eqn:E; cbn [map fst orb]; [reflexivity|].
  rewrite IH. unfold has_key. destruct (existsb (fun e => bytes_eqb (fst e) k) l); reflexivity.
Qed.
Lemma has_key_false_notin k l : has_key k l = false -> ~ In k (map fst l).
Proof.
  unfold has_key. intros H Hin. apply in_map_iff in Hin as (e & <- & He).
  rewrite (proj2 (existsb_exists _ _)) in H; [discriminate|]. exists e. split; [exact He | apply bytes_eqb_refl].
Qed.
Lemma map_put_forall (P : mentry -> Prop) k v : (forall v', P (k, v') -> P (k, v)) -> P (k, v) -> forall l,
  Forall P l -> Forall P (map_put k v l).
Proof.
  intros Hk Pk. induction l as [|[k' v'] l IH]; intro F; [constructor; [exact Pk|constructor]|].
  inversion F as [|? ? F1 F2]; subst. cbn [map_put]. destruct (bytes_eqb k' k) eqn:E.
  - apply bytes_eqb_eq in E. subst k'. constructor; [apply (Hk v'); exact F1 | exact F2].
  - constructor; [exact F1 | apply IH; exact F2].
Qed.
Lemma map_put_fresh k v : forall l, ~ In k (map fst l) -> map_put k v l = l ++ [(k, v)].
Proof.
  induction l as [|[k' v'] l IH]; intro Hn; [reflexivity|]. cbn [map_put].
  destruct (bytes_eqb k' k) eqn:E.
  - apply bytes_eqb_eq in E. subst. exfalso. apply Hn. left. reflexivity.
  - cbn [app]. rewrite IH; [reflexivity | intro Hk; apply Hn; right; exact Hk].
Qed.

(* entries with pairwise distinct keys of the array length replay to themselves *)
Lemma replay_fresh n : forall x acc : list mentry, NoDup (map fst (acc ++ x)) -> Forall (fun e => length (fst e) = n) x ->
  m_replay (MMap n) acc x = ROk (acc ++ x).
Proof.
  induction x as [|[k v] x IH]; intros acc ND F; cbn [PsetV2.m_replay]; [rewrite app_nil_r; reflexivity|].
  pose proof (Forall_inv F) as F1. pose proof (Forall_inv_tail F) as F2. cbn [fst snd PsetV2.m_step cbind] in *. rewrite (fixlen_id n k F1).
  assert (Hn : ~ In k (map fst acc)).
  { rewrite map_app in ND. cbn [map fst] in ND. apply NoDup_remove_2 in ND. intro Hk. apply ND. apply in_or_app. left. exact Hk. }
  rewrite (map_put_fresh k v acc Hn), IH; [|rewrite <- app_assoc; exact ND | exact F2].
  rewrite <- app_assoc. reflexivity.
Qed.

Section Entries.
Variable KB : bytes -> Prop.   (* the key-length limit of the slot the entries belong to *)

Definition ent_ok (m : mkind) (e : mentry) : Prop :=
  match m with MMap n => length (fst e) = n | _ => KB (fst e) end /\ lenN (snd e) < two64.
(* the invariant of the entries of one field while key pairs are read: maps hold pairwise distinct keys
   of the array length, every other kind replays to itself *)
Definition msI (m : mkind) (l : list mentry) : Prop :=
  match m with MMap _ => NoDup (map fst l) | _ => m_replay m [] l = ROk l end /\ Forall (ent_ok m) l.

Lemma msI_nil m : msI m [].
Proof. split; [destruct m; (reflexivity || constructor) | constructor]. Qed.

Lemma msI_step m kd v l l' : msI m l -> m_step m kd v l = ROk l' -> KB kd -> lenN v < two64 -> msI m l'.
Proof.
  intros [R F] S K V. destruct (m_step_cases m kd v l) as [E|E]; rewrite E in S; [discriminate|].
  inversion S; subst l'; clear S. unfold msI.
  destruct m; cbn [m_result] in *;
    try (split; [rewrite replay_snoc, R; exact E | apply Forall_app; split; [exact F | repeat constructor; assumption]]).
  split.
  - rewrite map_put_keys. destruct (has_key (fixlen n kd) l) eqn:H; [exact R|].
    apply NoDup_snoc; [exact R | apply has_key_false_notin; exact H].
  - apply map_put_forall; [intros v' [H _] | | exact F]; (split; [|exact V]); [exact H | apply fixlen_length].
Qed.

(* the invariant gives a fixpoint of emit-then-replay, and what it emits respects the limits *)
Lemma msI_wf m l : msI m l -> m_wf m l = true /\ Forall (ent_ok m) (m_emit m l).
Proof.
  intros [R F]. unfold PsetV2.m_wf.
  destruct m; cbn [m_emit]; try (rewrite R, entries_eqb_refl; split; [reflexivity | exact F]).
  pose proof (Permutation_sym (sort_perm l)) as P.
  rewrite (replay_fresh n (sort_entries l) []), entries_eqb_refl.
  - split; [reflexivity | apply (Permutation_Forall P F)].
  - apply (Permutation_NoDup (Permutation_map fst P) R).
  - apply (Permutation_Forall P). eapply Forall_impl; [|exact F]. intros e H. apply H.
Qed.
End Entries.

Section Table.
Variable tbl : list slot.

Definition key_bound (key : keyid) (kd : bytes) : Prop :=
  1 + lenN (k_data (mk_kp_id key kd [])) <= maxKeyLen.

Definition slotI (i : nat) (sl : slot) (s : sec) : Prop :=
  match sl_k sl with
  | SS k al => list_at i s = [] /\
               (val_at i s = [] \/ exists v, lenN v < two64 /\ s_dec k v = ROk (val_at i s))
  | MS m => val_at i s = [] /\ msI (key_bound (sl_dkey sl)) m (list_at i s)
  end.

Definition secI (s : sec) : Prop :=
  length (s_vals s) = length tbl /\ length (s_lists s) = length tbl /\
  (forall i sl, nth_error tbl i = Some sl -> slotI i sl s) /\
  forallb (prop_wf tbl) (s_props s) = true /\ forallb (unk_wf tbl) (s_unks s) = true.

Lemma secI_empty : secI (empty_sec tbl).
Proof.
  unfold secI, empty_sec. cbn [s_vals s_lists s_props s_unks]. rewrite !repeat_length.
  repeat split; try reflexivity. intros i sl _. unfold slotI, val_at, list_at. cbn [s_vals s_lists].
  rewrite !nth_repeat.
  destruct (sl_k sl); (split; [reflexivity|]); [left; reflexivity | apply msI_nil].
Qed.

Lemma apply_slot_I i sl kd v s s' :
  secI s -> nth_error tbl i = Some sl -> key_bound (sl_dkey sl) kd -> lenN v < two64 ->
  apply_slot i sl kd v s = ROk s' -> secI s'.
Proof.
  intros (Lv & Ll & Sl & Pr & Un) Hi KBd Vv H.
  assert (Hlt : (i < length tbl)%nat) by (apply nth_error_Some; congruence).
  pose proof (Sl i sl Hi) as Si. unfold PsetV2.apply_slot in H. unfold slotI in Si.
  destruct (sl_k sl) as [k al|m] eqn:K.
  - destruct (nonemptyb (val_at i s)) eqn:Ne; [discriminate|].
    apply cbind_ok in H as (b & D & H). inversion H; subst s'; clear H.
    unfold secI, set_val. cbn [s_vals s_lists s_props s_unks]. rewrite lset_length.
    split; [exact Lv|]. split; [exact Ll|]. split; [|split; assumption].
    intros j sj Hj. pose proof (Sl j sj Hj) as Sj. unfold slotI in *. unfold val_at, list_at in *. cbn [s_vals s_lists].
    destruct (Nat.eq_dec i j) as [<-|Nij].
    + rewrite Hi in Hj. inversion Hj; subst sj. rewrite K. rewrite nth_lset_eq by lia.
      destruct Si as [Si _]. split; [exact Si|]. right. exists v. split; assumption.
    + rewrite nth_lset_neq by exact Nij. exact Sj.
  - apply cbind_ok in H as (l' & D & H). inversion H; subst s'; clear H.
    unfold secI, set_list. cbn [s_vals s_lists s_props s_unks]. rewrite lset_length.
    split; [exact Lv|]. split; [exact Ll|]. split; [|split; assumption].
    intros j sj Hj. pose proof (Sl j sj Hj) as Sj. unfold slotI in *. unfold val_at, list_at in *. cbn [s_vals s_lists].
    destruct (Nat.eq_dec i j) as [<-|Nij].
    + rewrite Hi in Hj. inversion Hj; subst sj. rewrite K. rewrite nth_lset_eq by lia.
      destruct Si as [Si R]. split; [exact Si|]. apply (msI_step _ m kd v _ l' R D KBd Vv).
    + rewrite nth_lset_neq by exact Nij. exact Sj.
Qed.

Lemma forallb_snoc {A} (f : A -> bool) l x : forallb f l = true -> f x = true -> forallb f (l ++ [x]) = true.
Proof. intros H1 H2. rewrite forallb_app, H1. cbn. rewrite H2. reflexivity. Qed.

Lemma sec_step_I s k s' : secI s -> frame_ok k = true -> sec_step tbl s k = ROk s' -> secI s'.
Proof.
  intros I F H. pose proof F as F0. apply frame_ok_iff in F as (Ft & Fk & Fv).
  unfold PsetV2.sec_step in H. destruct (N.eqb_spec (k_type k) PsetProprietary) as [Ep|Np].
  - destruct (parse_prop k) as [pd|] eqn:P; [|discriminate].
    apply parse_prop_inv in P as (Ek & Hid & Hsub & Hval).
    assert (E1 : eff_id (pd_id pd) = pd_id pd) by (destruct (pd_id pd); [congruence | reflexivity]).
    assert (Fpd : frame_ok (prop_kp pd) = true).
    { apply frame_ok_iff. unfold prop_kp. cbn [k_type k_data k_val]. rewrite E1, <- Ek, Hval.
      split; [reflexivity | split; assumption]. }
    apply N.ltb_lt in Hsub.
    assert (Kept : (bytes_eqb (pd_id pd) pset_magic = true -> find_slot (KProp (pd_sub pd)) tbl = None) -> secI (add_prop pd s)).
    { intro Hf. destruct I as (Lv & Ll & Sl & Pr & Un). unfold secI, add_prop. cbn [s_vals s_lists s_props s_unks].
      repeat split; try assumption. apply forallb_snoc; [exact Pr|]. unfold prop_wf. rewrite Hsub, E1, Fpd.
      destruct (bytes_eqb (pd_id pd) pset_magic); [rewrite Hf|]; reflexivity. }
    destruct (bytes_eqb (pd_id pd) pset_magic) eqn:Em; [|inversion H; subst s'; apply Kept; discriminate].
    destruct (find_slot (KProp (pd_sub pd)) tbl) as [[i sl]|] eqn:Fs; [|inversion H; subst s'; apply Kept; reflexivity].
    apply find_slot_sound in Fs as (j & -> & Hj & Hd). cbn [Nat.add] in *.
    apply (apply_slot_I j sl (pd_kd pd) (k_val k) s s' I Hj); [|exact Fv|exact H].
    unfold key_bound. rewrite Hd. cbn [mk_kp_id k_data]. apply bytes_eqb_eq in Em.
    unfold prop_key. rewrite <- Em, <- Ek. exact Fk.
  - destruct (find_slot (KStd (k_type k)) tbl) as [[i sl]|] eqn:Fs.
    + apply find_slot_sound in Fs as (j & -> & Hj & Hd). cbn [Nat.add] in *.
      apply (apply_slot_I j sl (k_data k) (k_val k) s s' I Hj); [|exact Fv|exact H].
      unfold key_bound. rewrite Hd. cbn [mk_kp_id k_data]. exact Fk.
    + inversion H; subst s'. destruct I as (Lv & Ll & Sl & Pr & Un). unfold secI, add_unk. cbn [s_vals s_lists s_props s_unks].
      repeat split; try assumption. apply forallb_snoc; [exact Un|]. unfold unk_wf. rewrite Fs, F0.
      rewrite (proj2 (N.eqb_neq _ _) Np). reflexivity.
Qed.

Lemma fold_step_I : forall kps s s', secI s -> Forall (fun k => frame_ok k = true) kps ->
  fold_step pk_ok der_ok xonly_ok msgtx_canon tbl s kps = ROk s' -> secI s'.
Proof.
  induction kps as [|k kps IH]; intros s s' I F H; cbn [fold_step] in H.
  - inversion H; subst. exact I.
  - inversion F as [|? ? Fk Fr]; subst. apply cbind_ok in H as (s1 & H1 & H2).
    apply (IH s1 s'); [apply (sec_step_I s k s1 I Fk H1) | exact Fr | exact H2].
Qed.

End Table.

Definition indexed (tbl : list slot) : list (nat * slot) := combine (seq 0 (length tbl)) tbl.
Lemma nth_error_combine_seq : forall (tbl : list slot) o i sl, nth_error tbl i = Some sl ->
  In ((o + i)%nat, sl) (combine (seq o (length tbl)) tbl).
Proof.
  induction tbl as [|x t IH]; intros o i sl H; [destruct i; discriminate|].
  cbn [length seq combine]. destruct i as [|i]; cbn [nth_error] in H.
  - inversion H; subst. left. f_equal. lia.
  - right. replace (o + S i)%nat with (S o + i)%nat by lia. apply IH. exact H.
Qed.
Lemma indexed_forallb f tbl i sl : forallb f (indexed tbl) = true -> nth_error tbl i = Some sl -> f (i, sl) = true.
Proof. intros F H. rewrite forallb_forall in F. apply F. apply (nth_error_combine_seq tbl 0 i sl H). Qed.

(* what is asked of the slot at a position beside tbl_ok, checked by computation for the three
   tables: the emitter and the decoder use the same key; an always-written field that is absent
   decodes back to "absent", unless the position is one that sanity requires to be present (req);
   the keys of a pre-image map fit the key-length guard *)
Definition slot_good (req : nat -> bool) (isl : nat * slot) : bool :=
  keyid_eqb (sl_ekey (snd isl)) (sl_dkey (snd isl)) &&
  match sl_k (snd isl) with
  | SS k true => req (fst isl) || (cres_bytes_eqb (s_dec k (s_emit k [])) [] && (lenN (s_emit k []) <? two64))
  | SS _ false => true
  | MS (MMap n) => match sl_ekey (snd isl) with KStd _ => 1 + N.of_nat n <=? maxKeyLen | KProp _ => false end
  | MS _ => true
  end.
Definition tbl_good (tbl : list slot) (req : nat -> bool) : bool :=
  tbl_ok tbl && forallb (slot_good req) (indexed tbl).

Lemma ms_frame sl m e : key_small (sl_ekey sl) = true -> sl_ekey sl = sl_dkey sl ->
  match m with
  | MMap n => match sl_ekey sl with KStd _ => 1 + N.of_nat n <=? maxKeyLen | KProp _ => false end
  | _ => true
  end = true ->
  ent_ok (key_bound (sl_dkey sl)) m e -> frame_ok (mk_kp_id (sl_ekey sl) (fst e) (snd e)) = true.
Proof.
  unfold ent_ok, key_bound. intros Ks <- G [Kb Vb]. apply frame_ok_iff.
  destruct (sl_ekey sl) as [t|sub]; cbn [mk_kp_id k_type k_data k_val key_small] in *.
  - apply andb_true_iff in Ks as [Ks _]. apply N.ltb_lt in Ks.
    repeat split; try assumption. destruct m; try exact Kb. apply N.leb_le in G. unfold lenN. rewrite Kb. exact G.
  - repeat split; try assumption. destruct m; try exact Kb. discriminate G.
Qed.

Lemma slotI_wf req i sl s :
  slot_good req (i, sl) = true -> key_small (sl_ekey sl) = true -> slotI i sl s ->
  (req i = true -> val_at i s <> []) ->
  (forall k al, sl_k sl = SS k al -> s_extb pk_ok msgtx_canon k (val_at i s) = true) ->
  slot_wf pk_ok der_ok xonly_ok msgtx_canon i sl s = true.
Proof.
  intros G Ks Si Hreq X. unfold slot_good in G. cbn [fst snd] in G.
  apply andb_true_iff in G as [Ke G]. unfold slotI in Si. unfold PsetV2.slot_wf. rewrite Ke.
  destruct (sl_k sl) as [k al|m].
  - destruct Si as [Li Vi]. rewrite Li, (ss_wf pk_ok msgtx_canon k al (val_at i s)); [reflexivity | | exact Vi | apply (X k al eq_refl)].
    intros -> Z. destruct (req i); [destruct (Hreq eq_refl Z)|]. apply andb_true_iff in G as [D L].
    apply N.ltb_lt in L. split; [|exact L].
    destruct (s_dec k (s_emit k [])) as [b| |]; try discriminate. apply bytes_eqb_eq in D. subst. reflexivity.
  - destruct Si as [Vi R]. destruct (msI_wf _ m _ R) as [W F]. rewrite Vi, W. apply forallb_forall. intros e He.
    rewrite Forall_forall in F. apply keyid_eqb_eq in Ke. exact (ms_frame sl m e Ks Ke G (F e He)).
Qed.

Lemma slots_wf_pointwise s : forall suf i,
  (forall k sl, nth_error suf k = Some sl -> slot_wf pk_ok der_ok xonly_ok msgtx_canon (i + k) sl s = true) ->
  slots_wf pk_ok der_ok xonly_ok msgtx_canon i suf s = true.
Proof.
  induction suf as [|sl suf IH]; intros i H; [reflexivity|]. cbn [PsetV2.slots_wf].
  pose proof (H 0%nat sl eq_refl) as H0. rewrite Nat.add_0_r in H0. rewrite H0.
  apply IH. intros k s1 Hk. pose proof (H (S k) s1 Hk) as Hs. rewrite Nat.add_succ_r in Hs. exact Hs.
Qed.

(* the premise on the externally decoded values of a section (decidable): a witness UTXO that is present
   has 44 bytes, a peg-in transaction is stable; s_extb above, read off the table for every position *)
Definition ext_okb (tbl : list slot) (s : sec) : bool :=
  forallb (fun isl => match sl_k (snd isl) with
                      | SS KTxOut _ => (44 <=? length (val_at (fst isl) s))%nat || negb (nonemptyb (val_at (fst isl) s))
                      | SS KMsgTx _ => s_wf KMsgTx false (val_at (fst isl) s)
                      | _ => true end) (indexed tbl).

Theorem secI_wf tbl sanity req s :
  tbl_good tbl req = true -> secI tbl s -> (forall i, req i = true -> val_at i s <> []) ->
  ext_okb tbl s = true -> sanity (norm_sec tbl s) = true -> wf_sec tbl sanity s = true.
Proof.
  intros G (Lv & Ll & Sl & Pr & Un) Hreq X Hsan. apply andb_true_iff in G as [T G].
  unfold PsetV2.wf_sec. rewrite Lv, Ll, !Nat.eqb_refl, Pr, Un, Hsan, !andb_true_r.
  apply slots_wf_pointwise. intros i sl Hi.
  apply (slotI_wf req); [apply (indexed_forallb _ _ _ _ G Hi) | | apply (Sl i sl Hi) | apply Hreq |].
  - apply (tbl_ok_parts tbl T). apply (nth_error_In _ _ Hi).
  - intros k al K. pose proof (indexed_forallb _ _ _ _ X Hi) as E. cbn [fst snd] in E. rewrite K in E. exact E.
Qed.

(* what a section decoder returns is well formed, given the table facts checked by computation and
   that the sanity check asks for the required fields and reads nothing the normal form changes *)
Section Accepted.
Variable tbl : list slot.
Variable sanity : sec -> bool.
Variable req : nat -> bool.
Hypothesis G : tbl_good tbl req = true.
Hypothesis Hreq : forall s, sanity s = true -> forall i, req i = true -> val_at i s <> [].
Hypothesis Hnorm : forall s, sanity (norm_sec tbl s) = sanity s.

Lemma sec_exact_wf c s : sec_exact tbl sanity c s -> ext_okb tbl s = true -> wf_sec tbl sanity s = true.
Proof.
  intros [_ H] X. apply (parse_section_iff _ _ _ _ _ _ _ _ []) in H as (kps & _ & F & Fo & San).
  apply (secI_wf tbl sanity req s G (fold_step_I tbl kps _ s (secI_empty tbl) F Fo) (Hreq s San) X).
  rewrite Hnorm. exact San.
Qed.

Lemma secs_exact_wf cs l : Forall2 (sec_exact tbl sanity) cs l -> Forall (fun s => ext_okb tbl s = true) l ->
  forallb (wf_sec tbl sanity) l = true.
Proof.
  induction 1 as [|c s cs l Xc _ IH]; intro X; [reflexivity|]. inversion X; subst.
  cbn [forallb]. rewrite (sec_exact_wf c s Xc), IH; auto.
Qed.
End Accepted.

Definition no_modif (tbl : list slot) : bool :=
  forallb (fun sl => match sl_k sl with SS KModif _ => false | _ => true end) tbl.

Lemma norm_vals_id : forall tbl vs, no_modif tbl = true -> norm_vals tbl vs = vs.
Proof.
  induction tbl as [|sl t IH]; intros [|b vs] H; try reflexivity.
  cbn [no_modif forallb] in H. apply andb_true_iff in H as [H1 H2]. cbn [norm_vals]. rewrite (IH vs H2). f_equal.
  destruct (sl_k sl) as [k al|m]; [|reflexivity].
  destruct (s_emits k al b) eqn:E; [reflexivity|].
  unfold s_emits in E. apply orb_false_iff in E as [_ E]. destruct k; try discriminate; destruct b; try reflexivity; discriminate.
Qed.

Lemma output_sanity_norm s : output_sanity (norm_sec output_tbl s) = output_sanity s.
Proof. unfold norm_sec. rewrite (norm_vals_id output_tbl (s_vals s)) by reflexivity. reflexivity. Qed.

Lemma input_sanity_norm s : input_sanity (norm_sec input_tbl s) = input_sanity s.
Proof.
  unfold norm_sec. rewrite (norm_vals_id input_tbl (s_vals s)) by reflexivity.
  unfold input_sanity, has_val, val_at, list_at. cbn [s_vals s_lists].
  rewrite !norm_lists_nth. reflexivity.
Qed.

(* global_sanity reads the two versions, the xpub and scalar lists and TxModifiable, all of which
   norm_sec leaves alone, and Modifiable, where the normal form turns an all-zero value into
   "absent"; the test there is "present and non-zero", which reads both alike: hence the case
   split on le_dec ... =? 0 once cbn has looked the positions up in the table *)
Lemma global_sanity_norm g : global_sanity (norm_sec global_tbl g) = global_sanity g.
Proof.
  unfold norm_sec, global_sanity, has_val, num_val, val_at, list_at. cbn [s_vals s_lists].
  rewrite !norm_vals_nth, !norm_lists_nth.
  cbn [nth_error global_tbl gTxVersion gVersion gXpubs gScalars gTxModifiable gModifiable
       norm_val norm_list sl sl_k m_emit s_emits orb].
  destruct (nth gTxModifiable (s_vals g) []); destruct (le_dec (nth gModifiable (s_vals g) []) =? 0) eqn:E;
    cbn [negb nonemptyb]; rewrite ?E; cbn [negb]; rewrite ?andb_false_r; reflexivity.
Qed.

Lemma forallb_map_ext {A} (f : A -> bool) (g : A -> A) l : (forall a, f (g a) = f a) -> forallb f (map g l) = forallb f l.
Proof. intro H. induction l as [|a l IH]; [reflexivity|]. cbn [map forallb]. rewrite H, IH. reflexivity. Qed.
Lemma existsb_map_ext {A} (f : A -> bool) (g : A -> A) l : (forall a, f (g a) = f a) -> existsb f (map g l) = existsb f l.
Proof. intro H. induction l as [|a l IH]; [reflexivity|]. cbn [map existsb]. rewrite H, IH. reflexivity. Qed.

Lemma out_norm_vals s : s_vals (norm_sec output_tbl s) = s_vals s.
Proof. apply norm_vals_id. reflexivity. Qed.

Lemma pset_sanity_norm p : pset_sanity (norm_pset p) = pset_sanity p.
Proof.
  unfold pset_sanity, norm_pset, pset_needs_blinding. cbn [p_global p_ins p_outs].
  rewrite (forallb_map_ext input_sanity (norm_sec input_tbl)) by apply input_sanity_norm.
  rewrite (forallb_map_ext output_sanity (norm_sec output_tbl)) by apply output_sanity_norm.
  rewrite (existsb_map_ext out_fully_blinded (norm_sec output_tbl)).
  2:{ intro a. unfold out_fully_blinded, has_val, val_at. rewrite out_norm_vals. reflexivity. }
  rewrite (existsb_map_ext (fun o => out_needs_blinding o && negb (out_fully_blinded o)) (norm_sec output_tbl)).
  2:{ intro a. unfold out_needs_blinding, out_fully_blinded, has_val, val_at. rewrite out_norm_vals. reflexivity. }
  unfold list_at, norm_sec. cbn [s_lists]. rewrite norm_lists_nth. reflexivity.
Qed.

Lemma global_good : tbl_good global_tbl (fun _ => false) = true. Proof. vm_compute. reflexivity. Qed.
Lemma output_good : tbl_good output_tbl (fun _ => false) = true. Proof. vm_compute. reflexivity. Qed.
Lemma input_good : tbl_good input_tbl (fun i => (i =? iPreviousTxid)%nat) = true. Proof. vm_compute. reflexivity. Qed.

Lemma req_none (sanity : sec -> bool) : forall s, sanity s = true -> forall i : nat, (fun _ : nat => false) i = true -> val_at i s <> [].
Proof. intros s _ i Hf. discriminate. Qed.
Lemma input_sanity_txid s : input_sanity s = true -> forall i, (i =? iPreviousTxid)%nat = true -> val_at i s <> [].
Proof.
  intros H i Ei Z. apply Nat.eqb_eq in Ei. subst i. unfold input_sanity, has_val in H. rewrite Z in H.
  rewrite !andb_false_r in H. discriminate.
Qed.

(* the premise on externally decoded values concerns input sections only: the global and output
   tables have no KTxOut or KMsgTx slot, so ext_okb of those tables computes to true on any store
   (the eq_refl and the "reflexivity" for the global and output sections in parsed_wf) *)
Definition pset_ext (p : pset) : Prop := Forall (fun s => ext_okb input_tbl s = true) (p_ins p).

(* every accepted packet whose externally decoded values are stable lies in the round-trip domain *)
Theorem parsed_wf bs p : parse_pset bs = ROk p -> pset_ext p -> wf_pset pk_ok der_ok xonly_ok msgtx_canon p = true.
Proof.
  intros H X. apply parse_pset_accepts in H as [rest H].
  apply parse_pset_rest_iff in H as (cg & ci & co & _ & Xg & Xi & Xo & Ci & Co & PS).
  unfold PsetV2.wf_pset.
  rewrite (sec_exact_wf _ _ _ global_good (req_none _) global_sanity_norm _ _ Xg eq_refl).
  rewrite (secs_exact_wf _ _ _ input_good input_sanity_txid input_sanity_norm _ _ Xi X).
  rewrite (secs_exact_wf _ _ _ output_good (req_none _) output_sanity_norm _ _ Xo) by (apply Forall_forall; reflexivity).
  rewrite Ci, Co, !N.eqb_refl, pset_sanity_norm. exact PS.
Qed.

(* parse, serialize, parse: the identity (up to the normal form) on every accepted encoding whose
   externally decoded values are stable *)
Theorem pset_parse_ser_parse bs p : parse_pset bs = ROk p -> pset_ext p ->
  exists bs', ser_pset p = ROk bs' /\ parse_pset bs' = ROk (norm_pset p).
Proof. intros H X. apply pset_parse_ser_nil, (parsed_wf bs p H X). Qed.

End Inv.
