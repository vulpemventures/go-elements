(* Proofs/Regroup.v — blech32.ConvertBits regroups correctly, for all group widths up to 8.
   The accumulator loop of Model/Blech32.v (shift-and-mask on uint8 values) is read on bit
   lists, most significant bit first: the byte being consumed is `val (chunk ++ pad)`, the
   accumulator is `val acc`, and one pass of the loop moves a prefix of `chunk` behind `acc`.
   The invariant `collected` says that the groups emitted so far followed by the bits still in
   the accumulator are exactly the bits consumed; the two regrouping laws follow from it by
   counting bits. *)
From GE Require Import Lib.Bytes Model.Blech32.
From Coq Require Import ZifyBool ZifyN ZifyNat.
Import B32.
Open Scope N_scope.

Fixpoint bitsN (w : nat) (v : N) : list bool :=
  match w with O => [] | S k => bitsN k (N.div2 v) ++ [N.odd v] end.
Definition val (l : list bool) : N := fold_left (fun a b => 2 * a + N.b2n b) l 0.

Lemma bitsN_length w : forall v, length (bitsN w v) = w.
Proof. induction w as [|w IH]; intro v; cbn [bitsN]; [reflexivity|]. rewrite app_length, IH. apply Nat.add_1_r. Qed.

Lemma val_snoc l b : val (l ++ [b]) = 2 * val l + N.b2n b.
Proof. unfold val. rewrite fold_left_app. reflexivity. Qed.

Lemma val_app a : forall c, val (a ++ c) = val a * 2 ^ N.of_nat (length c) + val c.
Proof.
  induction c as [|b c IH] using rev_ind.
  - rewrite app_nil_r. cbn. lia.
  - rewrite app_assoc, !val_snoc, IH, app_length, Nat.add_1_r, Nnat.Nat2N.inj_succ, N.pow_succ_r'. lia.
Qed.

Lemma val_bound l : val l < 2 ^ N.of_nat (length l).
Proof.
  induction l as [|b l IH] using rev_ind; [cbn; lia|].
  rewrite val_snoc, app_length, Nat.add_1_r, Nnat.Nat2N.inj_succ, N.pow_succ_r'. destruct b; cbn [N.b2n]; lia.
Qed.

Lemma val_zeros k : val (repeat false k) = 0.
Proof. induction k as [|k IH]; [reflexivity | exact IH]. Qed.

Lemma val_zero_inv : forall l, val l = 0 -> l = repeat false (length l).
Proof.
  induction l as [|b l IH] using rev_ind; intro H; [reflexivity|].
  rewrite val_snoc in H. rewrite app_length, Nat.add_1_r. cbn [repeat]. rewrite repeat_cons.
  destruct b; cbn [N.b2n] in H; [lia|]. rewrite <- IH by lia. reflexivity.
Qed.

Lemma val_bitsN w : forall v, v < 2 ^ N.of_nat w -> val (bitsN w v) = v.
Proof.
  induction w as [|w IH]; intros v H; cbn [bitsN].
  - cbn in H. cbn. lia.
  - rewrite Nnat.Nat2N.inj_succ, N.pow_succ_r' in H. pose proof (N.div2_odd v) as D.
    rewrite val_snoc, IH by lia. lia.
Qed.

Lemma bitsN_val : forall l, bitsN (length l) (val l) = l.
Proof.
  induction l as [|b l IH] using rev_ind; [reflexivity|].
  rewrite app_length, Nat.add_1_r, val_snoc. cbn [bitsN].
  rewrite N.add_comm, N.div2_div, N.add_b2n_double_div2, N.odd_add_mul_2, IH. destruct b; reflexivity.
Qed.

(* the uint8 operations of the loop, on bit lists *)
Lemma u8_val l : (length l <= 8)%nat -> u8 (val l) = val l.
Proof.
  intro H. apply N.mod_small. eapply N.lt_le_trans; [apply val_bound|].
  change 256 with (2 ^ 8). apply N.pow_le_mono_r; lia.
Qed.

Lemma u8_val_drop a c : length c = 8%nat -> u8 (val (a ++ c)) = val c.
Proof.
  intro H. unfold u8. rewrite val_app, H, N.add_comm. change (2 ^ N.of_nat 8) with 256.
  rewrite N.mod_add by discriminate. apply (u8_val c). lia.
Qed.

Lemma shiftl_val a k : N.shiftl (val a) (N.of_nat k) = val (a ++ repeat false k).
Proof. rewrite N.shiftl_mul_pow2, val_app, repeat_length, val_zeros. lia. Qed.

Lemma shiftr_val a c : N.shiftr (val (a ++ c)) (N.of_nat (length c)) = val a.
Proof.
  rewrite N.shiftr_div_pow2, val_app, N.div_add_l by (apply N.pow_nonzero; discriminate).
  rewrite (N.div_small (val c)) by apply val_bound. apply N.add_0_r.
Qed.

(* no bit of `val c` is set in a multiple of 2 ^ length c, so `or` adds *)
Lemma land_shiftl_val x c : N.land (N.shiftl x (N.of_nat (length c))) (val c) = 0.
Proof.
  apply N.bits_inj_0. intro n. rewrite N.land_spec.
  destruct (N.lt_ge_cases n (N.of_nat (length c))) as [Lt|Ge].
  - rewrite N.shiftl_spec_low by exact Lt. reflexivity.
  - rewrite <- (N.mod_small _ _ (val_bound c)), N.mod_pow2_bits_high by exact Ge. apply andb_false_r.
Qed.

Lemma lor_val a c : N.lor (val (a ++ repeat false (length c))) (val c) = val (a ++ c).
Proof.
  rewrite <- shiftl_val, val_app, <- N.shiftl_mul_pow2.
  rewrite <- N.lxor_lor, <- N.add_nocarry_lxor by apply land_shiftl_val. reflexivity.
Qed.

Lemma group_value l : (length l <= 8)%nat -> n8 (b8 (val l)) = val l.
Proof. intro H. rewrite n8_b8. apply (u8_val l H). Qed.

Definition bits_of (w : nat) (l : bytes) : list bool := flat_map (fun y => bitsN w (n8 y)) l.
Definition below (w : nat) (l : bytes) : Prop := Forall (fun y => n8 y < 2 ^ N.of_nat w) l.

Lemma bits_of_app w a b : bits_of w (a ++ b) = bits_of w a ++ bits_of w b.
Proof. apply flat_map_app. Qed.

Lemma bits_of_length w : forall l, length (bits_of w l) = (w * length l)%nat.
Proof.
  induction l as [|x l IH]; cbn [bits_of flat_map length]; [lia|].
  fold (bits_of w l). rewrite app_length, bitsN_length, IH. lia.
Qed.

Lemma bits_of_group l : (length l <= 8)%nat -> bits_of (length l) [b8 (val l)] = l.
Proof. intro H. cbn [bits_of flat_map]. rewrite app_nil_r, group_value by exact H. apply bitsN_val. Qed.

Lemma bits_of_inj w : (0 < w)%nat -> forall a b, below w a -> below w b -> bits_of w a = bits_of w b -> a = b.
Proof.
  intro W. induction a as [|x a IH]; intros [|y b] Fa Fb E; [reflexivity| | |].
  - apply (f_equal (@length bool)) in E. rewrite !bits_of_length in E. cbn [length] in E. lia.
  - apply (f_equal (@length bool)) in E. rewrite !bits_of_length in E. cbn [length] in E. lia.
  - cbn [bits_of flat_map] in E. apply app_eq_len in E as [E1 E2]; [|rewrite !bitsN_length; reflexivity].
    apply (f_equal val) in E1. rewrite !val_bitsN in E1 by (apply (Forall_inv Fa) || apply (Forall_inv Fb)).
    apply n8_inj in E1. subst y. f_equal.
    exact (IH b (Forall_inv_tail Fa) (Forall_inv_tail Fb) E2).
Qed.

Definition sst := (list bool * bytes)%type.     (* collected bits, output in reverse order *)
Definition to_cb (st : sst) : cb_state := mk_cb (snd st) (val (fst st)) (N.of_nat (length (fst st))).

(* `st` is what the loop has made of `bits` when regrouping to width `to` *)
Definition collected (to : nat) (bits : list bool) (st : cb_state) : Prop :=
  exists acc out, st = to_cb (acc, out) /\ (length acc < to)%nat /\ below to out /\
                  bits_of to (rev out) ++ acc = bits.

(* moving the bits `c` behind the accumulator: the group is emitted when it becomes full *)
Lemma collected_chunk to acc out c : (to <= 8)%nat -> (length acc < to)%nat ->
  (length acc + length c <= to)%nat -> below to out ->
  collected to ((bits_of to (rev out) ++ acc) ++ c)
    (if N.of_nat (length acc) + N.of_nat (length c) =? N.of_nat to
     then mk_cb (b8 (val (acc ++ c)) :: out) 0 0
     else mk_cb out (val (acc ++ c)) (N.of_nat (length acc) + N.of_nat (length c))).
Proof.
  intros T8 La L So. rewrite <- app_assoc, <- Nnat.Nat2N.inj_add, <- app_length.
  destruct (N.eqb_spec (N.of_nat (length (acc ++ c))) (N.of_nat to)) as [E|NE].
  - apply Nnat.Nat2N.inj in E. exists [], (b8 (val (acc ++ c)) :: out).
    split; [reflexivity|]. split; [cbn [length]; lia|]. split.
    + constructor; [|exact So]. rewrite group_value, <- E by lia. apply val_bound.
    + cbn [rev]. rewrite bits_of_app, app_nil_r, <- E, bits_of_group by lia. reflexivity.
  - exists (acc ++ c), out. split; [reflexivity|]. rewrite app_length in *. split; [lia|]. split; [exact So | reflexivity].
Qed.

Lemma if_arg {A B} (f : A -> B) (b : bool) x y : (if b then f x else f y) = f (if b then x else y).
Proof. destruct b; reflexivity. Qed.

(* the inner loop on a byte whose `length chunk` leading bits are still to be consumed *)
Lemma inner_collects to : (to <= 8)%nat -> forall fuel chunk pad bits st,
  (length chunk <= fuel)%nat -> (length chunk + length pad = 8)%nat -> collected to bits st ->
  collected to (bits ++ chunk)
    (cb_inner fuel (N.of_nat to) (val (chunk ++ pad)) (N.of_nat (length chunk)) st).
Proof.
  intro T8. induction fuel as [|fuel IH]; intros chunk pad bits st Lf L8 C; cbn [cb_inner].
  { destruct chunk; [rewrite app_nil_r; exact C | cbn [length] in Lf; lia]. }
  destruct (N.eqb_spec (N.of_nat (length chunk)) 0) as [E|NE].
  { destruct chunk; [rewrite app_nil_r; exact C | discriminate E]. }
  destruct C as (acc & out & -> & La & So & Fl). cbn [to_cb cb_filled cb_next cb_out fst snd].
  (* this pass extracts the first k bits of the chunk *)
  remember (Nat.min (to - length acc) (length chunk)) as k eqn:Hk.
  replace (if N.of_nat to - N.of_nat (length acc) <? N.of_nat (length chunk)
           then N.of_nat to - N.of_nat (length acc) else N.of_nat (length chunk)) with (N.of_nat k)
    by (destruct (N.ltb_spec (N.of_nat to - N.of_nat (length acc)) (N.of_nat (length chunk))); lia).
  assert (S : exists c1 c2, chunk = c1 ++ c2 /\ length c1 = k).
  { exists (firstn k chunk), (skipn k chunk). rewrite firstn_skipn, firstn_length. split; [reflexivity | lia]. }
  destruct S as (c1 & c2 & -> & <-). rewrite app_length in *.
  assert (K : (1 <= length c1 /\ length acc + length c1 <= to)%nat) by lia. clear Hk NE.
  replace (8 - N.of_nat (length c1)) with (N.of_nat (length (c2 ++ pad))) by (rewrite app_length; lia).
  rewrite <- (app_assoc c1), shiftr_val, !shiftl_val, <- !app_assoc.
  rewrite u8_val_drop by (rewrite !app_length, repeat_length; lia).
  rewrite u8_val by (rewrite app_length, repeat_length; lia).
  rewrite lor_val, u8_val by (rewrite app_length; lia).
  replace (N.of_nat (length c1 + length c2) - N.of_nat (length c1)) with (N.of_nat (length c2)) by lia.
  rewrite (if_arg (cb_inner fuel _ _ _)), (app_assoc bits). apply IH.
  - lia.
  - rewrite app_length, repeat_length. lia.
  - rewrite <- Fl. apply collected_chunk; [exact T8 | exact La | lia | exact So].
Qed.

Lemma byte_collects fr to bits st x : (fr <= 8)%nat -> (to <= 8)%nat -> n8 x < 2 ^ N.of_nat fr ->
  collected to bits st ->
  collected to (bits ++ bitsN fr (n8 x)) (cb_byte (N.of_nat fr) (N.of_nat to) st x).
Proof.
  intros F8 T8 Hx C. unfold cb_byte.
  replace (8 - N.of_nat fr) with (N.of_nat (8 - fr)) by lia.
  pose proof (shiftl_val (bitsN fr (n8 x)) (8 - fr)) as Q. rewrite (val_bitsN fr (n8 x) Hx) in Q.
  rewrite Q, u8_val by (rewrite app_length, bitsN_length, repeat_length; lia).
  pose proof (inner_collects to T8 8 (bitsN fr (n8 x)) (repeat false (8 - fr)) bits st) as I.
  rewrite bitsN_length, repeat_length in I. apply I; [exact F8 | lia | exact C].
Qed.

(* stated for an abstract `f`: with `cb_byte` in its place the conversion test of the two sides
   unfolds the eight passes of the inner loop and does not come back *)
Lemma fold_left_cons {A B} (f : A -> B -> A) x l a : fold_left f (x :: l) a = fold_left f l (f a x).
Proof. reflexivity. Qed.

Lemma fold_collects fr to : (fr <= 8)%nat -> (to <= 8)%nat -> forall data bits st, below fr data ->
  collected to bits st ->
  collected to (bits ++ bits_of fr data) (fold_left (cb_byte (N.of_nat fr) (N.of_nat to)) data st).
Proof.
  intros F8 T8. induction data as [|x data IH]; intros bits st F C.
  - rewrite app_nil_r. exact C.
  - rewrite fold_left_cons. cbn [bits_of flat_map]. rewrite app_assoc. apply IH; [exact (Forall_inv_tail F)|].
    apply byte_collects; [exact F8 | exact T8 | exact (Forall_inv F) | exact C].
Qed.

Lemma run_collects fr to data : (fr <= 8)%nat -> (0 < to <= 8)%nat -> below fr data ->
  collected to (bits_of fr data) (fold_left (cb_byte (N.of_nat fr) (N.of_nat to)) data (mk_cb [] 0 0)).
Proof.
  intros F8 T8 F. apply (fold_collects fr to F8 (proj2 T8) data [] _ F).
  exists [], []. split; [reflexivity|]. split; [exact (proj1 T8)|]. split; [constructor | reflexivity].
Qed.

Lemma any_below8 data : below 8 data.
Proof. apply Forall_forall. intros x _. change (2 ^ N.of_nat 8) with 256. apply n8_lt. Qed.

(* 8 -> 5 with padding: the input bits followed by fewer than five zero bits *)
Lemma enc_bits data : exists c p, convert_bits data 8 5 true = Some c /\ below 5 c /\
  bits_of 5 c = bits_of 8 data ++ repeat false p /\ (p < 5)%nat.
Proof.
  pose proof (run_collects 8 5 data ltac:(lia) ltac:(lia) (any_below8 data)) as R.
  unfold convert_bits. change ((8 <? 1) || (8 <? 8) || (5 <? 1) || (8 <? 5)) with false. cbv iota.
  change (N.of_nat 8) with 8 in R. change (N.of_nat 5) with 5 in R.
  destruct R as (acc & out & -> & La & So & Fl). cbn [to_cb cb_filled cb_next cb_out fst snd andb].
  destruct acc as [|b acc].
  - exists (rev out), 0%nat. rewrite !app_nil_r in *.
    split; [reflexivity|]. split; [apply Forall_rev; exact So|]. split; [exact Fl | lia].
  - set (a := b :: acc) in *.
    replace (0 <? N.of_nat (length a)) with true by (symmetry; apply N.ltb_lt; cbn [length a]; lia).
    replace (5 - N.of_nat (length a)) with (N.of_nat (5 - length a)) by lia.
    rewrite shiftl_val. set (g := a ++ repeat false (5 - length a)).
    assert (Lg : length g = 5%nat) by (unfold g; rewrite app_length, repeat_length; lia).
    rewrite u8_val by lia.
    exists (rev out ++ [b8 (val g)]), (5 - length a)%nat. split; [reflexivity|]. split; [|split].
    + apply Forall_app. split; [apply Forall_rev; exact So|]. constructor; [|constructor].
      rewrite group_value, <- Lg by lia. apply val_bound.
    + pose proof (bits_of_group g) as G. rewrite Lg in G.
      rewrite bits_of_app, G, <- Fl, <- app_assoc by lia. reflexivity.
    + cbn [length a]. lia.
Qed.

(* the final test of ConvertBits on the bits left in the accumulator *)
Lemma tail_check acc :
  (0 <? N.of_nat (length acc)) && ((4 <? N.of_nat (length acc)) || negb (val acc =? 0)) = false <->
  (length acc <= 4)%nat /\ acc = repeat false (length acc).
Proof.
  split.
  - intro H. assert (C : acc = [] \/ (length acc <= 4)%nat /\ val acc = 0) by (destruct acc; [tauto | cbn [length] in *; lia]).
    destruct C as [-> | [L Z]]; [split; [cbn; lia | reflexivity]|]. split; [exact L | apply val_zero_inv; exact Z].
  - intros [L Z]. pose proof (val_zeros (length acc)) as V. rewrite <- Z in V. lia.
Qed.

(* 5 -> 8 without padding succeeds exactly on whole bytes followed by fewer than five zero bits *)
Lemma dec_bits c d : below 5 c ->
  convert_bits c 5 8 false = Some d <->
  exists q, (q < 5)%nat /\ bits_of 5 c = bits_of 8 d ++ repeat false q.
Proof.
  intro S. pose proof (run_collects 5 8 c ltac:(lia) ltac:(lia) S) as R.
  unfold convert_bits. change ((5 <? 1) || (8 <? 5) || (8 <? 1) || (8 <? 8)) with false. cbv iota.
  change (N.of_nat 5) with 5 in R. change (N.of_nat 8) with 8 in R.
  destruct R as (acc & out & -> & La & So & <-). cbn [to_cb cb_filled cb_next cb_out fst snd andb].
  split.
  - destruct (_ && _) eqn:Ck; [discriminate|]. intro H. injection H as <-. apply tail_check in Ck as [L Z].
    exists (length acc). split; [lia|]. rewrite <- Z. reflexivity.
  - intros (q & Q & E).
    assert (Ll : length (bits_of 8 (rev out)) = length (bits_of 8 d) /\ length acc = q).
    { apply (f_equal (@length bool)) in E. rewrite !app_length, !bits_of_length, repeat_length in *. lia. }
    apply app_eq_len in E as [E1 E2]; [|exact (proj1 Ll)].
    apply bits_of_inj in E1; [|lia | apply Forall_rev; exact So | apply any_below8].
    replace (_ && _) with false; [rewrite E1; reflexivity|].
    symmetry. apply tail_check. rewrite E2, repeat_length. split; [lia | reflexivity].
Qed.

Theorem regroup_roundtrip : forall d, exists c, convert_bits d 8 5 true = Some c /\
  Forall (fun b => n8 b < 32) c /\ convert_bits c 5 8 false = Some d /\ (length c <= 2 * length d)%nat.
Proof.
  intro d. destruct (enc_bits d) as (c & p & C & S & B & P). exists c. split; [exact C|]. split; [exact S|]. split.
  - apply (dec_bits c d S). exists p. split; [exact P | exact B].
  - apply (f_equal (@length bool)) in B. rewrite app_length, !bits_of_length, repeat_length in B. lia.
Qed.

Theorem regroup_back : forall c d, Forall (fun b => n8 b < 32) c ->
  convert_bits c 5 8 false = Some d -> convert_bits d 8 5 true = Some c.
Proof.
  intros c d S H. apply (dec_bits c d S) in H as (q & Q & B).
  destruct (enc_bits d) as (c' & p & C' & S' & B' & P'). rewrite C'. f_equal.
  apply (bits_of_inj 5); [lia | exact S' | exact S|]. rewrite B, B'. f_equal. f_equal.
  apply (f_equal (@length bool)) in B, B'. rewrite app_length, !bits_of_length, repeat_length in B, B'. lia.
Qed.
