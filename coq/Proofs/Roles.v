(* Proofs/Roles.v — C11: invariants of the PSET v2 role state machine (Model/Roles.v).

   Over every start packet built by [init] and every operation list: counts_match, no_duplicate_outpoints,
   kinds_compatible, reachable_roundtrips (operation lists whose caller-written flags are three bits and whose
   generator scalars are fresh).
   From ANY state and for ANY operation: modifiable_respected, locktime_is_max_of_selected_kind,
   multi_part_ops_atomic, finalized_inputs_frozen (multi-part operations and finalizers), signed_locktime_fixed.
   The Examples run the histories of corpus/hist.txt, one for each repair of the code that the model follows. *)
From Coq Require Import List NArith ZArith Bool.
From GE Require Import Model.Roles.
Import ListNotations.
Import R11.
Open Scope N_scope.

Lemma length_set_nth {A} : forall n (x : A) l, length (set_nth n x l) = length l.
Proof. intros n x l; revert n; induction l as [|h t IH]; intros [|n]; cbn; auto. Qed.

Lemma nth_set_nth_eq {A} : forall n (x y : A) l, nth_error l n = Some y -> nth_error (set_nth n x l) n = Some x.
Proof. intros n x y l; revert n; induction l as [|h t IH]; intros [|n] H; cbn in *; try discriminate; auto. Qed.

Lemma nth_set_nth_neq {A} : forall n m (x : A) l, n <> m -> nth_error (set_nth n x l) m = nth_error l m.
Proof.
  intros n m x l; revert n m; induction l as [|h t IH]; intros [|n] [|m] H; cbn; auto; congruence.
Qed.

Lemma set_nth_same {A} : forall n (x : A) l, nth_error l n = Some x -> set_nth n x l = l.
Proof.
  intros n x l; revert n; induction l as [|h t IH]; intros [|n] H; cbn in *; try discriminate.
  - congruence.
  - f_equal; auto.
Qed.

Lemma forallb_repeat {A} : forall (f : A -> bool) x n, f x = true -> forallb f (repeat x n) = true.
Proof. intros f x n H; induction n; cbn; auto. rewrite H; auto. Qed.

Lemma existsb_false_In {A} : forall (f : A -> bool) l y, existsb f l = false -> In y l -> f y = false.
Proof.
  intros f l y H Hin. destruct (f y) eqn:E; auto.
  assert (existsb f l = true) by (apply existsb_exists; exists y; auto). congruence.
Qed.

(* Lists related position by position.  [R a b] is read "b may stand where a stood"; the lemmas take the
   step in the form [R a b -> R a b'], so that no transitivity is asked of R. *)
Lemma Forall2_same {A} (R : A -> A -> Prop) : (forall a, R a a) -> forall l, Forall2 R l l.
Proof. intros H l; induction l; constructor; auto. Qed.

Lemma Forall2_length {A} (R : A -> A -> Prop) l l' : Forall2 R l l' -> length l = length l'.
Proof. induction 1; cbn; auto. Qed.

Lemma Forall2_set_nth {A} (R : A -> A -> Prop) l l' : Forall2 R l l' ->
  forall n b x, nth_error l' n = Some b -> (forall a, nth_error l n = Some a -> R a b -> R a x) ->
  Forall2 R l (set_nth n x l').
Proof.
  induction 1 as [|a b0 l l' Hab Hl IH]; intros [|n] b x Hn Hx; cbn in *; try discriminate.
  - inversion Hn; subst. constructor; auto.
  - constructor; eauto.
Qed.

Lemma Forall2_nth {A} (R : A -> A -> Prop) l l' : Forall2 R l l' ->
  forall n a, nth_error l n = Some a -> exists b, nth_error l' n = Some b /\ R a b.
Proof.
  induction 1 as [|a0 b0 l l' Hab Hl IH]; intros [|n] a Hn; cbn in *; try discriminate.
  - inversion Hn; subst; eauto.
  - eauto.
Qed.

Lemma Forall2_mono {A} (R S : A -> A -> Prop) l l' : (forall a b, R a b -> S a b) -> Forall2 R l l' -> Forall2 S l l'.
Proof. intros H; induction 1; constructor; auto. Qed.

Definition keeps {A} (P : A -> bool) (a b : A) : Prop := P a = true -> P b = true.

Lemma keeps_forallb {A} (P : A -> bool) l l' : Forall2 (keeps P) l l' -> forallb P l = true -> forallb P l' = true.
Proof.
  induction 1 as [|a b l l' Hab Hl IH]; cbn; auto. intro H; apply andb_prop in H as [H1 H2].
  rewrite (Hab H1), IH; auto.
Qed.

Definition outpoint (c : core) : N * bool * N := (c_t c, c_short c, c_idx c).

Lemma same_outpoint_false : forall c cs,
  existsb (same_outpoint c) cs = false -> ~ In (outpoint c) (map outpoint cs).
Proof.
  intros c cs H Hin; apply in_map_iff in Hin as [y [Hy Hin]].
  apply (existsb_false_In _ _ _ H) in Hin. unfold same_outpoint, outpoint in *.
  inversion Hy as [[H1 H2 H3]]. rewrite H1, H2, H3, !N.eqb_refl, eqb_reflx in Hin. discriminate.
Qed.

(* the packet after inputs (with empty sections) or outputs have been appended; [with_outs] also takes the
   input sections, which issuance writes on the way *)
Definition ext_ins (p : pset) (cs : list core) : pset :=
  {| g_nin := g_nin p + N.of_nat (length cs); g_nout := g_nout p; g_flags := g_flags p; g_fallback := g_fallback p;
     g_scalars := g_scalars p; p_cores := p_cores p ++ cs; p_auxs := p_auxs p ++ repeat aux0 (length cs);
     p_outs := p_outs p |}.
Definition with_outs (p : pset) (auxs : list aux) (l : list outp) : pset :=
  {| g_nin := g_nin p; g_nout := g_nout p + N.of_nat (length l); g_flags := g_flags p; g_fallback := g_fallback p;
     g_scalars := g_scalars p; p_cores := p_cores p; p_auxs := auxs; p_outs := p_outs p ++ l |}.

Lemma ext_ins_nil p : ext_ins p [] = p.
Proof. destruct p; unfold ext_ins; cbn. rewrite N.add_0_r, !app_nil_r. reflexivity. Qed.

Lemma ext_ins_cons p c cs : ext_ins (ext_ins p [c]) cs = ext_ins p (c :: cs).
Proof.
  unfold ext_ins; cbn [g_nin g_nout g_flags g_fallback g_scalars p_cores p_auxs p_outs length repeat].
  rewrite <- !app_assoc, <- N.add_assoc, <- Nat2N.inj_add. reflexivity.
Qed.

Lemma with_outs_nil p : with_outs p (p_auxs p) [] = p.
Proof. destruct p; unfold with_outs; cbn. rewrite N.add_0_r, app_nil_r. reflexivity. Qed.

Lemma with_outs_cons p auxs o l : with_outs (with_outs p auxs [o]) auxs l = with_outs p auxs (o :: l).
Proof.
  unfold with_outs; cbn [g_nin g_nout g_flags g_fallback g_scalars p_cores p_auxs p_outs length].
  rewrite <- app_assoc, <- N.add_assoc, <- Nat2N.inj_add. reflexivity.
Qed.

Lemma add_input_inv : forall p a p', add_input p a = Some p' ->
  p' = ext_ins p [to_core a] /\ inputs_modifiable p = true
  /\ existsb (same_outpoint (to_core a)) (p_cores p) = false.
Proof.
  intros p a p' H; unfold add_input in H.
  destruct ((ia_cls a =? 1) || (ia_cls a =? 2)); [discriminate|].
  destruct (existsb (same_outpoint (to_core a)) (p_cores p)); [discriminate|].
  destruct (inputs_modifiable p); cbn [negb] in H; [|discriminate].
  match type of H with (if negb ?b then _ else _) = _ => destruct b end; cbn [negb] in H; [|discriminate].
  inversion H; auto.
Qed.

Lemma add_inputs_inv : forall l p p', add_inputs p l = Some p' ->
  p' = ext_ins p (map to_core l) /\ (l <> [] -> inputs_modifiable p = true).
Proof.
  induction l as [|a l IH]; intros p p' H; cbn in H.
  - inversion H; subst. rewrite ext_ins_nil. split; congruence.
  - destruct (add_input p a) as [p1|] eqn:E1; [|discriminate].
    apply add_input_inv in E1 as (-> & M & _). apply IH in H as [-> _].
    cbn [map]. rewrite ext_ins_cons. auto.
Qed.

Lemma add_output_inv : forall p o p', add_output p o = Some p' ->
  p' = with_outs p (p_auxs p) [o] /\ outputs_modifiable p = true /\ out_sane o = true.
Proof.
  intros p o p' H; unfold add_output in H.
  destruct (out_sane o); cbn [negb] in H; [|discriminate].
  destruct (outputs_modifiable p); cbn [negb] in H; [|discriminate].
  inversion H; auto.
Qed.

Lemma add_outputs_inv : forall l p p', add_outputs p l = Some p' ->
  p' = with_outs p (p_auxs p) l /\ (l <> [] -> outputs_modifiable p = true) /\ forallb out_sane l = true.
Proof.
  induction l as [|o l IH]; intros p p' H; cbn in H.
  - inversion H; subst. rewrite with_outs_nil. repeat split; congruence.
  - destruct (add_output p o) as [p1|] eqn:E1; [|discriminate].
    apply add_output_inv in E1 as (-> & M & S). apply IH in H as (-> & _ & Sl).
    cbn [p_auxs with_outs forallb]. rewrite S, Sl. fold (with_outs p (p_auxs p) [o]). rewrite with_outs_cons. auto.
Qed.

Definition cm (p : pset) : Prop :=
  g_nin p = N.of_nat (length (p_cores p)) /\ g_nout p = N.of_nat (length (p_outs p)).

Lemma cm_ext_ins p cs : cm p -> cm (ext_ins p cs).
Proof. intros [C1 C2]; split; cbn; [rewrite C1, app_length, Nat2N.inj_add; reflexivity|exact C2]. Qed.

Lemma cm_with_outs p auxs l : cm p -> cm (with_outs p auxs l).
Proof. intros [C1 C2]; split; cbn; [exact C1|rewrite C2, app_length, Nat2N.inj_add; reflexivity]. Qed.

Definition cls0 (l : list inarg) : bool := forallb (fun a => ia_cls a =? 0) l.

Lemma new_ins_inv : forall l p p', new_ins p l = Some p' -> cls0 l = true /\ add_inputs p l = Some p'.
Proof.
  induction l as [|a l IH]; intros p p' H; cbn in H; cbn [cls0 forallb add_inputs]; [auto|].
  destruct (ia_cls a =? 0); cbn [negb] in H; [|discriminate].
  destruct (add_input p a) as [p1|]; [|discriminate]. apply IH in H as [H1 H2]. fold (cls0 l). rewrite H1; auto.
Qed.

Lemma new_outs_inv : forall l p p', new_outs p l = IOk p' ->
  forallb outarg_valid l = true /\ add_outputs p (map to_outp l) = Some p'.
Proof.
  induction l as [|a l IH]; intros p p' H; cbn in H; cbn [forallb map add_outputs].
  - inversion H; auto.
  - destruct (outarg_valid a); cbn [negb] in H; [|discriminate].
    destruct (add_output p (to_outp a)) as [p1|] eqn:E; [|discriminate]. apply IH in H as [H1 H2]. rewrite H1; auto.
Qed.

Lemma init_inv : forall ins outs fb p0, init ins outs fb = IOk p0 ->
  cls0 ins = true /\ forallb outarg_valid outs = true /\ forallb out_sane (map to_outp outs) = true /\
  exists p, add_inputs (empty_pset fb) ins = Some p /\ p0 = with_outs p (p_auxs p) (map to_outp outs).
Proof.
  intros ins outs fb p0 H; unfold init in H.
  destruct (new_ins (empty_pset fb) ins) as [p|] eqn:E; [|discriminate].
  apply new_ins_inv in E as [E1 E2]. apply new_outs_inv in H as [H1 H2].
  apply add_outputs_inv in H2 as (-> & _ & H3). eauto 6.
Qed.

(* the parts of the packet the skeleton-keeping operations return, and what [step] makes of their answer *)
Definition parts (p : pset) : list aux * list outp * list N := (p_auxs p, p_outs p, g_scalars p).
Definition lift (p : pset) (x : list aux * list outp * list N * outcome) : pset * outcome :=
  let '((auxs, outs, sc), r) := x in (upd p auxs outs sc, r).

Definition structural (o : op) : bool :=
  match o with OAddInputs _ | OAddOutputs _ | OIssue _ _ | OReissue _ _ => true | _ => false end.

Lemma step_cases p o :
  (exists f, o = OSetMod f) \/ structural o = true \/ step p o = lift p (local_step p o).
Proof. destruct o; auto. left; eauto. Qed.

Lemma upd_same : forall p, upd p (p_auxs p) (p_outs p) (g_scalars p) = p.
Proof. destruct p; reflexivity. Qed.

Lemma staged_parts_cases p x :
  snd x = Ok /\ staged_parts p x = x \/ snd x <> Ok /\ staged_parts p x = (parts p, snd x).
Proof. destruct x as [pt r]; unfold staged_parts; cbn [snd]. destruct r; auto; right; split; auto; discriminate. Qed.

Lemma in_index_inl : forall p i g n c a, in_index p i g = inl (n, c, a) ->
  nth_error (p_cores p) n = Some c /\ nth_error (p_auxs p) n = Some a.
Proof.
  intros p i g n c a H; unfold in_index in H.
  destruct (i <? 0)%Z; [destruct g; discriminate|].
  destruct (Z.of_N (g_nin p) - 1 <? i)%Z; [discriminate|].
  destruct (nth_error (p_cores p) (Z.to_nat i)) eqn:E1; [|discriminate].
  destruct (nth_error (p_auxs p) (Z.to_nat i)) eqn:E2; [|discriminate].
  inversion H; subst; auto.
Qed.

(* [thru f l l']: l' comes from l by rewriting one input after another through f *)
Inductive thru (f : core -> aux -> aux * lres) (l : list aux) : list aux -> Prop :=
| thru_refl : thru f l l
| thru_step l' n c a : thru f l l' -> nth_error l' n = Some a -> thru f l (set_nth n (fst (f c a)) l').

Lemma thru_Forall2 f (R : aux -> aux -> Prop) : (forall a, R a a) -> (forall c a b, R a b -> R a (fst (f c b))) ->
  forall l l', thru f l l' -> Forall2 R l l'.
Proof.
  intros Hr Hs l l'; induction 1 as [|l' n c a _ IH Hn]; [apply Forall2_same, Hr|].
  eapply Forall2_set_nth; eauto.
Qed.

(* an operation that writes inputs through f and nothing else *)
Definition wrote f (p : pset) (x : list aux * list outp * list N * outcome) : Prop :=
  thru f (p_auxs p) (fst (fst (fst x))) /\ snd (fst (fst x)) = p_outs p /\ snd (fst x) = g_scalars p.

Lemma wrote_same f p o : wrote f p (parts p, o).
Proof. repeat split; apply thru_refl. Qed.

Lemma wrote_at f p n c a r : nth_error (p_auxs p) n = Some a ->
  wrote f p (set_nth n (fst (f c a)) (p_auxs p), p_outs p, g_scalars p, r).
Proof. intro Hn; repeat split. eapply thru_step; [apply thru_refl|exact Hn]. Qed.

Lemma on_input_inv p i g f :
  (exists o, on_input p i g f = (parts p, o)) \/
  exists n c a, nth_error (p_auxs p) n = Some a /\
    on_input p i g f = (let auxs := set_nth n (fst (f c a)) (p_auxs p) in
                        ((auxs, p_outs p, g_scalars p), finish (snd (f c a)) (sanity_parts auxs (p_outs p) (g_scalars p)))).
Proof.
  unfold on_input. destruct (in_index p i g) as [[[n c] a]|o] eqn:E; [right|left; eexists; reflexivity].
  apply in_index_inl in E as [_ Hn]. exists n, c, a. destruct (f c a); auto.
Qed.

Lemma on_input_wrote p i g f : wrote f p (on_input p i g f).
Proof. destruct (on_input_inv p i g f) as [[o ->]|(n & c & a & Hn & ->)]; [apply wrote_same|apply wrote_at, Hn]. Qed.

Lemma staged_wrote f p x : wrote f p x -> wrote f p (staged_parts p x).
Proof. intro W; destruct (staged_parts_cases p x) as [[_ ->]|[_ ->]]; [exact W|apply wrote_same]. Qed.

(* Finalize and MaybeFinalize index p.Inputs directly and work on the live packet *)
Definition on_live (p : pset) (i : Z) (f : core -> aux -> aux * lres) : list aux * list outp * list N * outcome :=
  if (i <? 0)%Z || (Z.of_nat (length (p_auxs p)) <=? i)%Z then (parts p, Panic)
  else match nth_error (p_cores p) (Z.to_nat i), nth_error (p_auxs p) (Z.to_nat i) with
       | Some c, Some a =>
         let '(a', r) := f c a in
         let auxs := set_nth (Z.to_nat i) a' (p_auxs p) in
         ((auxs, p_outs p, g_scalars p), finish r (sanity_parts auxs (p_outs p) (g_scalars p)))
       | _, _ => (parts p, Panic)
       end.

Lemma on_live_wrote p i f : wrote f p (on_live p i f).
Proof.
  unfold on_live. destruct (_ || _); [apply wrote_same|].
  destruct (nth_error (p_cores p) (Z.to_nat i)) as [c|]; [|apply wrote_same].
  destruct (nth_error (p_auxs p) (Z.to_nat i)) as [a|] eqn:Hn; [|apply wrote_same].
  pose proof (wrote_at f p (Z.to_nat i) c a) as W. destruct (f c a) as [a' r]; apply W, Hn.
Qed.

Lemma finalize_loop_thru f : forall fuel cs n l auxs outs sc, thru f l auxs ->
  thru f l (fst (finalize_loop f cs n fuel auxs outs sc)).
Proof.
  induction fuel as [|fuel IH]; intros [|c cs] n l auxs outs sc T; cbn [finalize_loop fst]; try exact T.
  destruct (nth_error auxs n) as [a|] eqn:En; [|exact T].
  pose proof (thru_step f l auxs n c a T En) as T'. destruct (f c a) as [a' r]; cbn [fst] in T'.
  destruct (finish r _); [apply IH, T'|exact T'|exact T'].
Qed.

(* the loop of FinalizeAll / MaybeFinalizeAll as [local_step] calls it *)
Definition all_inputs (p : pset) (f : core -> aux -> aux * lres) : list aux * list outp * list N * outcome :=
  let '(auxs, o) := finalize_loop f (p_cores p) 0 (length (p_cores p)) (p_auxs p) (p_outs p) (g_scalars p) in
  ((auxs, p_outs p, g_scalars p), o).

Lemma all_inputs_wrote p f : wrote f p (all_inputs p f).
Proof.
  unfold all_inputs.
  pose proof (finalize_loop_thru f (length (p_cores p)) (p_cores p) 0 _ _ (p_outs p) (g_scalars p) (thru_refl f (p_auxs p))) as T.
  destruct (finalize_loop _ _ _ _ _ _ _) as [auxs o]. repeat split; exact T.
Qed.

(* the signer looks the input up before it stages the work *)
Lemma sign_wrote p i sigok h k rs ws : exists rsane bl,
  wrote (sign_local rsane bl sigok h k rs ws) p (local_step p (OSign i sigok h k rs ws)).
Proof.
  cbn [local_step]. destruct (in_index p i true) as [[[n c] a]|o].
  - do 2 eexists; apply staged_wrote, on_input_wrote.
  - exists true, true; apply wrote_same.
Qed.

(* what aux_reparses looks at *)
Definition tapview (a : aux) := (a_tapss a, a_tapbip32 a, a_issbad a).

Lemma aux_reparses_tapview : forall a b, tapview a = tapview b -> aux_reparses a = aux_reparses b.
Proof. intros a b H; inversion H as [[H1 H2 H3]]; unfold aux_reparses; rewrite H1, H2, H3; reflexivity. Qed.

(* a finalized input stays as it is; [quiet] adds that the parser sees no difference either *)
Definition frozenR (a b : aux) : Prop := finalized a = true -> b = a.
Definition quiet (a b : aux) : Prop := tapview b = tapview a /\ frozenR a b.

Lemma quiet_refl a : quiet a a.
Proof. split; [reflexivity|intro; reflexivity]. Qed.

Lemma to_outp_reparses : forall l, forallb outarg_valid l = true -> forallb out_reparses (map to_outp l) = true.
Proof.
  induction l as [|a l IH]; cbn; intro H; auto. apply andb_prop in H as [H1 H2]. rewrite IH; auto.
  unfold outarg_valid in H1. apply andb_prop in H1 as [H1 H3]; apply andb_prop in H1 as [H1 _].
  unfold out_reparses, to_outp; cbn. rewrite H1, H3; reflexivity.
Qed.

Lemma mk_out_reparses : forall v addr b, out_reparses (mk_out v addr b) = true.
Proof. intros v addr b; unfold out_reparses, mk_out, addr_bk; cbn. destruct (addr =? 2); reflexivity. Qed.

(* The operations that change the skeleton: the packet stays as it was, or the staged packet passed SanityCheck
   and was published; it then has new inputs, or new outputs and at most one issuance written into an input
   that was not finalized. *)
Inductive sstep (p : pset) : pset * outcome -> Prop :=
| SS_same o : sstep p (p, o)
| SS_ins l q : cls0 l = true -> add_inputs p l = Some q -> sanity q = true -> sstep p (q, Ok)
| SS_outs auxs l : Forall2 quiet (p_auxs p) auxs -> forallb out_reparses l = true ->
    (l <> [] -> outputs_modifiable p = true) -> sanity (with_outs p auxs l) = true ->
    sstep p (with_outs p auxs l, Ok).

Lemma publish_sstep p q : (sanity q = true -> sstep p (q, Ok)) -> sstep p (publish p q).
Proof. intro H; unfold publish. destruct (sanity q); [auto|apply SS_same]. Qed.

(* issuance and reissuance: an input that is not finalized gets fields the parser does not read, outputs are added *)
Lemma issued_sstep p n ax ax' l : nth_error (p_auxs p) n = Some ax -> finalized ax = false ->
  tapview ax' = tapview ax -> forallb out_reparses l = true -> (l <> [] -> outputs_modifiable p = true) ->
  sstep p (publish p (with_outs p (set_nth n ax' (p_auxs p)) l)).
Proof.
  intros Hn Hf Ht Hl M. apply publish_sstep; intro S. apply SS_outs; auto.
  eapply Forall2_set_nth; [apply Forall2_same, quiet_refl|exact Hn|].
  intros a _ [T F]; split; [congruence|]. intro Fa; rewrite (F Fa) in Hf; congruence.
Qed.

Lemma step_structural p o : structural o = true -> sstep p (step p o).
Proof.
  destruct o; try discriminate; intros _; cbn [step].
  - fold (cls0 l). destruct (cls0 l) eqn:V; [|apply SS_same].
    destruct (add_inputs p l) as [q|] eqn:E; [|apply SS_same].
    apply publish_sstep; intro S. eapply SS_ins; eauto.
  - destruct (forallb outarg_valid l) eqn:V; [|apply SS_same].
    destruct (add_outputs p (map to_outp l)) as [q|] eqn:E; [|apply SS_same].
    apply add_outputs_inv in E as (-> & M & _). apply publish_sstep; intro S.
    apply SS_outs; auto; [apply Forall2_same, quiet_refl|apply to_outp_reparses, V].
  - unfold do_issue.
    destruct (negb (issue_validate a)); [apply SS_same|].
    destruct (p_cores p); [apply SS_same|].
    destruct (in_index p i true) as [[[n c0] ax]|o] eqn:Ei; [|apply SS_same].
    destruct (a_entropy ax); [apply SS_same|].
    destruct (finalized ax) eqn:Efin; [apply SS_same|].
    destruct (c_short c0); [apply SS_same|].
    apply in_index_inl in Ei as [_ Hax].
    match goal with |- context[add_outputs ?p1 ?l] => destruct (add_outputs p1 l) as [q|] eqn:E end; [|apply SS_same].
    apply add_outputs_inv in E as (-> & M & _). match goal with |- context[set_nth n ?ax' _] => refine (issued_sstep p n ax ax' _ Hax Efin eq_refl _ M) end.
    destruct (0 <? is_tamt a); cbn [forallb]; rewrite !mk_out_reparses; reflexivity.
  - unfold do_reissue.
    destruct (in_index p i true) as [[[n c0] ax]|o] eqn:Ei; [|apply SS_same].
    destruct (a_entropy ax); [apply SS_same|].
    destruct (negb (reissue_validate a)); [apply SS_same|].
    destruct (finalized ax) eqn:Efin; [apply SS_same|].
    apply in_index_inl in Ei as [_ Hax].
    match goal with |- context[add_outputs p ?l] => destruct (add_outputs p l) as [q|] eqn:E end; [|apply SS_same].
    apply add_outputs_inv in E as (-> & M & _). match goal with |- context[set_nth n ?ax' _] => refine (issued_sstep p n ax ax' _ Hax Efin eq_refl _ M) end.
    cbn [forallb]; rewrite !mk_out_reparses; reflexivity.
Qed.

(* the blinder's reads (NewBlinder, validateBlindingArgs) do not write *)
Lemma get_utxo_same : forall c a u a', get_utxo c a = GuSome u a' -> a' = a.
Proof.
  intros c a u a' H; unfold get_utxo in H.
  destruct (a_w a); [inversion H; reflexivity|].
  destruct (negb (a_nw a)); [discriminate|].
  destruct (nth_error prevouts (N.to_nat (N.min (c_idx c) 1000))); [|discriminate].
  inversion H; reflexivity.
Qed.

Definition bres_auxs (b : bres) : list aux := match b with BGo x => x | BStop x _ => x end.

Lemma owned_validate_same : forall p owned auxs, bres_auxs (owned_validate p auxs owned) = auxs.
Proof.
  intros p; induction owned as [|i rest IH]; intros auxs; cbn [owned_validate]; [reflexivity|].
  destruct (Z.of_N (g_nin p) - 1 <? Z.of_N i)%Z; [reflexivity|].
  destruct (nth_error (p_cores p) (N.to_nat i)) as [c|]; [|reflexivity].
  destruct (nth_error auxs (N.to_nat i)) as [a|] eqn:Ea; [|reflexivity].
  destruct (get_utxo c a) as [| |u a'] eqn:Eg; [reflexivity|reflexivity|].
  apply get_utxo_same in Eg; subst a'. rewrite (set_nth_same _ _ _ Ea). apply IH.
Qed.

Lemma prevout_loop_same : forall owned cs n auxs, bres_auxs (prevout_loop cs n auxs owned) = auxs.
Proof.
  intros owned; induction cs as [|c cs IH]; intros n auxs; cbn [prevout_loop]; [reflexivity|].
  destruct (existsb (fun i => i =? N.of_nat n) owned); [apply IH|].
  destruct (nth_error auxs n) as [a|] eqn:Ea; [|reflexivity].
  destruct (get_utxo c a) as [| |u a'] eqn:Eg; [reflexivity|reflexivity|].
  apply get_utxo_same in Eg; subst a'. rewrite (set_nth_same _ _ _ Ea). apply IH.
Qed.

(* the issuance arguments the blinder refuses, and what it writes for one it accepts *)
Definition iss_refused (p : pset) (x : N * N) : bool :=
  (Z.of_N (g_nin p) - 1 <? Z.of_N (fst x))%Z
  || match nth_error (p_auxs p) (N.to_nat (fst x)) with Some ax => finalized ax | None => false end
  || (snd x =? 2).
Definition iss_write (l : list aux) (x : N * N) : list aux :=
  match nth_error l (N.to_nat (fst x)) with
  | Some ax => set_nth (N.to_nat (fst x)) (set_a_issbad (snd x =? 2) (set_a_issblind (negb (snd x =? 0)) ax)) l
  | None => l
  end.

(* The blinder leaves the packet as it was (whatever it answers), or it answers Ok after every check has passed
   and the written packet is sane. *)
Definition blinded (p : pset) (a : blind_args) (x : list aux * list outp * list N * outcome) : Prop :=
  (exists o, x = (parts p, o)) \/
  existsb (iss_refused p) (bl_iss a) = false /\
  outargs_validate p (bl_last a) (sort_by_idx (bl_outs a)) = true /\
  exists outs, blind_outs a (sort_by_idx (bl_outs a)) (p_outs p) = (outs, true) /\
    let auxs := fold_left iss_write (bl_iss a) (p_auxs p) in
    let sc := if bl_last a then [] else g_scalars p ++ [bl_scalar a] in
    sanity_parts auxs outs sc = true /\ x = ((auxs, outs, sc), Ok).

(* Case analysis on the head of a result whose property P stays folded: the goal is then the rest of the
   body, once, and not one copy for each place where the property mentions the result. *)
Lemma if_case {B} (P : B -> Prop) (b : bool) x y : P x -> P y -> P (if b then x else y).
Proof. destruct b; auto. Qed.

Lemma list_case {A B} (P : B -> Prop) (l : list A) x y : P x -> P y -> P (match l with [] => x | _ :: _ => y end).
Proof. destruct l; auto. Qed.

Lemma bres_case {B} (P : B -> Prop) b auxs (f : list aux -> B) (g : list aux -> outcome -> B) :
  bres_auxs b = auxs -> P (f auxs) -> (forall o, P (g auxs o)) ->
  P (match b with BGo x => f x | BStop x o => g x o end).
Proof. destruct b; cbn; intros <-; auto. Qed.

Lemma do_blind_inv p a : blinded p a (do_blind p a).
Proof.
  assert (forall o, blinded p a (parts p, o)) as same by (intros; left; eexists; reflexivity).
  unfold do_blind.
  apply (if_case (blinded p a) (negb (sanity p))); [apply same|].
  apply (if_case (blinded p a) (negb (needs_blinding p))); [apply same|].
  apply (list_case (blinded p a) (bl_owned a)); [apply same|].
  apply (bres_case (blinded p a) _ _ _ _ (owned_validate_same p (bl_owned a) (p_auxs p))); [|intro; apply same].
  apply (if_case (blinded p a) (is_fully_blinded p)); [apply same|].
  fold (iss_refused p). destruct (existsb (iss_refused p) (bl_iss a)) eqn:Eg; [apply same|].
  destruct (outargs_validate p (bl_last a) (sort_by_idx (bl_outs a))) eqn:Ev; cbn [negb]; [|apply same].
  apply (bres_case (blinded p a) _ _ _ _ (prevout_loop_same (bl_owned a) (p_cores p) 0 (p_auxs p))); [|intro; apply same].
  apply (if_case (blinded p a) (negb (outargs_proofs p a (sort_by_idx (bl_outs a))))); [apply same|].
  apply (if_case (blinded p a) (bl_gfail a =? 1)); [apply same|].
  apply (list_case (blinded p a) (sort_by_idx (bl_outs a))); [apply same|].
  fold iss_write. destruct (blind_outs a (sort_by_idx (bl_outs a)) (p_outs p)) as [outs' [|]] eqn:B; cbn [negb]; [|apply same].
  destruct (sanity_parts _ outs' _) eqn:Esan; [|apply same].
  right. repeat split; auto. exists outs'; auto.
Qed.

Lemma on_output_inv p i f :
  (exists o, on_output p i f = (parts p, o)) \/
  exists n x, nth_error (p_outs p) n = Some x /\
    on_output p i f = (let outs := set_nth n (fst (f x)) (p_outs p) in
                       ((p_auxs p, outs, g_scalars p), finish (snd (f x)) (sanity_parts (p_auxs p) outs (g_scalars p)))).
Proof.
  unfold on_output, out_index. destruct (i <? 0)%Z; [left; eexists; reflexivity|].
  destruct (Z.of_N (g_nout p) - 1 <? i)%Z; [left; eexists; reflexivity|].
  destruct (nth_error (p_outs p) (Z.to_nat i)) as [x|] eqn:En; [|left; eexists; reflexivity].
  right; exists (Z.to_nat i), x. destruct (f x); auto.
Qed.

(* the blinder's output writes, position by position *)
Lemma blind_outs_Forall2 (R : outp -> outp -> Prop) a l0 : forall l outs outs' d,
  blind_outs a l outs = (outs', d) -> Forall2 R l0 outs ->
  (forall x o o', In x l -> R o o' -> R o (set_o_badnonce (snd x =? 3) (set_o_bidx 0 (set_o_blinded true o')))) ->
  Forall2 R l0 outs'.
Proof.
  induction l as [|[i c] l IH]; intros outs outs' d H F Hs; cbn in H; [inversion H; subst; exact F|].
  destruct (_ && _); [inversion H; subst; exact F|].
  destruct (nth_error outs (N.to_nat i)) as [o|] eqn:E; [|inversion H; subst; exact F].
  eapply IH; [exact H| |intros x o1 o2 Hx; apply Hs; right; exact Hx].
  eapply Forall2_set_nth; [exact F|exact E|]. intros o0 _; apply (Hs (i, c)); left; reflexivity.
Qed.

Lemma finalize_all_eq p : local_step p OFinalizeAll = staged_parts p (all_inputs p finalize_local).
Proof. cbn [local_step]; unfold all_inputs. destruct (finalize_loop _ _ _ _ _ _ _); reflexivity. Qed.

Definition same_len (p : pset) (x : list aux * list outp * list N * outcome) : Prop :=
  length (snd (fst (fst x))) = length (p_outs p).

Lemma local_len p o : same_len p (local_step p o).
Proof.
  assert (forall f x, wrote f p x -> same_len p x) as W
    by (intros f x (_ & E & _); unfold same_len; rewrite E; reflexivity).
  assert (forall x, same_len p x -> same_len p (staged_parts p x)) as S
    by (intros x H; destruct (staged_parts_cases p x) as [[_ ->]|[_ ->]]; [exact H|reflexivity]).
  assert (forall i f, same_len p (on_output p i f)) as O.
  { intros i f; destruct (on_output_inv p i f) as [[r ->]|(n & x & _ & ->)]; [reflexivity|apply length_set_nth]. }
  destruct o; try reflexivity; try (cbn [local_step]; eapply W, staged_wrote, on_input_wrote);
    try (cbn [local_step]; apply S, O).
  - destruct (sign_wrote p i sigok hashtype k rs ws) as (? & ? & H); exact (W _ _ H).
  - cbn [local_step]. destruct (do_blind_inv p a) as [[r ->]|(_ & _ & outs & Hb & _ & ->)]; [reflexivity|].
    symmetry; eapply Forall2_length, (blind_outs_Forall2 (fun _ _ => True)); eauto. apply Forall2_same; auto.
  - exact (W _ _ (on_live_wrote p i finalize_local)).
  - exact (W _ _ (on_live_wrote p i maybe_finalize_local)).
  - rewrite finalize_all_eq. apply S, (W finalize_local), all_inputs_wrote.
  - exact (W _ _ (all_inputs_wrote p maybe_finalize_local)).
Qed.

(* [grows p p']: no input added; outputs only appended, and only while they may be *)
Definition grows (p p' : pset) : Prop :=
  p_cores p' = p_cores p /\ g_nin p' = g_nin p /\
  exists k, length (p_outs p') = (length (p_outs p) + k)%nat /\ g_nout p' = g_nout p + N.of_nat k
            /\ (k <> 0%nat -> outputs_modifiable p = true).

Lemma grows_same p p' : p_cores p' = p_cores p -> g_nin p' = g_nin p -> g_nout p' = g_nout p ->
  length (p_outs p') = length (p_outs p) -> grows p p'.
Proof.
  intros H1 H2 H3 H4; repeat split; auto. exists 0%nat. rewrite N.add_0_r, Nat.add_0_r. repeat split; congruence.
Qed.

Lemma step_skel p o :
  (exists l, cls0 l = true /\ add_inputs p l = Some (fst (step p o))) \/ grows p (fst (step p o)).
Proof.
  destruct (step_cases p o) as [[f ->]|[S|E]].
  - right; apply grows_same; reflexivity.
  - destruct (step_structural p o S) as [r|l q V E _|auxs l _ _ M _]; cbn [fst].
    + right; apply grows_same; reflexivity.
    + left; eauto.
    + right. repeat split. exists (length l). repeat split; [apply app_length|].
      intro H; apply M; intro; subst; apply H; reflexivity.
  - right. rewrite E. pose proof (local_len p o) as L. destruct (local_step p o) as [[[auxs outs] sc] r].
    apply grows_same; try reflexivity; exact L.
Qed.

Lemma run_inv : forall (P : pset -> Prop), (forall p o, P p -> P (fst (step p o))) ->
  forall ops p, P p -> P (run p ops).
Proof.
  intros P Hs; induction ops as [|o ops IH]; intros p Hp; cbn; auto. apply IH, Hs, Hp.
Qed.

Lemma step_cm : forall p o, cm p -> cm (fst (step p o)).
Proof.
  intros p o C; destruct (step_skel p o) as [(l & _ & E)|(Hc & Hn & k & L & G & _)].
  - apply add_inputs_inv in E as [-> _]. apply cm_ext_ins, C.
  - destruct C as [C1 C2]; split; [rewrite Hn, Hc; exact C1|rewrite G, L, C2, Nat2N.inj_add; reflexivity].
Qed.

(* C11 clause 1: the declared counts are the actual numbers *)
Theorem counts_match : forall ins outs fb p0 ops, init ins outs fb = IOk p0 ->
  let p := run p0 ops in
  g_nin p = N.of_nat (length (p_cores p)) /\ g_nout p = N.of_nat (length (p_outs p)).
Proof.
  intros ins outs fb p0 ops H. apply (run_inv cm step_cm).
  apply init_inv in H as (_ & _ & _ & p & E & ->). apply add_inputs_inv in E as [-> _].
  apply cm_with_outs, cm_ext_ins. split; reflexivity.
Qed.

(* A property of the list of inputs that every accepted new input keeps holds after any history. *)
Lemma add_inputs_cores (Q : list core -> Prop) :
  (forall p a p', ia_cls a = 0 -> add_input p a = Some p' -> Q (p_cores p) -> Q (p_cores p')) ->
  forall l p p', cls0 l = true -> add_inputs p l = Some p' -> Q (p_cores p) -> Q (p_cores p').
Proof.
  intros Hs; induction l as [|a l IH]; intros p p' V H HQ; cbn in H; [inversion H; subst; exact HQ|].
  apply andb_prop in V as [Va Vl]. apply N.eqb_eq in Va.
  destruct (add_input p a) as [p1|] eqn:E; [|discriminate]. eauto.
Qed.

Lemma reach_cores (Q : list core -> Prop) : Q [] ->
  (forall p a p', ia_cls a = 0 -> add_input p a = Some p' -> Q (p_cores p) -> Q (p_cores p')) ->
  forall ins outs fb p0 ops, init ins outs fb = IOk p0 -> Q (p_cores (run p0 ops)).
Proof.
  intros Q0 Hs ins outs fb p0 ops H. apply (run_inv (fun p => Q (p_cores p))).
  - intros p o HQ; destruct (step_skel p o) as [(l & V & E)|(Hc & _)]; [|rewrite Hc; exact HQ].
    exact (add_inputs_cores Q Hs l p _ V E HQ).
  - apply init_inv in H as (V & _ & _ & p & E & ->). exact (add_inputs_cores Q Hs ins _ p V E Q0).
Qed.

(* C11 clause 2: no two inputs spend the same outpoint *)
Theorem no_duplicate_outpoints : forall ins outs fb p0 ops, init ins outs fb = IOk p0 ->
  NoDup (map outpoint (p_cores (run p0 ops))).
Proof.
  apply (reach_cores (fun cs => NoDup (map outpoint cs))); [constructor|].
  intros p a p' _ H Hnd; apply add_input_inv in H as (-> & _ & Hdup).
  cbn [ext_ins p_cores]; rewrite map_app. apply (NoDup_Add (Add_app _ _ [])). rewrite app_nil_r.
  split; [exact Hnd|apply same_outpoint_false, Hdup].
Qed.

(* C11 clause 3: nothing is added once the matching modifiable flag is clear (any state, any operation) *)
Theorem modifiable_respected : forall p o,
  (inputs_modifiable p = false -> p_cores (fst (step p o)) = p_cores p)
  /\ (outputs_modifiable p = false -> length (p_outs (fst (step p o))) = length (p_outs p)).
Proof.
  intros p o; destruct (step_skel p o) as [(l & _ & E)|(Hc & _ & k & L & _ & M)].
  - apply add_inputs_inv in E as [-> M]. cbn [ext_ins p_cores p_outs]. split; [|reflexivity].
    intro Hm; destruct l; [apply app_nil_r|]. rewrite M in Hm; discriminate.
  - split; [intros _; exact Hc|]. intro Hm; destruct k; [rewrite L; apply Nat.add_0_r|].
    rewrite M in Hm; discriminate.
Qed.

Lemma ltb0 x : (0 <? x) = negb (x =? 0).
Proof. destruct x; reflexivity. Qed.

Lemma max_eqb0 x y : (N.max x y =? 0) = (x =? 0) && (y =? 0).
Proof.
  destruct x as [|a], y as [|b]; try reflexivity. unfold N.max; cbn [N.compare].
  destruct (a ?= b)%positive; reflexivity.
Qed.

(* max_time and max_height are [maxf c_time] and [maxf c_height] *)
Definition maxf (g : core -> N) (cs : list core) : N := fold_left (fun m c => N.max m (g c)) cs 0.

Lemma fold_max_init (g : core -> N) : forall cs m,
  fold_left (fun m c => N.max m (g c)) cs m = N.max m (maxf g cs).
Proof.
  unfold maxf; induction cs as [|c cs IH]; intro m; cbn [fold_left]; [symmetry; apply N.max_0_r|].
  rewrite IH, (IH (N.max 0 (g c))), N.max_0_l. symmetry; apply N.max_assoc.
Qed.

Lemma maxf_cons g c cs : maxf g (c :: cs) = N.max (g c) (maxf g cs).
Proof. unfold maxf at 1; cbn [fold_left]. rewrite fold_max_init, N.max_0_l. reflexivity. Qed.

Lemma maxf_snoc g cs c : maxf g (cs ++ [c]) = N.max (maxf g cs) (g c).
Proof. unfold maxf; rewrite fold_left_app; reflexivity. Qed.

Lemma maxf_eqb0 g cs : (maxf g cs =? 0) = negb (existsb (fun c => negb (g c =? 0)) cs).
Proof.
  induction cs as [|c cs IH]; [reflexivity|]. rewrite maxf_cons, max_eqb0, IH. cbn [existsb].
  destruct (g c =? 0); reflexivity.
Qed.

Lemma time_only_seen_eq : forall cs,
  existsb (fun c => (0 <? c_time c) && (c_height c =? 0)) cs = existsb time_only cs.
Proof. induction cs as [|c cs IH]; cbn [existsb]; [reflexivity|]. rewrite IH, ltb0; reflexivity. Qed.

(* a time-only input has a time lock; time locks without any height lock make a time-only input *)
Lemma time_kinds : forall cs,
  (existsb time_only cs = true -> existsb (fun c => negb (c_time c =? 0)) cs = true) /\
  (existsb (fun c => negb (c_time c =? 0)) cs = true -> existsb (fun c => negb (c_height c =? 0)) cs = false ->
   existsb time_only cs = true).
Proof.
  induction cs as [|c cs [I1 I2]]; cbn [existsb]; [split; discriminate|]. unfold time_only at 1 3.
  destruct (c_time c =? 0), (c_height c =? 0); cbn [negb andb orb]; split; auto; discriminate.
Qed.

(* C11 clause 4: Locktime() is the largest required locktime of the kind BIP-370 selects, else the fallback: every packet *)
Theorem locktime_is_max_of_selected_kind : forall p, locktime p = spec_locktime p.
Proof.
  intros p; unfold locktime, spec_locktime.
  change (max_height (p_cores p)) with (maxf c_height (p_cores p)).
  change (max_time (p_cores p)) with (maxf c_time (p_cores p)).
  rewrite !ltb0, !maxf_eqb0, !negb_involutive, time_only_seen_eq.
  destruct (time_kinds (p_cores p)) as [K1 K2].
  destruct (existsb time_only (p_cores p)), (existsb (fun c => negb (c_height c =? 0)) (p_cores p)),
    (existsb (fun c => negb (c_time c =? 0)) (p_cores p)); try reflexivity.
  all: try discriminate (K1 eq_refl); discriminate (K2 eq_refl eq_refl).
Qed.

Definition mk_in (t idx height time : N) : inarg :=
  {| ia_cls := 0; ia_t := t; ia_idx := idx; ia_seq := 0; ia_height := height; ia_time := time |}.

(* a time-only input 600000000 next to an input with both kinds (500000005, 100): the time kind is selected
   (fix 3710385) *)
Example locktime_time_only_next_to_both :
  exists p0, init [mk_in 0 0 0 600000000; mk_in 1 0 100 500000005] [] None = IOk p0 /\ locktime p0 = 600000000.
Proof. eexists; split; [vm_compute; reflexivity|vm_compute; reflexivity]. Qed.

Definition has_psig (a : aux) : bool := negb (match a_psigs a with [] => true | _ => false end).
(* the inputs as addInput walks them: creation-time part and written part side by side *)
Fixpoint any_psigs (cs : list core) (auxs : list aux) : bool :=
  match cs with [] => false | _ :: cs' => has_psig (hd aux0 auxs) || any_psigs cs' (tl auxs) end.
Definition signed (p : pset) : bool := any_psigs (p_cores p) (p_auxs p).

(* a candidate that has not gone (0: gone), raised to y *)
Definition raise (x y : N) : N := if x =? 0 then 0 else N.max x y.

Lemma raise_0_r x : raise x 0 = x.
Proof. destruct x; reflexivity. Qed.

Lemma raise_alt x y : (if negb (x =? 0) then N.max x y else x) = raise x y.
Proof. destruct x; reflexivity. Qed.

Lemma raise_eqb0 x y : (raise x y =? 0) = (x =? 0).
Proof.
  unfold raise. destruct (N.eqb_spec x 0) as [->|H]; [reflexivity|]. rewrite max_eqb0.
  apply N.eqb_neq in H; rewrite H; reflexivity.
Qed.

Lemma raise_raise x y z : raise (raise x y) z = raise x (N.max y z).
Proof.
  unfold raise at 1. rewrite raise_eqb0. unfold raise. destruct (x =? 0); [reflexivity|]. symmetry; apply N.max_assoc.
Qed.

(* one round of the loop: a time-only input ends the height candidate and needs a time candidate, and the
   other way round; a candidate still there is raised *)
Lemma lock_loop_cons c cs auxs t h s :
  lock_loop (c :: cs) auxs t h s =
  if time_only c && (t =? 0) || height_only c && (h =? 0) then None
  else lock_loop cs (tl auxs) (if height_only c then 0 else raise t (c_time c))
         (if time_only c then 0 else raise h (c_height c)) (s || has_psig (hd aux0 auxs)).
Proof.
  cbn [lock_loop]. unfold time_only, height_only, has_psig.
  destruct (N.eqb_spec (c_time c) 0) as [->|Ht], (N.eqb_spec (c_height c) 0) as [->|Hh]; cbn [negb andb orb N.eqb];
    rewrite ?raise_0_r, ?raise_alt, ?orb_false_r; reflexivity.
Qed.

(* the candidates the loop ends with *)
Definition T_end (cs : list core) (t : N) : N := if existsb height_only cs then 0 else raise t (max_time cs).
Definition H_end (cs : list core) (h : N) : N := if existsb time_only cs then 0 else raise h (max_height cs).

(* The loop in closed form: it fails when a time-only input meets a height-only one (among the inputs, or the
   candidate of the other kind having gone), else it carries the maxima of the kinds still alive. *)
Definition lock_clash (cs : list core) (t h : N) : bool :=
  existsb time_only cs && ((t =? 0) || existsb height_only cs) || existsb height_only cs && (h =? 0).

Lemma lock_loop_eq : forall cs auxs t h s,
  lock_loop cs auxs t h s =
  if lock_clash cs t h then None else Some (T_end cs t, H_end cs h, s || any_psigs cs auxs).
Proof.
  induction cs as [|c cs IH]; intros auxs t h s.
  - cbn. unfold T_end, H_end; cbn. rewrite !raise_0_r, orb_false_r. reflexivity.
  - rewrite lock_loop_cons, IH; clear IH. unfold lock_clash, T_end, H_end. cbn [existsb any_psigs].
    change (max_time (c :: cs)) with (maxf c_time (c :: cs)). change (max_height (c :: cs)) with (maxf c_height (c :: cs)).
    rewrite !maxf_cons, <- !raise_raise, (orb_assoc s).
    change (maxf c_time cs) with (max_time cs). change (maxf c_height cs) with (max_height cs).
    set (TO := existsb time_only cs). set (HO := existsb height_only cs). unfold time_only, height_only.
    (* an input without required locktime, or with both kinds, leaves the two sides equal as they stand *)
    destruct (c_time c =? 0), (c_height c =? 0); cbn [negb andb orb]; rewrite ?raise_eqb0, ?orb_true_r; try reflexivity.
    + destruct TO, HO, (h =? 0); reflexivity.
    + destruct TO, HO, (t =? 0); reflexivity.
Qed.

(* the locktime addInput computes for the packet with the new input *)
Definition new_locktime (p : pset) (t h : N) : N :=
  let T := T_end (p_cores p) t in let H := H_end (p_cores p) h in
  if negb (H =? 0) then H else if negb (T =? 0) then T else fallback_or_0 p.

(* the lock-time guard of addInput, for an input that has a required locktime *)
Lemma add_input_lock : forall p a p', add_input p a = Some p' ->
  let c := to_core a in
  (c_height c =? 0) && (c_time c =? 0) = false ->
  lock_clash (p_cores p) (c_time c) (c_height c) = false /\
  (signed p = true -> locktime p = new_locktime p (c_time c) (c_height c)).
Proof.
  intros p a p' H c Z; unfold add_input in H; fold c in H.
  destruct ((ia_cls a =? 1) || (ia_cls a =? 2)); [discriminate|].
  destruct (existsb (same_outpoint c) (p_cores p)); [discriminate|].
  destruct (negb (inputs_modifiable p)); [discriminate|].
  rewrite lock_loop_eq, <- negb_andb, Z in H. cbn [negb] in H.
  destruct (lock_clash _ _ _); [discriminate|]. split; [reflexivity|].
  cbn [orb] in H. fold (signed p) in H. intro S; rewrite S in H. cbn [andb] in H.
  fold (new_locktime p (c_time c) (c_height c)) in H.
  destruct (locktime p =? _) eqn:E; [apply N.eqb_eq, E|discriminate].
Qed.

(* the kind selection is well defined: no time-only input next to a height-only one *)
Theorem kinds_compatible : forall ins outs fb p0 ops, init ins outs fb = IOk p0 ->
  forall x y, In x (p_cores (run p0 ops)) -> In y (p_cores (run p0 ops)) ->
  time_only x = true -> height_only y = true -> False.
Proof.
  intros ins outs fb p0 ops H x y Hx Hy Tx Ty.
  assert (existsb time_only (p_cores (run p0 ops)) && existsb height_only (p_cores (run p0 ops)) = false) as Q.
  { revert H; apply (reach_cores (fun cs => existsb time_only cs && existsb height_only cs = false)); [reflexivity|].
    intros p a p' _ H Q. pose proof (add_input_lock p a p' H) as L; cbv zeta in L.
    apply add_input_inv in H as (-> & _). cbn [ext_ins p_cores]. rewrite !existsb_app; cbn [existsb].
    unfold time_only at 2, height_only at 2. unfold lock_clash in L.
    destruct (existsb time_only (p_cores p)), (existsb height_only (p_cores p)); try discriminate Q;
      destruct (c_height (to_core a) =? 0), (c_time (to_core a) =? 0); try reflexivity;
      destruct (L eq_refl) as [L1 _]; discriminate L1. }
  rewrite (proj2 (existsb_exists _ _) (ex_intro _ x (conj Hx Tx))) in Q.
  rewrite (proj2 (existsb_exists _ _) (ex_intro _ y (conj Hy Ty))) in Q. discriminate.
Qed.

Lemma add_input_signed_locktime : forall p a p', add_input p a = Some p' -> signed p = true -> locktime p' = locktime p.
Proof.
  intros p a p' H S. pose proof (add_input_lock p a p' H) as L; cbv zeta in L.
  apply add_input_inv in H as (-> & _). set (c := to_core a) in *.
  rewrite (locktime_is_max_of_selected_kind (ext_ins p [c])). unfold spec_locktime. cbn [ext_ins p_cores].
  change (fallback_or_0 (ext_ins p [c])) with (fallback_or_0 p).
  change (max_time (p_cores p ++ [c])) with (maxf c_time (p_cores p ++ [c])).
  change (max_height (p_cores p ++ [c])) with (maxf c_height (p_cores p ++ [c])).
  rewrite !existsb_app, !maxf_snoc; cbn [existsb]; rewrite !orb_false_r.
  change (maxf c_time (p_cores p)) with (max_time (p_cores p)). change (maxf c_height (p_cores p)) with (max_height (p_cores p)).
  unfold time_only at 2.
  destruct (c_height c =? 0) eqn:Eh, (c_time c =? 0) eqn:Et; cbn [negb andb] in *.
  { (* no required locktime on the new input *)
    apply N.eqb_eq in Eh, Et. rewrite Eh, Et, !orb_false_r, !N.max_0_r. symmetry; apply locktime_is_max_of_selected_kind. }
  (* the guard: signatures present, so the old locktime is the candidate *)
  all: destruct (L eq_refl) as [L1 L2]; rewrite (L2 S); clear L L2; unfold new_locktime, T_end, H_end, lock_clash, raise in *;
    rewrite Eh, Et in *; destruct (existsb time_only (p_cores p)), (existsb height_only (p_cores p));
    cbn [negb andb orb N.eqb] in *; try discriminate L1; rewrite ?max_eqb0, ?Eh, ?Et; cbn [negb andb orb N.eqb];
    rewrite ?orb_true_r; try reflexivity; apply N.max_comm.
Qed.

Lemma any_psigs_app : forall cs auxs cs2 l2, any_psigs cs auxs = true -> any_psigs (cs ++ cs2) (auxs ++ l2) = true.
Proof.
  induction cs as [|c cs IH]; intros auxs cs2 l2 H; cbn in H; [discriminate|].
  destruct auxs as [|x xs]; cbn in *.
  - assert (forall cs', any_psigs cs' [] = false) as N by (induction cs'; cbn; auto). rewrite N in H; discriminate.
  - apply orb_prop in H as [H|H]; [rewrite H; reflexivity|]. rewrite (IH _ _ _ H), orb_true_r; reflexivity.
Qed.

Lemma add_inputs_signed_locktime : forall l p p', add_inputs p l = Some p' -> signed p = true ->
  locktime p' = locktime p /\ signed p' = true.
Proof.
  induction l as [|a l IH]; intros p p' H Hs; cbn in H; [inversion H; subst; auto|].
  destruct (add_input p a) as [p1|] eqn:E; [|discriminate].
  pose proof (add_input_signed_locktime _ _ _ E Hs) as L1.
  apply add_input_inv in E as (-> & _). destruct (IH _ _ H) as [L2 S2]; [apply any_psigs_app, Hs|].
  split; [congruence|exact S2].
Qed.

(* partial signatures commit to the locktime: AddInputs never moves it under them (any packet, any arguments) *)
Theorem signed_locktime_fixed : forall p l, signed p = true -> locktime (fst (step p (OAddInputs l))) = locktime p.
Proof.
  intros p l S. destruct (step_structural p (OAddInputs l) eq_refl) as [r|l' q _ E _|auxs l' _ _ _ _]; cbn [fst].
  - reflexivity.
  - apply (add_inputs_signed_locktime _ _ _ E S).
  - reflexivity.
Qed.

Lemma local_atomic p o : is_multi_part o = true -> snd (local_step p o) <> Ok -> fst (local_step p o) = parts p.
Proof.
  assert (forall x, snd (staged_parts p x) <> Ok -> fst (staged_parts p x) = parts p) as S.
  { intros x H; destruct (staged_parts_cases p x) as [[E1 E2]|[_ E2]]; rewrite E2 in *; [contradiction|reflexivity]. }
  destruct o; try discriminate; intros _; try reflexivity; cbn [local_step]; try apply S.
  - destruct (in_index p i true) as [[[n c] x]|r]; [apply S|reflexivity].
  - destruct (do_blind_inv p a) as [[r ->]|(_ & _ & outs & _ & _ & ->)]; [reflexivity|intros []; reflexivity].
  - fold (local_step p OFinalizeAll); rewrite finalize_all_eq; apply S.
Qed.

(* C11: a multi-part operation that returns an error leaves the packet unchanged: any packet, every multi-part operation *)
Theorem multi_part_ops_atomic : forall p o,
  snd (step p o) = Err -> is_multi_part o = true -> fst (step p o) = p.
Proof.
  intros p o He Hm. destruct (step_cases p o) as [[f ->]|[S|E]]; [discriminate|..].
  - destruct (step_structural p o S); try discriminate He; reflexivity.
  - rewrite E in *. pose proof (local_atomic p o Hm) as A.
    destruct (local_step p o) as [[[auxs outs] sc] r]; cbn [lift fst snd] in *.
    rewrite He in A. injection (A ltac:(discriminate)) as -> -> ->. apply upd_same.
Qed.

Lemma nw_to_w_tapview c a a' : nw_to_w c a = Some a' -> tapview a' = tapview a.
Proof.
  unfold nw_to_w. destruct (negb (a_nw a)); [discriminate|].
  destruct (prevout_script c); [|discriminate]. intro H; inversion H; reflexivity.
Qed.

(* an answer of a staged one-input operation: the parser still accepts the input, and a plain "done" (no
   SanityCheck follows) comes with the input as it was *)
Definition okw (a : aux) (x : aux * lres) : Prop :=
  (aux_reparses a = true -> aux_reparses (fst x) = true) /\ (snd x = LOk -> fst x = a).

Lemma okw_plain a b r : tapview b = tapview a -> r <> LOk -> okw a (b, r).
Proof. intros T N; split; cbn [fst snd]; [rewrite (aux_reparses_tapview _ _ T); auto|intro E; contradiction]. Qed.

Lemma okw_done a : okw a (a, LOk).
Proof. split; auto. Qed.

Lemma okw_err a : okw a (a, LErr).
Proof. apply okw_plain; [reflexivity|discriminate]. Qed.

Lemma add_psig_okw c a b sigok h k : tapview b = tapview a -> okw a (add_psig c b sigok h k).
Proof.
  intro T. assert (okw a (b, LErr)) as E by (apply okw_plain; [exact T|discriminate]).
  assert (okw a (b, LPanic)) as P by (apply okw_plain; [exact T|discriminate]).
  assert (okw a (set_a_psigs (a_psigs b ++ [(match k with Some k => k | None => 0 end, h)]) b, LSan)) as C
    by (apply okw_plain; [exact T|discriminate]).
  unfold add_psig. destruct k as [k|]; [|exact E]. destruct (negb sigok); [exact E|].
  destruct (existsb _ (a_psigs b)); [exact E|]. destruct (a_nw b).
  - destruct (a_redeem b); [|exact C]. destruct (prevout_script c); [|exact P]. destruct (script_eqb _ _); [exact C|exact E].
  - destruct (a_w b); [|exact E]. destruct (a_redeem b).
    + destruct (script_eqb _ _); [|exact E]. destruct (a_wscript b); destruct (script_eqb _ _); assumption.
    + destruct (a_wscript b); destruct (script_eqb _ _); assumption.
Qed.

Lemma sign_local_spec rsane bl sigok h k rs ws c a :
  let x := sign_local rsane bl sigok h k rs ws c a in
  if finalized a then x = (a, LOk) else okw a x.
Proof.
  unfold sign_local. destruct (finalized a); [reflexivity|].
  destruct (_ && bl); [apply okw_err|].
  set (a1 := match ws with Some _ => set_a_wscript ws a | None => a end).
  assert (tapview a1 = tapview a) as T1 by (destruct ws; reflexivity).
  destruct (non_nil ws && _); [apply okw_plain; [exact T1|discriminate]|].
  set (a2 := match rs with Some _ => set_a_redeem rs a1 | None => a1 end).
  assert (tapview a2 = tapview a) as T2 by (destruct rs; exact T1).
  destruct (non_nil rs && _); [apply okw_plain; [exact T2|discriminate]|].
  (* every way of choosing the utxo form ends in the admission of the signature, a panic or an error *)
  set (Q := fun y : aux + aux * lres => okw a match y with inl a3 => add_psig c a3 sigok h k | inr r => r end).
  match goal with |- okw a (match ?y with inl _ => _ | inr _ => _ end) => change (Q y) end.
  assert (Q (inl a2)) as Q2 by (apply add_psig_okw, T2).
  assert (Q (inr (a2, LPanic))) as QP by (apply okw_plain; [exact T2|discriminate]).
  assert (Q match nw_to_w c a2 with
            | Some a' => if in_sane a' && rsane then inl a' else inr (a', LErr)
            | None => inr (a2, LPanic) end) as Qc.
  { destruct (nw_to_w c a2) as [a'|] eqn:E; [|exact QP]. apply nw_to_w_tapview in E.
    destruct (in_sane a' && rsane); [apply add_psig_okw|apply okw_plain; [|discriminate]]; congruence. }
  destruct (non_nil (a_wscript a2)); [destruct (a_w a2); assumption|].
  destruct (non_nil (a_redeem a2)).
  - destruct rs as [r|]; [|assumption]. destruct (is_witness_program r); [|assumption]. destruct (a_w a2); assumption.
  - destruct (a_w a2); [assumption|]. destruct (negb (a_nw a2)); [assumption|].
    destruct (prevout_script c) as [s|]; [|assumption]. destruct (is_witness_program s); assumption.
Qed.

Definition keeps_finalized (f : core -> aux -> aux * lres) : Prop :=
  forall c a, finalized a = true -> fst (f c a) = a.

Lemma wrote_frozen f p x : keeps_finalized f -> wrote f p x -> Forall2 frozenR (p_auxs p) (fst (fst (fst x))).
Proof.
  intros K (T & _); revert T; apply thru_Forall2; [intros a _; reflexivity|].
  intros c a b R Fa. rewrite (R Fa). apply K, Fa.
Qed.

Lemma frozen_nth l l' n a : Forall2 frozenR l l' -> nth_error l n = Some a -> finalized a = true ->
  nth_error l' n = Some a.
Proof. intros F Hn Fa; destruct (Forall2_nth _ _ _ F n a Hn) as (b & Hb & R). rewrite (R Fa) in Hb; exact Hb. Qed.

Lemma finalize_local_keeps : keeps_finalized finalize_local.
Proof.
  intros c a H; unfold finalize_local, finalize_taproot, finalize_witness, finalize_nonwitness; rewrite H.
  destruct (a_w a), (is_taproot a), (a_nw a); reflexivity.
Qed.

Lemma maybe_finalize_local_keeps : keeps_finalized maybe_finalize_local.
Proof. intros c a H; unfold maybe_finalize_local; rewrite H; reflexivity. Qed.

Lemma sign_local_keeps rsane bl sigok h k rs ws : keeps_finalized (sign_local rsane bl sigok h k rs ws).
Proof. intros c a H. pose proof (sign_local_spec rsane bl sigok h k rs ws c a) as S; cbv zeta in S. rewrite H in S. rewrite S; reflexivity. Qed.

(* the blinder's issuance writes, position by position *)
Lemma fold_iss_Forall2 (R : aux -> aux -> Prop) l0 : forall iss l, Forall2 R l0 l ->
  (forall y a b, In y iss -> nth_error l0 (N.to_nat (fst y)) = Some a -> R a b ->
     R a (set_a_issbad (snd y =? 2) (set_a_issblind (negb (snd y =? 0)) b))) ->
  Forall2 R l0 (fold_left iss_write iss l).
Proof.
  induction iss as [|y iss IH]; intros l F H; cbn [fold_left]; [exact F|].
  apply IH; [|intros z a b Hz; apply H; right; exact Hz]. unfold iss_write.
  destruct (nth_error l (N.to_nat (fst y))) as [b|] eqn:E; [|exact F].
  eapply Forall2_set_nth; [exact F|exact E|]. intros a Ha; apply H; [left; reflexivity|exact Ha].
Qed.

(* the multi-part operations, the finalizers (and the caller's flag change) *)
Definition frozen_scope (o : op) : bool :=
  is_multi_part o || match o with OFinalize _ | OMaybeFinalize _ | OMaybeFinalizeAll | OSetMod _ => true | _ => false end.

Lemma local_frozen p o : frozen_scope o = true -> Forall2 frozenR (p_auxs p) (fst (fst (fst (local_step p o)))).
Proof.
  assert (forall a, frozenR a a) as Rr by (intros a _; reflexivity).
  destruct o; try discriminate; intros _; try apply (Forall2_same _ Rr).
  - destruct (sign_wrote p i sigok hashtype k rs ws) as (rsane & bl & W). exact (wrote_frozen _ _ _ (sign_local_keeps _ _ _ _ _ _ _) W).
  - cbn [local_step]. eapply wrote_frozen; [|apply staged_wrote, on_input_wrote]. intros c b Fb; cbn; rewrite Fb; reflexivity.
  - cbn [local_step]. eapply wrote_frozen; [|apply staged_wrote, on_input_wrote]. intros c b Fb; cbn; rewrite Fb; reflexivity.
  - cbn [local_step]. destruct (do_blind_inv p a) as [[r ->]|(G & _ & outs & _ & _ & ->)]; [apply (Forall2_same _ Rr)|].
    apply fold_iss_Forall2; [apply (Forall2_same _ Rr)|]. intros y x b Hy Hx _ Fx.
    apply (existsb_false_In _ _ _ G) in Hy. unfold iss_refused in Hy. rewrite Hx, Fx, orb_true_r in Hy. discriminate.
  - exact (wrote_frozen _ _ _ finalize_local_keeps (on_live_wrote p i finalize_local)).
  - exact (wrote_frozen _ _ _ maybe_finalize_local_keeps (on_live_wrote p i maybe_finalize_local)).
  - rewrite finalize_all_eq. exact (wrote_frozen _ _ _ finalize_local_keeps (staged_wrote _ _ _ (all_inputs_wrote p finalize_local))).
  - exact (wrote_frozen _ _ _ maybe_finalize_local_keeps (all_inputs_wrote p maybe_finalize_local)).
Qed.

(* C11: an already finalized input is never altered: any packet, every multi-part operation and every finalizer *)
Theorem finalized_inputs_frozen : forall p o n a,
  frozen_scope o = true -> nth_error (p_auxs p) n = Some a -> finalized a = true ->
  nth_error (p_auxs (fst (step p o))) n = Some a.
Proof.
  intros p o n a Hsc Hn Hf. destruct (step_cases p o) as [[f ->]|[S|E]]; [exact Hn|..].
  - destruct (step_structural p o S) as [r|l q _ E _|auxs l Q _ _ _]; cbn [fst].
    + exact Hn.
    + apply add_inputs_inv in E as [-> _]. cbn [ext_ins p_auxs]. rewrite nth_error_app1; [exact Hn|].
      apply nth_error_Some; congruence.
    + apply (frozen_nth (p_auxs p)); auto. revert Q; apply Forall2_mono. intros x y [_ F]; exact F.
  - rewrite E. pose proof (local_frozen p o Hsc) as F.
    destruct (local_step p o) as [[[auxs outs] sc] r]. exact (frozen_nth _ _ _ _ F Hn Hf).
Qed.

(* Serialising and re-parsing.  Two things are not decided by the library: the caller may write any bit set into Global.TxModifiable (the
   parser accepts 0..7), and the scalar a non-last blinder publishes comes from its generator (the parser rejects
   a scalar that occurs twice). The theorem takes operation lists in which the caller's flags are three bits and
   the generator's scalars are fresh. *)
Definition op_ok (p : pset) (o : op) : Prop :=
  match o with
  | OSetMod (Some f) => f < 8
  | OBlind a => bl_last a = true \/ existsb (fun y => y =? bl_scalar a) (g_scalars p) = false
  | _ => True
  end.
Fixpoint good_run (p : pset) (ops : list op) : Prop :=
  match ops with [] => True | o :: r => op_ok p o /\ good_run (fst (step p o)) r end.

Definition flags_ok (p : pset) : bool := match g_flags p with None => true | Some f => f <? 8 end.

(* what [rt] asks of the parts the operations write, and of the packet (the counts and the creation-time part
   of the inputs are dealt with by counts_match and reach_cores) *)
Definition Jp (pt : list aux * list outp * list N) : Prop :=
  let '(auxs, outs, sc) := pt in
  sanity_parts auxs outs sc = true /\ nodup_n sc = true /\
  forallb aux_reparses auxs = true /\ forallb out_reparses outs = true.
Definition J (p : pset) : Prop := flags_ok p = true /\ Jp (parts p).

Lemma nodup_n_snoc : forall l s, nodup_n l = true -> existsb (fun y => y =? s) l = false -> nodup_n (l ++ [s]) = true.
Proof.
  induction l as [|x l IH]; intros s Hn He; cbn in *; auto.
  apply andb_prop in Hn as [H1 H2]. apply orb_false_elim in He as [E1 E2].
  rewrite existsb_app; cbn. rewrite (N.eqb_sym s x), E1, orb_false_r. rewrite H1; cbn. apply IH; auto.
Qed.

Lemma sanity_parts_auxs : forall auxs auxs' outs sc, sanity_parts auxs outs sc = true ->
  (forallb in_sane auxs = true -> forallb in_sane auxs' = true) -> sanity_parts auxs' outs sc = true.
Proof.
  intros auxs auxs' outs sc H K; unfold sanity_parts in *.
  apply andb_prop in H as [H1 H3]; apply andb_prop in H1 as [H1 H2]. rewrite (K H1), H2, H3; reflexivity.
Qed.

Lemma wrote_keeps (P : aux -> bool) f p x : (forall c a, P a = true -> P (fst (f c a)) = true) ->
  wrote f p x -> forallb P (p_auxs p) = true -> forallb P (fst (fst (fst x))) = true.
Proof.
  intros K (T & _). apply keeps_forallb. revert T; apply thru_Forall2; [intros a H; exact H|].
  intros c a b R H; apply K, R, H.
Qed.

Lemma staged_input_J p i g f : (forall c a, okw a (f c a)) -> Jp (parts p) ->
  Jp (fst (staged_parts p (on_input p i g f))).
Proof.
  intros G HJ. destruct (staged_parts_cases p (on_input p i g f)) as [[E1 E2]|[_ E2]]; rewrite E2; [|exact HJ].
  pose proof (on_input_wrote p i g f) as W.
  destruct (on_input_inv p i g f) as [[o E]|(n & c & a & Hn & E)]; rewrite E in *; [exact HJ|]. cbv zeta in *; cbn [fst snd] in *.
  destruct HJ as (S & N & A & Ho). repeat split; auto.
  - destruct (G c a) as [_ L]. destruct (snd (f c a)); cbn [finish] in E1; try discriminate.
    + destruct (sanity_parts (set_nth _ _ _) _ _); [reflexivity|discriminate].
    + rewrite (L eq_refl), (set_nth_same _ _ _ Hn). exact S.
  - exact (wrote_keeps aux_reparses f p _ (fun c a => proj1 (G c a)) W A).
Qed.

Lemma staged_output_J p i f : (forall o, out_reparses (fst (f o)) = out_reparses o /\ snd (f o) <> LOk) ->
  Jp (parts p) -> Jp (fst (staged_parts p (on_output p i f))).
Proof.
  intros G HJ. destruct (staged_parts_cases p (on_output p i f)) as [[E1 E2]|[_ E2]]; rewrite E2; [|exact HJ].
  destruct (on_output_inv p i f) as [[o E]|(n & x & Hn & E)]; rewrite E in *; [exact HJ|]. cbv zeta in *; cbn [fst snd] in *.
  destruct HJ as (S & N & A & Ho). destruct (G x) as [Gr Gl]. repeat split; auto.
  - destruct (snd (f x)); cbn [finish] in E1; try discriminate; [|contradiction].
    destruct (sanity_parts _ (set_nth _ _ _) _); [reflexivity|discriminate].
  - pose proof (proj1 (forallb_forall _ _) Ho x (nth_error_In _ _ Hn)) as Px. revert Ho; apply keeps_forallb.
    eapply Forall2_set_nth; [apply Forall2_same; intros a H; exact H|exact Hn|].
    intros a _ _ _. rewrite Gr. exact Px.
Qed.

(* case analysis on every match of the goal, innermost scrutinee first *)
Ltac crush_matches :=
  repeat (match goal with
  | |- context[match ?x with _ => _ end] =>
      lazymatch x with
      | context[match _ with _ => _ end] => fail
      | _ => destruct x
      end
  end; cbv beta iota).

Lemma finalize_witness_shape : forall a a', finalize_witness a = Some a' ->
  a' = set_a_fsw true (set_a_fss (nonempty (a_redeem a)) a).
Proof. intros a a'; unfold finalize_witness; crush_matches; intro H; try discriminate; inversion H; reflexivity. Qed.
Lemma finalize_nonwitness_shape : forall a a', finalize_nonwitness a = Some a' -> a' = set_a_fss true a.
Proof. intros a a'; unfold finalize_nonwitness; crush_matches; intro H; try discriminate; inversion H; reflexivity. Qed.
Lemma finalize_taproot_shape : forall a a', finalize_taproot a = Some a' -> a' = set_a_fsw true a.
Proof. intros a a'; unfold finalize_taproot; crush_matches; intro H; try discriminate; inversion H; reflexivity. Qed.

Lemma in_sane_fsw : forall a u, a_w a = Some u -> in_sane (set_a_fsw true a) = in_sane a.
Proof. intros a u Hw; destruct a; cbn in *; subst; reflexivity. Qed.

(* a finalizer keeps the input sane and does not touch what the parser looks at *)
Definition finalizes (a b : aux) : Prop := tapview b = tapview a /\ in_sane b = in_sane a.

Lemma in_sane_psigs v a : in_sane (set_a_psigs v a) = in_sane a.
Proof. reflexivity. Qed.

Lemma in_sane_fss v a : in_sane (set_a_fss v a) = in_sane a.
Proof. reflexivity. Qed.

(* the setters are taken off one by one: left to conversion, the whole records are compared first *)
Lemma finalize_local_ok c a : finalizes a (fst (finalize_local c a)).
Proof.
  unfold finalize_local. destruct (a_w a) as [u|] eqn:Ew.
  - destruct (is_taproot a).
    + destruct (finalize_taproot a) as [a'|] eqn:E; [|split; reflexivity].
      apply finalize_taproot_shape in E; subst. split; [reflexivity|exact (in_sane_fsw a u Ew)].
    + destruct (finalize_witness a) as [a'|] eqn:E; [|split; reflexivity].
      apply finalize_witness_shape in E; subst. split; [reflexivity|]. cbn [fst].
      rewrite in_sane_psigs, (in_sane_fsw (set_a_fss _ a) u Ew). apply in_sane_fss.
  - destruct (a_nw a); [|split; reflexivity].
    destruct (finalize_nonwitness a) as [a'|] eqn:E; [|split; reflexivity].
    apply finalize_nonwitness_shape in E; subst. split; [reflexivity|]. cbn [fst].
    rewrite in_sane_psigs. apply in_sane_fss.
Qed.

Lemma maybe_finalize_local_ok c a : finalizes a (fst (maybe_finalize_local c a)).
Proof.
  unfold maybe_finalize_local. destruct (finalized a); [split; reflexivity|].
  destruct (is_finalizable c a) as [[|]|]; try (split; reflexivity). apply finalize_local_ok.
Qed.

Lemma finalizer_J f p x : (forall c a, finalizes a (fst (f c a))) -> wrote f p x -> Jp (parts p) -> Jp (fst x).
Proof.
  intros G W (S & N & A & Ho). pose proof W as (_ & E1 & E2). destruct x as [[[auxs outs] sc] r]; cbn [fst snd] in *; subst.
  repeat split; auto.
  - apply (sanity_parts_auxs _ _ _ _ S). refine (wrote_keeps in_sane f p _ _ W).
    intros c a H; destruct (G c a) as [_ I]; rewrite I; exact H.
  - refine (wrote_keeps aux_reparses f p _ _ W A).
    intros c a H; destruct (G c a) as [T _]; rewrite (aux_reparses_tapview _ _ T); exact H.
Qed.

Lemma outargs_validate_cls : forall p last l, outargs_validate p last l = true ->
  forallb (fun x => negb (snd x =? 3)) l = true.
Proof.
  intros p last; induction l as [|[i c] l IH]; intro H; cbn in *; auto.
  destruct (Z.of_N (g_nout p) - 1 <? Z.of_N i)%Z; [discriminate|].
  destruct (nth_error (p_outs p) (N.to_nat i)); [|discriminate].
  destruct (negb (needs_blinding_o o)); [discriminate|].
  destruct (c =? 1); [discriminate|]. destruct (c =? 3); [discriminate|]. cbn [negb andb].
  match type of H with (if ?b then _ else _) = _ => destruct b end; [discriminate|]. auto.
Qed.

Lemma do_blind_J p a : Jp (parts p) -> op_ok p (OBlind a) -> Jp (fst (do_blind p a)).
Proof.
  intros HJ Hok. destruct (do_blind_inv p a) as [[r ->]|(G & V & outs & B & S & ->)]; [exact HJ|].
  destruct HJ as (_ & N & A & Ho). cbv zeta in S |- *; cbn [fst]. repeat split.
  - exact S.
  - cbn in Hok. destruct (bl_last a); [reflexivity|]. destruct Hok as [Hok|Hok]; [discriminate|].
    apply nodup_n_snoc; assumption.
  - revert A; apply keeps_forallb, fold_iss_Forall2; [apply Forall2_same; intros x H; exact H|].
    intros y x b Hy _ R Hx. apply (existsb_false_In _ _ _ G) in Hy. apply orb_false_elim in Hy as [_ Hy].
    specialize (R Hx). unfold aux_reparses in *. cbn [set_a_issbad set_a_issblind a_tapss a_tapbip32 a_issbad].
    apply andb_prop in R as [R _]. rewrite R, Hy; reflexivity.
  - revert Ho; apply keeps_forallb. apply (blind_outs_Forall2 _ a _ _ _ _ _ B); [apply Forall2_same; intros x H; exact H|].
    intros x o o' Hx R Po. pose proof (proj1 (forallb_forall _ _) (outargs_validate_cls _ _ _ V) x Hx) as C.
    apply negb_true_iff in C. specialize (R Po). unfold out_reparses in *.
    cbn [set_o_badnonce set_o_bidx set_o_blinded o_assetlen o_bk o_badnonce].
    rewrite C. apply andb_prop in R as [R _]. rewrite R; reflexivity.
Qed.

(* a one-input operation whose answers are the input as it was, or a write to fields the parser does not read
   that SanityCheck follows (GetUtxo, which hands the input back as it was, is opened with the rest) *)
Ltac plain_writer :=
  let c := fresh in let a := fresh in
  intros c a; cbv beta delta [get_utxo]; crush_matches; first [apply okw_done|apply okw_plain; [reflexivity|discriminate]].

Lemma local_J p o : Jp (parts p) -> op_ok p o -> Jp (fst (local_step p o)).
Proof.
  intros HJ Hok. destruct o; try exact HJ; cbn [local_step];
    try (apply staged_input_J; [plain_writer|exact HJ]).
  - (* tap bip32: a second derivation for the same key is refused *)
    apply staged_input_J; [|exact HJ]. intros c a; cbv beta.
    destruct (existsb (fun x => tb_key x =? tb_key d) (a_tapbip32 a)) eqn:E; [apply okw_err|].
    split; [|discriminate]. cbn [fst]. intro H. unfold aux_reparses in *; cbn [set_a_tapbip32 a_tapss a_tapbip32 a_issbad].
    apply andb_prop in H as [H1 H4]; apply andb_prop in H1 as [H1 H3].
    rewrite H1, H4, andb_true_r; cbn [andb]. rewrite map_app; cbn. apply nodup_n_snoc; auto.
    rewrite <- E. clear. induction (a_tapbip32 a) as [|x l IH]; cbn; auto. rewrite IH; reflexivity.
  - apply staged_output_J; [|exact HJ]. intro o; cbv beta. destruct k as [k|]; [|split; [reflexivity|discriminate]].
    destruct (key_in k (o_bip32 o)); split; try reflexivity; discriminate.
  - apply staged_output_J; [|exact HJ]. intro o; split; [reflexivity|discriminate].
  - apply staged_output_J; [|exact HJ]. intro o; split; [reflexivity|discriminate].
  - destruct (in_index p i true) as [[[n c0] ax]|r]; [|exact HJ]. apply staged_input_J; [|exact HJ].
    intros c a. pose proof (sign_local_spec (rest_sane p n) (blocked p) sigok hashtype k rs ws c a) as S; cbv zeta in S.
    destruct (finalized a); [rewrite S; apply okw_done|exact S].
  - (* tapscript signature: the parser's checks are applied before the write *)
    apply staged_input_J; [|exact HJ]. intros c a; cbv beta.
    destruct (finalized a); [apply okw_done|]. destruct (0 <? a_tapkeysig a); [apply okw_err|].
    destruct ((ts_pklen s =? 32) && (ts_lhlen s =? 32)) eqn:E1; cbn [negb]; [|apply okw_err].
    destruct (siglen_ok (ts_siglen s)); cbn [negb]; [|apply okw_err].
    destruct (existsb (fun x => (ts_pk x =? ts_pk s) && (ts_leaf x =? ts_leaf s)) (a_tapss a)) eqn:E2;
      [apply okw_err|].
    split; [|discriminate]. cbn [fst]. intro H. unfold aux_reparses in *; cbn [set_a_tapss a_tapss a_tapbip32 a_issbad].
    apply andb_prop in H as [H1 H4]; apply andb_prop in H1 as [H1 H3]; apply andb_prop in H1 as [H1 H2].
    rewrite H3, H4, !andb_true_r. apply andb_prop in E1 as [P1 P2]. apply N.eqb_eq in P1, P2.
    rewrite forallb_app, H1; cbn. rewrite P1, P2; cbn. rewrite map_app; cbn.
    clear -H2 E2. induction (a_tapss a) as [|x l IH]; cbn in *; auto.
    apply andb_prop in H2 as [Q1 Q2]. apply orb_false_elim in E2 as [R1 R2].
    rewrite existsb_app; cbn. rewrite (N.eqb_sym (ts_pk s)), (N.eqb_sym (ts_leaf s)), R1, orb_false_r, Q1; cbn. auto.
  - apply do_blind_J; assumption.
  - exact (finalizer_J _ p _ finalize_local_ok (on_live_wrote p i finalize_local) HJ).
  - exact (finalizer_J _ p _ maybe_finalize_local_ok (on_live_wrote p i maybe_finalize_local) HJ).
  - fold (local_step p OFinalizeAll). rewrite finalize_all_eq.
    exact (finalizer_J _ p _ finalize_local_ok (staged_wrote _ _ _ (all_inputs_wrote p finalize_local)) HJ).
  - exact (finalizer_J _ p _ maybe_finalize_local_ok (all_inputs_wrote p maybe_finalize_local) HJ).
Qed.

Lemma step_J : forall p o, J p -> op_ok p o -> J (fst (step p o)).
Proof.
  intros p o [F HJ] Hok. destruct (step_cases p o) as [[f ->]|[S|E]].
  - split; [|exact HJ]. destruct f as [f|]; [apply N.ltb_lt, Hok|reflexivity].
  - destruct HJ as (Sp & N & A & Ho).
    destruct (step_structural p o S) as [r|l q _ E Sq|auxs l Q Hl _ Sq]; cbn [fst].
    + repeat split; assumption.
    + apply add_inputs_inv in E as [-> _]. repeat split; try assumption.
      cbn [parts ext_ins p_auxs]. rewrite forallb_app, A. apply forallb_repeat; reflexivity.
    + repeat split; try assumption.
      * revert A; apply keeps_forallb. revert Q; apply Forall2_mono.
        intros a b [T _] H; rewrite (aux_reparses_tapview _ _ T); exact H.
      * cbn [parts with_outs p_outs]. rewrite forallb_app, Ho; exact Hl.
  - rewrite E. pose proof (local_J p o HJ Hok) as L.
    destruct (local_step p o) as [[[auxs outs] sc] r]. split; [exact F|exact L].
Qed.

Lemma init_J : forall ins outs fb p0, init ins outs fb = IOk p0 -> J p0.
Proof.
  intros ins outs fb p0 H. apply init_inv in H as (_ & V & Vs & p & E & ->). apply add_inputs_inv in E as [-> _].
  split; [reflexivity|]. cbn. repeat split.
  - unfold sanity_parts. rewrite forallb_repeat, Vs by reflexivity. cbn [andb].
    assert (existsb o_blinded (map to_outp outs) = false) as -> by (clear; induction outs; cbn; auto). reflexivity.
  - apply forallb_repeat; reflexivity.
  - apply to_outp_reparses, V.
Qed.

Lemma good_run_J : forall ops p, J p -> good_run p ops -> J (run p ops).
Proof.
  induction ops as [|o ops IH]; intros p Hj Hg; cbn in *; auto. destruct Hg as [H1 H2]. apply IH; auto. apply step_J; auto.
Qed.

(* C11: after any operation history the packet serialises and re-parses to itself *)
Theorem reachable_roundtrips : forall ins outs fb p0 ops,
  init ins outs fb = IOk p0 -> good_run p0 ops -> rt (run p0 ops) = true.
Proof.
  intros ins outs fb p0 ops H Hg.
  destruct (counts_match ins outs fb p0 ops H) as [C1 C2].
  assert (forallb core_reparses (p_cores (run p0 ops)) = true) as Hc.
  { revert H; apply (reach_cores (fun cs => forallb core_reparses cs = true)); [reflexivity|].
    intros p a p' Va E Hc. apply add_input_inv in E as (-> & _). cbn [ext_ins p_cores]. rewrite forallb_app, Hc.
    unfold core_reparses, to_core; cbn. rewrite Va; reflexivity. }
  destruct (good_run_J ops p0 (init_J _ _ _ _ H) Hg) as (F & S & N & A & Ho).
  unfold rt, sanity. unfold flags_ok in F. rewrite S, C1, C2, !N.eqb_refl, F, N, Hc, A, Ho. reflexivity.
Qed.

(* for one operation, stated with [step]: matching [run] against the closed history of 253 additions below
   does not come back *)
Lemma step_roundtrips ins outs fb p0 o : init ins outs fb = IOk p0 -> op_ok p0 o -> rt (fst (step p0 o)) = true.
Proof. intros H Ho. exact (reachable_roundtrips ins outs fb p0 [o] H (conj Ho I)). Qed.

Lemma insert_by_idx_forallb : forall (P : N * N -> bool) x l, P x = true -> forallb P l = true -> forallb P (insert_by_idx x l) = true.
Proof.
  intros P x l Hx; induction l as [|y l IH]; intro H; cbn in *; [rewrite Hx; auto|].
  apply andb_prop in H as [H1 H2]. destruct (fst x <? fst y); cbn; rewrite ?Hx, ?H1, ?H2; auto.
Qed.
Lemma sort_by_idx_forallb : forall (P : N * N -> bool) l, forallb P l = true -> forallb P (sort_by_idx l) = true.
Proof.
  intros P l H; unfold sort_by_idx.
  assert (forall acc, forallb P acc = true -> forallb P (fold_left (fun acc x => insert_by_idx x acc) l acc) = true) as G.
  { induction l as [|x l IH]; intros acc Ha; cbn; auto. cbn in H; apply andb_prop in H as [H1 H2].
    apply IH; auto. apply insert_by_idx_forallb; auto. }
  apply G; reflexivity.
Qed.

Definition issue_plain : issue_args :=
  {| is_prec := 0; is_contract := 0; is_aamt := 1000; is_tamt := 0; is_aaddr := 1; is_taddr := 0; is_blinded := false |}.

(* A refused blinder call leaves nothing behind (Input.GetUtxo hands out a copy; fix 7d6e201): non-witness utxo
   and a utxo range proof on the owned input, surjection proof refused by the validator. *)
Definition blind_refused : blind_args :=
  {| bl_last := true; bl_owned := [0]; bl_iss := []; bl_outs := [(0, 0)]; bl_surj := false; bl_basset := true;
     bl_range := true; bl_bvalue := true; bl_gfail := 0; bl_scalar := 7 |}.

Example blinder_refused_leaves_nothing :
  exists p0, init [{| ia_cls := 0; ia_t := 0; ia_idx := 0; ia_seq := 0; ia_height := 0; ia_time := 0 |}]
                  [{| oa_cls := 0; oa_amount := 1000; oa_script := Some (SWpkh 1); oa_bk := 1; oa_bidx := 0 |}] None = IOk p0 /\
    let p := run p0 [ONwUtxo 0%Z 0; OUtxoRp 0%Z true] in step p (OBlind blind_refused) = (p, Err).
Proof. eexists; split; [vm_compute; reflexivity|vm_compute; reflexivity]. Qed.

(* AddInIssuance with the outputs locked fails and leaves nothing (Copy copies the lists; fix fd68736) *)
Example issue_with_outputs_locked :
  exists p0, init [{| ia_cls := 0; ia_t := 0; ia_idx := 0; ia_seq := 0; ia_height := 0; ia_time := 0 |}] [] None = IOk p0 /\
    step (run p0 [OSetMod (Some 1)]) (OIssue 0%Z issue_plain) = (run p0 [OSetMod (Some 1)], Err).
Proof. eexists; split; [vm_compute; reflexivity|vm_compute; reflexivity]. Qed.

(* AddInIssuance on a finalized input is refused (fix e4278d0) *)
Example issue_on_finalized_input_refused :
  exists p0, init [mk_in 0 0 0 0] [] None = IOk p0 /\
    let p := run p0 [OWUtxo 0%Z (Some {| u_script := SWpkh 0; u_conf := false |}); OSign 0%Z true 1 (Some 0) None None; OFinalize 0%Z] in
    step p (OIssue 0%Z issue_plain) = (p, Err).
Proof. eexists; split; [vm_compute; reflexivity|vm_compute; reflexivity]. Qed.

(* The blinder refuses what the parser would refuse (fix a3c85bd): a 5-byte issuance value commitment for an input
   without issuance value, a nonce commitment that is not a point. *)
Definition blind_one (iss : list (N * N)) (ocls : N) : blind_args :=
  {| bl_last := true; bl_owned := [0]; bl_iss := iss; bl_outs := [(0, ocls)]; bl_surj := true; bl_basset := true;
     bl_range := true; bl_bvalue := true; bl_gfail := 0; bl_scalar := 9 |}.
Definition one_conf_out : list outarg :=
  [{| oa_cls := 0; oa_amount := 1000; oa_script := Some (SWpkh 1); oa_bk := 1; oa_bidx := 0 |}].

Example blinder_refuses_malformed_commitments :
  exists p0, init [mk_in 0 0 0 0] one_conf_out None = IOk p0 /\
    let p := run p0 [OWUtxo 0%Z (Some {| u_script := SWpkh 0; u_conf := false |})] in
    step p (OBlind (blind_one [(0, 2)] 0)) = (p, Err) /\ step p (OBlind (blind_one [] 3)) = (p, Err)
    /\ snd (step p (OBlind (blind_one [(0, 1)] 0))) = Ok.
Proof. eexists; split; [vm_compute; reflexivity|]. vm_compute. auto. Qed.

(* A failed AddInWitnessScript leaves nothing (fix 0ac2234); New refuses a 31-byte txid (fix cc83b33); 253 inputs
   and both locktimes round-trip (fixes 1bba04e, c50dc2e). *)
Example roundtrip_regressions :
  (exists p0, init [mk_in 0 0 0 0] [] None = IOk p0 /\ step p0 (OWScript 0%Z (Some (SMs 2))) = (p0, Err))
  /\ init [{| ia_cls := 3; ia_t := 0; ia_idx := 0; ia_seq := 0; ia_height := 0; ia_time := 0 |}] [] None = IErr
  /\ (exists p0, init [] [] None = IOk p0 /\
     rt (fst (step p0 (OAddInputs (map (fun k => mk_in 0 (N.of_nat k) 0 0) (seq 0 253))))) = true)
  /\ (exists p0, init [mk_in 0 0 100 500000005; mk_in 1 0 100 0] [] None = IOk p0 /\ rt p0 = true).
Proof.
  split; [eexists; split; [vm_compute; reflexivity|vm_compute; reflexivity]|].
  split; [vm_compute; reflexivity|]. split.
  - (* the theorem covers this history: the 253 additions need not be run *)
    eexists; split; [vm_compute; reflexivity|]. apply (step_roundtrips [] [] None); [reflexivity|exact I].
  - eexists; split; [vm_compute; reflexivity|vm_compute; reflexivity].
Qed.

(* The hypotheses of the theorems are satisfiable: a packet with two inputs and an output, signed, finalized,
   with a failed operation in the middle. *)
Definition ex_ins := [mk_in 0 0 0 0; mk_in 1 0 0 0].
Definition ex_outs := [{| oa_cls := 0; oa_amount := 1000; oa_script := Some (SWpkh 1); oa_bk := 0; oa_bidx := 0 |}].
Definition ex_ops :=
  [OWUtxo 0%Z (Some {| u_script := SWpkh 0; u_conf := false |}); OAddInputs [mk_in 0 0 0 0] (* duplicate: fails *);
   OSign 0%Z true 1 (Some 0) None None; OFinalize 0%Z; OAddInputs [mk_in 2 1 0 0]].

Example ex_init_ok : exists p0, init ex_ins ex_outs (Some 77) = IOk p0 /\ g_nin (run p0 ex_ops) = 3
  /\ ia_cls (mk_in 0 0 0 0) = 0 /\ locktime (run p0 ex_ops) = 77.
Proof. eexists; split; [vm_compute; reflexivity|]. split; [vm_compute; reflexivity|]. split; vm_compute; reflexivity. Qed.

Example ex_finalized : exists p0 a, init ex_ins ex_outs None = IOk p0 /\
  nth_error (p_auxs (run p0 ex_ops)) 0 = Some a /\ finalized a = true /\ frozen_scope OFinalizeAll = true.
Proof. do 2 eexists; split; [vm_compute; reflexivity|]. split; [vm_compute; reflexivity|]. split; reflexivity. Qed.

Example ex_failed_add : exists p0, init ex_ins ex_outs None = IOk p0 /\
  snd (step p0 (OAddInputs [mk_in 0 0 0 0])) = Err /\ sanity (fst (step p0 (OAddInputs [mk_in 0 0 0 0]))) = true
  /\ inputs_modifiable (fst (step p0 (OSetMod (Some 2)))) = false.
Proof. eexists; split; [vm_compute; reflexivity|]. split; [vm_compute; reflexivity|]. split; vm_compute; reflexivity. Qed.

(* a signed input without required locktime: an input with a height lock is refused after it, one without is taken *)
Example signed_then_height_lock_refused :
  exists p0, init [mk_in 0 0 0 0] [] None = IOk p0 /\
    let p := run p0 [OWUtxo 0%Z (Some {| u_script := SWpkh 0; u_conf := false |}); OSign 0%Z true 1 (Some 0) None None] in
    signed p = true /\ step p (OAddInputs [mk_in 1 0 120 0]) = (p, Err) /\ snd (step p (OAddInputs [mk_in 1 0 0 0])) = Ok.
Proof. eexists; split; [vm_compute; reflexivity|]. vm_compute. auto. Qed.
