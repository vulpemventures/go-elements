(* Proofs/Scalar.v — the blinding-scalar helpers compute exact arithmetic modulo n (C17).
   Each helper is first shown to be a pure function of the contents of its arguments that
   returns fresh memory and leaves the write log alone; the pure functions are then put in
   arithmetic normal form over arbitrary byte strings, from which the totality and the
   refusal theorems are read off. *)
From GE Require Import Lib.Bytes Model.Scalar.
From Coq Require Import ZifyBool ZifyN ZifyNat.
Open Scope Z_scope.

Definition two256 : Z := 2 ^ 256.

Lemma pow256_32 : (256 ^ N.of_nat 32)%N = Z.to_N two256.
Proof. vm_compute. reflexivity. Qed.

Lemma secp_n_lt : secp_n < two256.
Proof. vm_compute. reflexivity. Qed.
Lemma secp_n_pos : 0 < secp_n.
Proof. vm_compute. reflexivity. Qed.

Lemma enc32_length z : length (enc32 z) = 32%nat.
Proof. apply be_enc_length. Qed.

Lemma sc_enc32 z : 0 <= z < two256 -> sc (enc32 z) = z.
Proof.
  intro H. unfold sc, enc32. rewrite be_dec_enc.
  - apply Z2N.id. lia.
  - rewrite pow256_32. apply Z2N.inj_lt; lia.
Qed.

Lemma sc_nonneg b : 0 <= sc b.
Proof. unfold sc. lia. Qed.

Lemma enc32_sc b : length b = 32%nat -> enc32 (sc b) = b.
Proof.
  intro H. unfold enc32, sc. rewrite N2Z.id. rewrite <- H. apply be_enc_dec.
Qed.

Lemma sc_lt_two256 b : length b = 32%nat -> sc b < two256.
Proof.
  intro H. unfold sc, be_dec. pose proof (le_dec_bound (rev b)) as B.
  rewrite rev_length, H, pow256_32 in B.
  apply N2Z.inj_lt in B. rewrite Z2N.id in B by (vm_compute; discriminate). exact B.
Qed.

Lemma zero32_enc : zero32 = enc32 0.
Proof. vm_compute. reflexivity. Qed.

Lemma len32_spec b : reflect (length b = 32%nat) (len32 b).
Proof. apply Nat.eqb_spec. Qed.
Lemma bytes_eqb_spec x y : reflect (x = y) (bytes_eqb x y).
Proof. apply iff_reflect. symmetry. apply bytes_eqb_eq. Qed.
Lemma bytes_eqb_sym a b : bytes_eqb a b = bytes_eqb b a.
Proof. destruct (bytes_eqb_spec a b), (bytes_eqb_spec b a); congruence. Qed.

(* on 32-byte strings comparing bytes is comparing values *)
Lemma bytes_eqb_sc x y : length x = 32%nat -> length y = 32%nat -> bytes_eqb x y = (sc x =? sc y).
Proof.
  intros Lx Ly. destruct (Z.eqb_spec (sc x) (sc y)) as [E|NE].
  - rewrite <- (enc32_sc x Lx), <- (enc32_sc y Ly), E. apply bytes_eqb_refl.
  - destruct (bytes_eqb_spec x y) as [->|_]; [contradiction | reflexivity].
Qed.

(* the 32-byte big-endian form of a 64-bit amount *)
Lemma rev_repeat {A} (x : A) k : rev (repeat x k) = repeat x k.
Proof.
  induction k as [|k IH]; [reflexivity|]. cbn [repeat rev]. rewrite IH. symmetry. apply repeat_cons.
Qed.

Lemma val32_length v : length (val32 v) = 32%nat.
Proof. unfold val32. rewrite app_length, repeat_length, be_enc_length. reflexivity. Qed.

Lemma sc_val32 v : (v < 2 ^ 64)%N -> sc (val32 v) = Z.of_N v.
Proof.
  intro H. unfold sc, val32, be_dec. rewrite rev_app_distr, rev_repeat, le_dec_app, le_dec_zeros.
  unfold be_enc. rewrite rev_involutive, le_dec_enc by exact H. f_equal. lia.
Qed.

(* reduction modulo the group order; [redn] is what libsecp does to a key, [modn] the
   arithmetic of the property *)
Definition redn (z : Z) : Z := z mod secp_n.
Definition modn (z : Z) : Z := z mod secp_n.

Lemma secp_n_nz : secp_n <> 0.
Proof. discriminate. Qed.
Lemma modn_range z : 0 <= modn z < secp_n.
Proof. apply Z.mod_pos_bound, secp_n_pos. Qed.
Lemma modn_small z : 0 <= z < secp_n -> modn z = z.
Proof. apply Z.mod_small. Qed.
Lemma modn_add_l a b : modn (modn a + b) = modn (a + b).
Proof. apply Z.add_mod_idemp_l, secp_n_nz. Qed.
Lemma modn_add_r a b : modn (a + modn b) = modn (a + b).
Proof. apply Z.add_mod_idemp_r, secp_n_nz. Qed.
Lemma modn_mul_l a b : modn (modn a * b) = modn (a * b).
Proof. apply Z.mul_mod_idemp_l, secp_n_nz. Qed.
Lemma modn_sub_r a b : modn (a - modn b) = modn (a - b).
Proof. apply Zminus_mod_idemp_r. Qed.
Lemma modn_opp a : modn (- modn a) = modn (- a).
Proof. apply (modn_sub_r 0 a). Qed.

Lemma redn_mul_l a b : redn (redn a * b) = redn (a * b).
Proof. apply modn_mul_l. Qed.
Lemma redn_sub_r a b : redn (a - redn b) = redn (a - b).
Proof. apply modn_sub_r. Qed.

(* a reduced x is the negation of y exactly when x + y vanishes *)
Lemma modn_neg_test x y : 0 <= x < secp_n -> (x =? modn (- y)) = (modn (x + y) =? 0).
Proof.
  intro Hx. destruct (Z.eqb_spec (modn (x + y)) 0) as [E|NE].
  - apply Z.eqb_eq. rewrite <- (modn_small x Hx). replace x with (x + y + - y) at 1 by ring.
    rewrite <- modn_add_l, E. reflexivity.
  - apply Z.eqb_neq. intro E. apply NE. rewrite E, modn_add_l. replace (- y + y) with 0 by ring. reflexivity.
Qed.

Lemma modn_sub_zero a b : 0 <= a < secp_n -> 0 <= b < secp_n -> modn (a - b) = 0 -> a = b.
Proof.
  intros Ha Hb E. rewrite <- (modn_small a Ha), <- (modn_small b Hb).
  replace a with (a - b + b) by ring. rewrite <- modn_add_l, E. reflexivity.
Qed.

Lemma sc_enc_modn z : sc (enc32 (modn z)) = modn z.
Proof. apply sc_enc32. pose proof (modn_range z). pose proof secp_n_lt. lia. Qed.

(* the three libsecp calls on well-sized operands *)
Lemma ec_negate_32 k : length k = 32%nat -> ec_negate k = (true, enc32 (modn (- sc k))).
Proof.
  intro H. unfold ec_negate. destruct (len32_spec k); [|contradiction].
  fold (modn (sc k)). fold (modn (- modn (sc k))). rewrite modn_opp. reflexivity.
Qed.

Lemma ec_negate_not32 k : length k <> 32%nat -> fst (ec_negate k) = false.
Proof. intro H. unfold ec_negate. destruct (len32_spec k); [contradiction | reflexivity]. Qed.

Lemma ec_tweak_mul_amount k v : length k = 32%nat -> (0 < v < 2 ^ 64)%N ->
  ec_tweak_mul k (val32 v) = (true, enc32 (modn (sc k * Z.of_N v))).
Proof.
  intros Hk Hv. unfold ec_tweak_mul.
  destruct (len32_spec (val32 v)) as [_|C]; [|destruct C; apply val32_length].
  destruct (len32_spec k); [|contradiction]. rewrite sc_val32 by lia. cbn [negb].
  assert (B : 0 < Z.of_N v < secp_n).
  { assert (Z.of_N v < 2 ^ 64) by lia. assert (2 ^ 64 < secp_n) by reflexivity. lia. }
  destruct (Z.leb_spec secp_n (Z.of_N v)) as [C|_]; [lia|].
  destruct (Z.eqb_spec (Z.of_N v) 0) as [C|_]; [lia|].
  fold (modn (sc k)). fold (modn (modn (sc k) * Z.of_N v)). rewrite modn_mul_l. reflexivity.
Qed.

Lemma ec_tweak_mul_not32 k t : length k <> 32%nat -> fst (ec_tweak_mul k t) = false.
Proof. intro H. unfold ec_tweak_mul. destruct (len32 t), (len32_spec k); try contradiction; reflexivity. Qed.

Lemma ec_tweak_add_32 k t : length k = 32%nat -> length t = 32%nat ->
  ec_tweak_add k t =
  if (secp_n <=? sc t) || (modn (sc k + sc t) =? 0) then (false, zero32) else (true, enc32 (modn (sc k + sc t))).
Proof.
  intros Hk Ht. unfold ec_tweak_add. destruct (len32_spec k), (len32_spec t); try contradiction. cbn [negb].
  fold (modn (sc k)). fold (modn (modn (sc k) + sc t)). rewrite modn_add_l.
  destruct (secp_n <=? sc t); [reflexivity|]. destruct (modn (sc k + sc t) =? 0); reflexivity.
Qed.

Lemma ec_tweak_add_not32 k t : length k <> 32%nat -> fst (ec_tweak_add k t) = false.
Proof. intro H. unfold ec_tweak_add. destruct (len32 t), (len32_spec k); try contradiction; reflexivity. Qed.

(* domain of the property *)
Definition okscalar (o : option bytes) : Prop :=
  match o with None => True | Some b => length b = 32%nat /\ sc b < secp_n end.
Definition sval (o : option bytes) : Z := match o with None => 0 | Some b => sc b end.

Lemma okscalar_enc z : okscalar (Some (enc32 (modn z))).
Proof. split; [apply enc32_length|]. rewrite sc_enc_modn. apply modn_range. Qed.

Lemma enc_total z : exists r, SOOk (Some (enc32 (modn z))) = SOOk r /\ okscalar r /\ sval r = modn z.
Proof. eexists. split; [reflexivity|]. split; [apply okscalar_enc | apply sc_enc_modn]. Qed.

Lemma sval_small o : okscalar o -> 0 <= sval o < secp_n.
Proof. destruct o as [b|]; cbn [okscalar sval]; [intros [_ B]; pose proof (sc_nonneg b); lia | pose proof secp_n_pos; lia]. Qed.

Lemma same_total o : okscalar o -> exists r, SOOk o = SOOk r /\ okscalar r /\ sval r = modn (sval o).
Proof. intro H. exists o. rewrite modn_small by (apply sval_small, H). repeat split. exact H. Qed.

Definition dat (o : option sbuf) : option bytes := option_map sb_dat o.
(* a result in memory the callee allocated *)
Definition lift (r : soutcome) : sres :=
  match r with SOOk o => SOk (option_map (mk_sbuf SLocal) o) | SOErr => SErr end.
Definition andthen (r : bool * bytes) (k : bytes -> soutcome) : soutcome :=
  if fst r then k (snd r) else SOErr.

(* x + y by EcPrivKeyTweakAdd, which refuses a zero sum: the sum is compared with zero first,
   through the negation of y *)
Definition gadd (x y : bytes) : soutcome :=
  andthen (ec_negate y) (fun ny =>
  if bytes_eqb x ny then SOOk (Some zero32)
  else andthen (ec_tweak_add x y) (fun r => SOOk (Some r))).

Definition calc_pure (v : N) (a b : option bytes) : soutcome :=
  match a with
  | None => SOOk b
  | Some x =>
      if (0 <? v)%N then
        andthen (ec_tweak_mul x (val32 v)) (fun r =>
        match b with None => SOOk (Some r) | Some y => gadd r y end)
      else SOOk b
  end.

(* what ComputeAndAddToScalarOffset does with the offset *)
Definition add_tail (s : option bytes) (off : soutcome) : soutcome :=
  match off with
  | SOErr => SOErr
  | SOOk None => SOOk s
  | SOOk (Some o) => match s with None => SOOk (Some o) | Some x => gadd x o end
  end.

Lemma sinplace_local f d w :
  sinplace f (Some (mk_sbuf SLocal d)) w = (fst (f d), Some (mk_sbuf SLocal (snd (f d))), w).
Proof. reflexivity. Qed.

Lemma dat_scopy o : dat (scopy o) = dat o.
Proof. destruct o as [[? ?]|]; reflexivity. Qed.
Lemma lift_dat_scopy o : lift (SOOk (dat o)) = SOk (scopy o).
Proof. destruct o as [[? ?]|]; reflexivity. Qed.

(* the guarded addition on two local buffers, as it occurs in CalculateScalarOffset (the
   comparison written negation first) and in ComputeAndAddToScalarOffset *)
Lemma gadd_w (swap : bool) x y w :
  (let '(ok, ny, w) := sinplace ec_negate (Some (mk_sbuf SLocal y)) w in
   if negb ok then (SErr, w) else
   if (if swap then sbuf_eqb ny (Some (mk_sbuf SLocal x)) else sbuf_eqb (Some (mk_sbuf SLocal x)) ny)
   then (SOk (Some (mk_sbuf SLocal zero32)), w) else
   let '(ok, r, w) := sinplace (fun k => ec_tweak_add k y) (Some (mk_sbuf SLocal x)) w in
   if negb ok then (SErr, w) else (SOk r, w)) = (lift (gadd x y), w).
Proof.
  rewrite !sinplace_local. unfold gadd, andthen, sbuf_eqb. cbn [sdat sb_dat].
  destruct (ec_negate y) as [[|] ny]; cbn [fst snd negb]; [|reflexivity].
  assert (Q : (if swap then bytes_eqb ny x else bytes_eqb x ny) = bytes_eqb x ny)
    by (destruct swap; [apply bytes_eqb_sym | reflexivity]).
  rewrite Q.
  destruct (bytes_eqb x ny); [reflexivity|].
  destruct (ec_tweak_add x y) as [[|] r]; reflexivity.
Qed.

Lemma calc_w_pure v A B w : calc_offset_w v A B w = (lift (calc_pure v (dat A) (dat B)), w).
Proof.
  unfold calc_offset_w, calc_pure.
  destruct A as [[oa a]|]; cbn [scopy dat option_map sb_dat]; [|rewrite lift_dat_scopy; reflexivity].
  destruct (0 <? v)%N; [|rewrite lift_dat_scopy; reflexivity].
  rewrite sinplace_local. unfold andthen at 1.
  destruct (ec_tweak_mul a (val32 v)) as [[|] r]; cbn [fst snd negb]; [|reflexivity].
  destruct B as [[ob b]|]; cbn [scopy dat option_map sb_dat sdat]; [|reflexivity].
  apply (gadd_w true).
Qed.

Lemma add_w_pure S v A B w :
  add_offset_w S v A B w = (lift (add_tail (dat S) (calc_pure v (dat A) (dat B))), w).
Proof.
  unfold add_offset_w. cbv zeta. rewrite calc_w_pure, !dat_scopy.
  (* the general branch occurs three times; at absent blinders the offset is absent *)
  destruct (calc_pure v (dat A) (dat B)) as [[o|]|] eqn:E; cbn [add_tail].
  - destruct S as [[os x]|], A as [[oa a]|], B as [[ob b]|]; try discriminate E;
      cbn [scopy lift option_map sdat sb_dat dat]; try reflexivity; apply (gadd_w false).
  - rewrite lift_dat_scopy. destruct A as [[oa a]|], B as [[ob b]|]; reflexivity.
  - destruct A as [[oa a]|], B as [[ob b]|]; try discriminate E; reflexivity.
Qed.

(* SubtractScalars on arbitrary byte strings *)
Definition sub_general (a b : option bytes) : soutcome :=
  match b with
  | None => SOOk a
  | Some y =>
      match a with
      | Some x =>
          if bytes_eqb x y then SOOk (Some zero32)
          else if len32 y then
            if len32 x then
              if modn (sc x - sc y) =? 0 then SOErr else SOOk (Some (enc32 (modn (sc x - sc y))))
            else SOErr
          else SOErr
      | None => if len32 y then SOOk (Some (enc32 (modn (- sc y)))) else SOErr
      end
  end.

Lemma sub_w_general A B w : sub_scalars_w A B w = (lift (sub_general (dat A) (dat B)), w).
Proof.
  unfold sub_scalars_w, sub_general.
  destruct B as [[ob y]|]; cbn [scopy dat option_map sb_dat]; [|rewrite lift_dat_scopy; reflexivity].
  destruct A as [[oa x]|]; cbn [scopy dat option_map sb_dat andb]; rewrite sinplace_local.
  - unfold sbuf_eqb. cbn [sdat sb_dat]. destruct (bytes_eqb x y); [reflexivity|].
    destruct (len32_spec y) as [Ly|Ly].
    2:{ rewrite ec_negate_not32 by exact Ly. reflexivity. }
    rewrite ec_negate_32 by exact Ly. cbn [fst snd negb]. rewrite sinplace_local. cbn [sdat sb_dat].
    destruct (len32_spec x) as [Lx|Lx].
    2:{ rewrite ec_tweak_add_not32 by exact Lx. reflexivity. }
    rewrite ec_tweak_add_32, sc_enc_modn, modn_add_r, Z.add_opp_r by (try apply enc32_length; assumption).
    destruct (Z.leb_spec secp_n (modn (- sc y))) as [C|_]; [pose proof (modn_range (- sc y)); lia|].
    cbn [orb]. destruct (modn (sc x - sc y) =? 0); reflexivity.
  - destruct (len32_spec y) as [Ly|Ly]; [rewrite ec_negate_32 by exact Ly | rewrite ec_negate_not32 by exact Ly]; reflexivity.
Qed.

Lemma dat_sarg i o : dat (sarg i o) = o.
Proof. destruct o; reflexivity. Qed.
Lemma sout_lift r : sout_of (lift r) = r.
Proof. destruct r as [[b|]|]; reflexivity. Qed.

Lemma calc_offset_pure v ab vb : calc_offset v ab vb = calc_pure v ab vb.
Proof. unfold calc_offset, go_calc_offset. rewrite calc_w_pure, !dat_sarg. apply sout_lift. Qed.
Lemma sub_scalars_general a b : sub_scalars a b = sub_general a b.
Proof. unfold sub_scalars, go_sub_scalars. rewrite sub_w_general, !dat_sarg. apply sout_lift. Qed.
Lemma add_offset_pure s v ab vb : add_offset s v ab vb = add_tail s (calc_offset v ab vb).
Proof. unfold add_offset, go_add_offset. rewrite add_w_pure, !dat_sarg, calc_offset_pure. apply sout_lift. Qed.

(* the arguments are never written: every input, every length, no hypothesis *)
Theorem scalar_helpers_leave_arguments_alone :
  (forall v ab vb, snd (go_calc_offset v ab vb) = []) /\
  (forall a b, snd (go_sub_scalars a b) = []) /\
  (forall s v ab vb, snd (go_add_offset s v ab vb) = []).
Proof.
  repeat split; intros; [apply (f_equal snd (calc_w_pure _ _ _ _)) | apply (f_equal snd (sub_w_general _ _ _)) | apply (f_equal snd (add_w_pure _ _ _ _ _))].
Qed.

Lemma sarg_after_nil i before : sarg_after i before [] = before.
Proof. reflexivity. Qed.

Corollary scalar_args_after s v ab vb i before :
  sarg_after i before (snd (go_calc_offset v ab vb)) = before /\
  sarg_after i before (snd (go_sub_scalars ab vb)) = before /\
  sarg_after i before (snd (go_add_offset s v ab vb)) = before.
Proof.
  destruct scalar_helpers_leave_arguments_alone as (A & B & C). rewrite A, B, C. repeat split.
Qed.

Lemma gadd_spec x y : length x = 32%nat -> sc x < secp_n -> length y = 32%nat ->
  gadd x y =
  if modn (sc x + sc y) =? 0 then SOOk (Some zero32)
  else if secp_n <=? sc y then SOErr else SOOk (Some (enc32 (modn (sc x + sc y)))).
Proof.
  intros Lx Bx Ly. unfold gadd. rewrite ec_negate_32 by exact Ly. unfold andthen at 1. cbn [fst snd].
  rewrite bytes_eqb_sc, sc_enc_modn, modn_neg_test by (try apply enc32_length; try assumption; pose proof (sc_nonneg x); lia).
  destruct (modn (sc x + sc y) =? 0) eqn:E; [reflexivity|].
  rewrite ec_tweak_add_32, E, Bool.orb_false_r by assumption. destruct (secp_n <=? sc y); reflexivity.
Qed.

Lemma gadd_not32 x y : length y <> 32%nat -> gadd x y = SOErr.
Proof. intro L. unfold gadd, andthen. rewrite ec_negate_not32 by exact L. reflexivity. Qed.

(* a sum that wraps to zero is returned as 32 zero bytes either way *)
Lemma zero_or_enc z :
  (if modn z =? 0 then SOOk (Some zero32) else SOOk (Some (enc32 (modn z)))) = SOOk (Some (enc32 (modn z))).
Proof. destruct (Z.eqb_spec (modn z) 0) as [E|_]; [rewrite E, zero32_enc|]; reflexivity. Qed.

(* CalculateScalarOffset on arbitrary byte strings (64-bit amount) *)
Definition calc_general (v : N) (a b : option bytes) : soutcome :=
  match a with
  | None => SOOk b
  | Some x =>
      if (0 <? v)%N then
        if len32 x then
          match b with
          | None => SOOk (Some (enc32 (modn (sc x * Z.of_N v))))
          | Some y =>
              if len32 y then
                if modn (sc x * Z.of_N v + sc y) =? 0 then SOOk (Some zero32)
                else if secp_n <=? sc y then SOErr else SOOk (Some (enc32 (modn (sc x * Z.of_N v + sc y))))
              else SOErr
          end
        else SOErr
      else SOOk b
  end.

Lemma calc_offset_general v ab vb : (v < 2 ^ 64)%N -> calc_offset v ab vb = calc_general v ab vb.
Proof.
  intro Hv. rewrite calc_offset_pure. unfold calc_pure, calc_general.
  destruct ab as [x|]; [|reflexivity]. destruct (N.ltb_spec 0 v) as [Hpos|_]; [|reflexivity].
  unfold andthen. destruct (len32_spec x) as [Lx|Lx].
  2:{ rewrite ec_tweak_mul_not32 by exact Lx. reflexivity. }
  rewrite ec_tweak_mul_amount by (try assumption; lia). cbn [fst snd].
  destruct vb as [y|]; [|reflexivity]. destruct (len32_spec y) as [Ly|Ly]; [|apply gadd_not32; exact Ly].
  rewrite gadd_spec, sc_enc_modn, modn_add_l by (try apply enc32_length; try assumption; rewrite sc_enc_modn; apply modn_range).
  reflexivity.
Qed.

Theorem calc_offset_total v ab vb : (v < 2 ^ 64)%N -> okscalar ab -> okscalar vb ->
  exists r, calc_offset v ab vb = SOOk r /\ okscalar r /\ sval r = modn (Z.of_N v * sval ab + sval vb).
Proof.
  intros Hv Ha Hb. rewrite calc_offset_general by exact Hv. unfold calc_general.
  destruct ab as [x|]; cbn [sval]; [|rewrite Z.mul_0_r; exact (same_total vb Hb)].
  destruct (N.ltb_spec 0 v) as [P|Z0].
  2:{ replace (Z.of_N v) with 0 by lia. exact (same_total vb Hb). }
  destruct Ha as [Lx _]. destruct (len32_spec x); [|contradiction]. rewrite (Z.mul_comm (Z.of_N v)).
  destruct vb as [y|]; cbn [sval].
  - destruct Hb as [Ly By]. destruct (len32_spec y); [|contradiction].
    destruct (Z.leb_spec secp_n (sc y)) as [C|_]; [lia|]. rewrite zero_or_enc.
    apply enc_total.
  - rewrite Z.add_0_r. apply enc_total.
Qed.

Theorem sub_scalars_total a b : okscalar a -> okscalar b ->
  exists r, sub_scalars a b = SOOk r /\ okscalar r /\ sval r = modn (sval a - sval b).
Proof.
  intros Ha Hb. rewrite sub_scalars_general. unfold sub_general.
  destruct b as [y|]; cbn [sval]; [|rewrite Z.sub_0_r; exact (same_total a Ha)].
  destruct Hb as [Ly By]. pose proof (sc_nonneg y) as Py. destruct (len32_spec y); [|contradiction].
  destruct a as [x|]; cbn [sval]; [|apply enc_total].
  destruct Ha as [Lx Bx]. destruct (len32_spec x); [|contradiction].
  rewrite (bytes_eqb_sc x y Lx Ly). destruct (Z.eqb_spec (sc x) (sc y)) as [Exy|NE].
  - rewrite Exy, Z.sub_diag, zero32_enc. apply (enc_total 0).
  - destruct (Z.eqb_spec (modn (sc x - sc y)) 0) as [Z0|_]; [|apply enc_total].
    destruct NE. pose proof (sc_nonneg x). apply modn_sub_zero; [lia | lia | exact Z0].
Qed.

Theorem add_offset_total s v ab vb : (v < 2 ^ 64)%N -> okscalar s -> okscalar ab -> okscalar vb ->
  exists r, add_offset s v ab vb = SOOk r /\ okscalar r /\
            sval r = modn (sval s + Z.of_N v * sval ab + sval vb).
Proof.
  intros Hv Hs Ha Hb. rewrite add_offset_pure.
  destruct (calc_offset_total v ab vb Hv Ha Hb) as (off & -> & Oo & Vo).
  rewrite <- Z.add_assoc, <- modn_add_r, <- Vo.
  destruct off as [o|]; cbn [add_tail sval]; [|rewrite Z.add_0_r; exact (same_total s Hs)].
  destruct s as [x|]; cbn [sval]; [|exact (same_total (Some o) Oo)].
  destruct Hs as [Lx Bx], Oo as [Lo Bo]. rewrite gadd_spec by assumption.
  destruct (Z.leb_spec secp_n (sc o)) as [C|_]; [lia|]. rewrite zero_or_enc.
  apply enc_total.
Qed.

Corollary calc_offset_spec v ab vb r : (v < 2 ^ 64)%N -> okscalar ab -> okscalar vb ->
  calc_offset v ab vb = SOOk r -> okscalar r /\ sval r = modn (Z.of_N v * sval ab + sval vb).
Proof.
  intros Hv Ha Hb E. destruct (calc_offset_total v ab vb Hv Ha Hb) as (r' & E' & H). congruence.
Qed.

Lemma ex_some {A} (x : A) (P : A -> Prop) : (exists y, Some x = Some y /\ P y) <-> P x.
Proof. split; [intros (y & [= <-] & H); exact H | intro H; exists x; split; [reflexivity | exact H]]. Qed.

(* exactly the inputs SubtractScalars refuses, over all byte strings: a wrong length that the
   equal-operands branch does not catch, or different byte strings that are congruent modulo n
   (which requires an operand >= n) *)
Theorem sub_scalars_error_iff_general a b :
  sub_scalars a b = SOErr <->
  exists y, b = Some y /\
    match a with
    | None => length y <> 32%nat
    | Some x => x <> y /\ (length y <> 32%nat \/ length x <> 32%nat \/ modn (sc x - sc y) = 0)
    end.
Proof.
  rewrite sub_scalars_general. unfold sub_general.
  destruct b as [y|].
  2:{ split; [discriminate | intros (y & E & _); discriminate E]. }
  rewrite ex_some. destruct a as [x|].
  - destruct (bytes_eqb_spec x y); [intuition congruence|].
    destruct (len32_spec y); [|intuition congruence].
    destruct (len32_spec x); [|intuition congruence].
    destruct (Z.eqb_spec (modn (sc x - sc y)) 0); intuition congruence.
  - destruct (len32_spec y); intuition congruence.
Qed.

(* exactly the inputs CalculateScalarOffset refuses, over all byte strings: a non-zero amount with
   an asset blinder of the wrong length, a value blinder of the wrong length, or a value blinder
   >= n (libsecp refuses the tweak) unless the sum is zero *)
Theorem calc_offset_error_iff_general v ab vb : (v < 2 ^ 64)%N ->
  (calc_offset v ab vb = SOErr <->
   exists x, ab = Some x /\ (0 < v)%N /\
     (length x <> 32%nat \/
      exists y, vb = Some y /\
        (length y <> 32%nat \/ (secp_n <= sc y /\ modn (sc x * Z.of_N v + sc y) <> 0)))).
Proof.
  intro Hv. rewrite calc_offset_general by exact Hv. unfold calc_general.
  destruct ab as [x|].
  2:{ split; [discriminate | intros (x & E & _); discriminate E]. }
  rewrite ex_some. destruct (N.ltb_spec 0 v); [|intuition (congruence || lia)].
  destruct (len32_spec x); [|intuition congruence].
  destruct vb as [y|].
  2:{ split; [discriminate | intros (_ & [L | (y & E & _)]); [contradiction | discriminate E]]. }
  rewrite ex_some. destruct (len32_spec y); [|intuition congruence].
  destruct (Z.eqb_spec (modn (sc x * Z.of_N v + sc y)) 0); [intuition congruence|].
  destruct (Z.leb_spec secp_n (sc y)); intuition (congruence || lia).
Qed.

Definition one32 : bytes := enc32 1.

(* absent operands and results that wrap to zero, evaluated inside the kernel *)
Definition nm1 : bytes := enc32 (secp_n - 1).
Example calc_wraps_to_zero : calc_offset 1 (Some one32) (Some nm1) = SOOk (Some zero32).
Proof. vm_compute. reflexivity. Qed.
Example add_wraps_to_zero : add_offset (Some nm1) 0 None (Some one32) = SOOk (Some zero32).
Proof. vm_compute. reflexivity. Qed.
Example sub_wraps_around : sub_scalars (Some zero32) (Some one32) = SOOk (Some nm1).
Proof. vm_compute. reflexivity. Qed.
Example sub_equal_operands : sub_scalars (Some nm1) (Some nm1) = SOOk (Some zero32).
Proof. vm_compute. reflexivity. Qed.
Example calc_absent_value_blinder : calc_offset 2 (Some one32) None = SOOk (Some (enc32 2)).
Proof. vm_compute. reflexivity. Qed.
Example add_absent_value_blinder_zero_amount : add_offset (Some one32) 0 (Some one32) None = SOOk (Some one32).
Proof. vm_compute. reflexivity. Qed.
(* refused, outside the domain: n and 0 are different byte strings congruent modulo n *)
Example sub_refuses_unreduced_equal : sub_scalars (Some (enc32 secp_n)) (Some zero32) = SOErr.
Proof. vm_compute. reflexivity. Qed.
Example hyps_satisfiable : okscalar (Some nm1) /\ okscalar None /\ okscalar (Some zero32).
Proof.
  split; [exact (okscalar_enc (secp_n - 1))|]. split; [exact I|]. rewrite zero32_enc. exact (okscalar_enc 0).
Qed.
