(* Proofs/SigValidate.v — C10: what a "valid" verdict of the partial-signature validator
   (Model/SigValidate.v; fixes a910e27, 9415d49, 1acccfe, 2d9b577) guarantees.  The validator is
   read off as hash_and_script_inv (which output, which script, what is hashed) and compared with
   a specification written from the output actually spent (digest_of_spent); the two agree except
   on a malformed OP_0 program (wf_program), which real key sizes exclude (checked_wf).  Then:
   rejection of signatures made for another digest (Sections Ideal, Fields), absence of panics
   on parser-shaped packets, and a toy instance with the packets that show each hypothesis
   satisfiable or necessary. *)
From GE Require Import Lib.Bytes Lib.Varint Lib.Sha256 Model.Tx Model.TxHash Model.SigValidate.
From Coq Require Import ZifyBool ZifyN ZifyNat.
Open Scope N_scope.

Lemma vbind_ok {A B} (x : vres A) (f : A -> vres B) b :
  vbind x f = VOk b -> exists a, x = VOk a /\ f a = VOk b.
Proof. destruct x as [a| |s]; cbn; intro H; try discriminate. exists a. split; [reflexivity|exact H]. Qed.

Lemma vbind_panic {A B} (x : vres A) (f : A -> vres B) s :
  vbind x f = VPanic s -> x = VPanic s \/ exists a, x = VOk a /\ f a = VPanic s.
Proof. destruct x as [a| |s']; cbn; intro H; [right; exists a; auto|discriminate|left; congruence]. Qed.

(* One step of ScriptTokenizer.Next on b :: r: the first token takes the opcode byte b and the
   bytes mid, the rest r2 of the script gives the other tokens.  A data push is the end of mid,
   after a length field hdr that is empty exactly for the opcodes 1..75. *)
Definition token_step (f : nat) (b : byte) (r : bytes) (ts : list (N * option bytes)) : Prop :=
  exists od mid r2 ts', ts = (n8 b, od) :: ts' /\ r = mid ++ r2 /\ vs_tokenize f r2 = Some ts' /\
    match od with
    | None => mid = []
    | Some d => exists hdr, mid = hdr ++ d /\
        (hdr = [] /\ n8 b = lenN d /\ 1 <= n8 b <= 75 \/ hdr <> [] /\ 76 <= n8 b <= 78)
    end.

(* OP_PUSHDATA1/2/4: a length field of lenlen bytes, then the data *)
Lemma pushdata_inv f lenlen b r ts : lenlen <> 0%nat -> 76 <= n8 b <= 78 ->
  match p_le lenlen r with
  | None => None
  | Some (n, r1) =>
      if 0x80000000 <=? n then None
      else match takeN n r1 with
           | None => None
           | Some (d, r2) => match vs_tokenize f r2 with Some ts => Some ((n8 b, Some d) :: ts) | None => None end
           end
  end = Some ts -> token_step f b r ts.
Proof.
  intros Hll Hb. destruct (p_le lenlen r) as [[n r1]|] eqn:Ep; [|discriminate].
  destruct (0x80000000 <=? n); [discriminate|].
  destruct (takeN n r1) as [[d r2]|] eqn:Et; [|discriminate].
  destruct (vs_tokenize f r2) as [ts'|] eqn:Er; [|discriminate].
  intro H; injection H as <-.
  apply p_le_inv in Ep as [-> _]. apply takeN_inv in Et as [-> _].
  exists (Some d), (le_enc lenlen n ++ d), r2, ts'. rewrite <- app_assoc. repeat split; auto.
  exists (le_enc lenlen n). split; [reflexivity|]. right. split; [|exact Hb].
  intro E. apply (f_equal (@length byte)) in E. rewrite le_enc_length in E. exact (Hll E).
Qed.

Lemma tokenize_cons_inv f b r ts : vs_tokenize (S f) (b :: r) = Some ts -> token_step f b r ts.
Proof.
  intro H. cbn [vs_tokenize] in H. cbv zeta in H.
  destruct ((1 <=? n8 b) && (n8 b <=? 75)) eqn:E1.
  - destruct (takeN (n8 b) r) as [[d r2]|] eqn:Et; [|discriminate].
    destruct (vs_tokenize f r2) as [ts'|] eqn:Er; [|discriminate]. injection H as <-.
    apply takeN_inv in Et as [-> Hn].
    exists (Some d), d, r2, ts'. repeat split; auto. exists []. split; [reflexivity|].
    left. split; [reflexivity|]. unfold lenN. lia.
  - destruct (N.eqb_spec (n8 b) 76); [apply (pushdata_inv f 1 b r ts); [lia|lia|exact H]|].
    destruct (N.eqb_spec (n8 b) 77); [apply (pushdata_inv f 2 b r ts); [lia|lia|exact H]|].
    destruct (N.eqb_spec (n8 b) 78); [apply (pushdata_inv f 4 b r ts); [lia|lia|exact H]|].
    destruct (vs_tokenize f r) as [ts'|] eqn:Er; [|discriminate]. injection H as <-.
    exists None, [], r, ts'. repeat split; auto.
Qed.

(* every data push of a tokenized script is a contiguous part of the script, after at least its opcode byte *)
Lemma push_in_script fuel : forall s ts op d,
  vs_tokenize fuel s = Some ts -> In (op, Some d) ts ->
  exists pre post, s = pre ++ d ++ post /\ pre <> [].
Proof.
  induction fuel as [|f IH]; intros s ts op d H Hin; [discriminate|].
  destruct s as [|b r]; [injection H as <-; destruct Hin|].
  apply tokenize_cons_inv in H as (od & mid & r2 & ts' & -> & -> & Er & Hod).
  destruct Hin as [Hq|Hin].
  - injection Hq as _ ->. destruct Hod as (hdr & -> & _).
    exists (b :: hdr), r2. split; [|discriminate]. cbn. rewrite <- app_assoc. reflexivity.
  - destruct (IH _ _ _ _ Er Hin) as (pre & post & -> & _). exists (b :: mid ++ pre), post.
    split; [|discriminate]. cbn. rewrite <- app_assoc. reflexivity.
Qed.

Lemma push_shorter fuel s ts op d :
  vs_tokenize fuel s = Some ts -> In (op, Some d) ts -> (length d < length s)%nat.
Proof.
  intros H Hin. destruct (push_in_script _ _ _ _ _ H Hin) as (pre & post & -> & Hne).
  rewrite !app_length. destruct pre; [congruence|]. cbn. lia.
Qed.

(* a 22-byte OP_0 script with a push of 20 or more bytes is OP_0 OP_DATA_20 <20 bytes>: after
   OP_0 only the first token can carry a push as long as the rest of the script *)
Lemma wpkh_second_byte a b r2 ts op d :
  n8 a = 0 -> length r2 = 20%nat -> vs_script_tokens (a :: b :: r2) = Some ts ->
  In (op, Some d) ts -> (20 <= length d)%nat -> n8 b = 0x14.
Proof.
  intros Ha Hl Ht Hin Hd. unfold vs_script_tokens in Ht. cbn [length] in Ht.
  apply tokenize_cons_inv in Ht as (od & mid & r & ts0 & -> & Er & Ht0 & Hod).
  destruct od as [d0|]; [destruct Hod as (hdr & _ & Hb); lia|]. subst mid. cbn [app] in Er. subst r.
  destruct Hin as [Hq|Hin]; [discriminate|].
  apply tokenize_cons_inv in Ht0 as (od & mid & r & ts1 & -> & -> & Ht1 & Hod).
  destruct Hin as [Hq|Hin].
  - injection Hq as _ ->. destruct Hod as (hdr & -> & [(-> & Hb & _)|(Hne & _)]).
    + rewrite Hb. unfold lenN. rewrite !app_length in Hl. cbn [length] in Hl. lia.
    + rewrite !app_length in Hl. destruct hdr; [congruence|]. cbn [length] in Hl. lia.
  - pose proof (push_shorter _ _ _ _ _ Ht1 Hin). rewrite app_length in Hl. lia.
Qed.

Section KeyTest.
  Variable hash160 : bytes -> bytes.

  (* the key test holds iff some data push IS the compressed key or the HASH160 of the key bytes *)
  Theorem key_test_exact ck pub ts :
    vs_key_in_pushes hash160 ck pub ts = true <->
    exists op d, In (op, Some d) ts /\ (d = ck \/ d = hash160 pub).
  Proof.
    unfold vs_key_in_pushes. rewrite existsb_exists. split.
    - intros [[op od] [Hin Ht]]. cbn [snd] in Ht. destruct od as [d|]; [|discriminate].
      exists op, d. split; [exact Hin|].
      apply orb_true_iff in Ht as [Ht|Ht]; apply bytes_eqb_eq in Ht; [left|right]; exact Ht.
    - intros (op & d & Hin & Hd). exists (op, Some d). split; [exact Hin|]. cbn [snd].
      apply orb_true_iff. destruct Hd as [->| ->]; [left|right]; apply bytes_eqb_eq; reflexivity.
  Qed.
End KeyTest.

Section Spec.
  Variable digest : valgo -> tx -> nat -> bytes -> bytes -> N -> bytes.
  Variable parse_pk : bytes -> option bytes.
  Variable der_ok : bytes -> bool.
  Variable verify : bytes -> bytes -> bytes -> bool.
  Variable hash160 : bytes -> bytes.

  Notation VI := (vs_validate_input digest parse_pk der_ok verify hash160).
  Notation VSig := (vs_validate_sig digest parse_pk der_ok verify hash160).
  Notation VSigs := (vs_validate_sigs digest parse_pk der_ok verify hash160).
  Notation HS := (vs_hash_and_script digest hash160).

  (* the outpoint of input i *)
  Definition outpoint_of (v : vver) (p : vpacket) (i : nat) (inp : vinput) : option (bytes * N) :=
    match v with
    | VsV2 => Some (svi_prev_txid inp, svi_prev_index inp)
    | VsV0 => match nth_error (t_ins (svp_tx p)) i with
              | Some ti => Some (in_hash ti, in_index ti)
              | None => None
              end
    end.

  (* the output the input actually spends: the outpoint's output of the supplied previous
     transaction, else the witness-utxo record *)
  Definition spent_output (v : vver) (p : vpacket) (i : nat) (inp : vinput) : option txout :=
    match svi_nonwit inp with
    | Some prev =>
        match outpoint_of v p i inp with
        | Some (_, idx) => if idx <? lenL (t_outs prev) then nth_error (t_outs prev) (N.to_nat idx) else None
        | None => None
        end
    | None => svi_wit inp
    end.

  (* strict script forms *)
  Definition p2wpkh_prog (s : bytes) : option bytes :=
    match s with
    | a :: b :: r => if (n8 a =? 0) && (n8 b =? 0x14) && (length r =? 20)%nat then Some r else None
    | _ => None
    end.
  Notation p2wsh_prog := vs_p2wsh_prog.
  Notation p2sh_prog := vs_p2sh_prog.

  (* what must be hashed for a spent output (algorithm, script code, amount) and the script
     in which the key must occur; None = the packet does not show how the output is spent
     (redeem / witness script missing or not committed to) *)
  Definition witness_sel (inp : vinput) (amount script : bytes) : option (option (valgo * bytes * bytes * bytes)) :=
    match p2wpkh_prog script with
    | Some h => Some (Some (VSegwitV0, vs_p2pkh_code h, amount, script))
    | None =>
        match p2wsh_prog script with
        | Some prog =>
            let w := vs_opt (svi_witscript inp) in       (* a nil witness script is the empty script *)
            if bytes_eqb (sha256 w) prog then Some (Some (VSegwitV0, w, amount, w)) else Some None
        | None => None   (* not a witness program *)
        end
    end.

  Definition spec_select (inp : vinput) (o : txout) : option (valgo * bytes * bytes * bytes) :=
    let spk := o_script o in
    match witness_sel inp (o_value o) spk with
    | Some r => r
    | None =>
        match p2sh_prog spk with
        | Some prog =>
            match svi_redeem inp with
            | Some r =>
                if bytes_eqb (hash160 r) prog then
                  match witness_sel inp (o_value o) r with
                  | Some x => x
                  | None => Some (VLegacy, r, [], r)
                  end
                else None
            | None => Some (VLegacy, spk, [], spk)   (* no redeem script supplied: the output's own script *)
            end
        | None => Some (VLegacy, spk, [], spk)
        end
    end.

  (* digest computed from the script and amount of the output actually spent, and the script being satisfied *)
  Definition digest_of_spent (v : vver) (p : vpacket) (i : nat) (inp : vinput) (ht : N) : option (bytes * bytes) :=
    match spent_output v p i inp with
    | Some o =>
        match spec_select inp o with
        | Some (a, code, am, sat) => Some (digest a (svp_tx p) i code am ht, sat)
        | None => None
        end
    | None => None
    end.

  (* a partial signature that is genuinely valid for input i *)
  Definition sig_genuine (v : vver) (p : vpacket) (i : nat) (inp : vinput) (s : option vsig) : Prop :=
    exists pub sg ck last rder d sat asm,
      s = Some (mk_vsig (Some pub) sg) /\ parse_pk pub = Some ck /\ rev sg = last :: rder /\
      digest_of_spent v p i inp (n8 last) = Some (d, sat) /\
      der_ok (rev rder) = true /\ verify ck d (rev rder) = true /\
      vs_script_tokens sat = Some asm /\ vs_key_in_pushes hash160 ck pub asm = true.

  (* a supplied previous transaction hashes to the outpoint txid *)
  Definition prev_tx_matches (v : vver) (p : vpacket) (i : nat) (inp : vinput) : Prop :=
    forall prev, svi_nonwit inp = Some prev ->
      exists h idx, outpoint_of v p i inp = Some (h, idx) /\ txid prev = h.

  (* The full statement.  valid_only_if proves it for 33-byte keys and 20-byte hashes,
     valid_only_if_partial for packets in which a script starting with OP_0 is a well-formed
     witness program; with neither it fails (valid_only_if_refuted_malformed_program). *)
  Definition valid_only_if_statement : Prop :=
    forall v p i, VI v p i = VOk true ->
      exists inp, nth_error (svp_ins p) i = Some inp /\ svi_sigs inp <> [] /\
        (forall s, In s (svi_sigs inp) -> sig_genuine v p i inp s) /\
        prev_tx_matches v p i inp.

  Definition sig_checked (v : vver) (p : vpacket) (i : nat) (inp : vinput) (s : option vsig) : Prop :=
    exists pub sg ck last rder d scr asm,
      s = Some (mk_vsig (Some pub) sg) /\ parse_pk pub = Some ck /\ rev sg = last :: rder /\
      HS v p i inp (n8 last) = VOk (d, scr) /\
      der_ok (rev rder) = true /\ verify ck d (rev rder) = true /\
      vs_script_tokens scr = Some asm /\ vs_key_in_pushes hash160 ck pub asm = true.

  (* sig_checked and sig_genuine differ in the digest only *)
  Lemma sig_checked_genuine v p i inp s :
    (forall pub ck ht d scr asm, parse_pk pub = Some ck -> HS v p i inp ht = VOk (d, scr) ->
       vs_script_tokens scr = Some asm -> vs_key_in_pushes hash160 ck pub asm = true ->
       digest_of_spent v p i inp ht = Some (d, scr)) ->
    sig_checked v p i inp s -> sig_genuine v p i inp s.
  Proof.
    intros Hd (pub & sg & ck & last & rder & d & scr & asm & E1 & E2 & E3 & E4 & E5 & E6 & E7 & E8).
    exists pub, sg, ck, last, rder, d, scr, asm. repeat split; try assumption. eapply Hd; eassumption.
  Qed.

  Lemma validate_sig_true v p i inp s :
    VSig v p i inp s = VOk true -> sig_checked v p i inp s.
  Proof.
    unfold vs_validate_sig, sig_checked. destruct s as [s|]; [|discriminate].
    destruct (vs_pub_missing v s) eqn:Em; [discriminate|].
    destruct s as [opub sg]. cbn [svg_pub svg_sig] in *.
    destruct opub as [pub|]; [|cbn in Em; discriminate]. cbn [vs_opt].
    destruct (rev sg) as [|last rder] eqn:Er; [discriminate|].
    intro H. apply vbind_ok in H as [[d scr] [Hhs H]]. cbn [fst snd] in H.
    apply vbind_ok in H as [ins [Hv H]].
    unfold vs_verify_script in Hv.
    destruct (parse_pk pub) as [ck|] eqn:Epk; [|discriminate].
    destruct (vs_script_tokens scr) as [asm|] eqn:Ed; [|discriminate].
    injection Hv as Hv. subst ins.
    destruct (vs_key_in_pushes hash160 ck pub asm) eqn:Ek; cbn [negb] in H; [|discriminate].
    destruct (der_ok (rev rder)) eqn:Eder; cbn [negb] in H; [|discriminate].
    injection H as H.
    exists pub, sg, ck, last, rder, d, scr, asm. repeat split; auto.
  Qed.

  Lemma validate_sigs_true v p i inp sigs :
    VSigs v p i inp sigs = VOk true -> forall s, In s sigs -> VSig v p i inp s = VOk true.
  Proof.
    induction sigs as [|s0 r IH]; cbn [vs_validate_sigs]; intros H s Hin; [destruct Hin|].
    destruct (VSig v p i inp s0) as [[|]| |] eqn:E0; try discriminate.
    destruct Hin as [<-|Hin]; [exact E0 | apply IH; assumption].
  Qed.

  Lemma validate_input_true v p i :
    VI v p i = VOk true ->
    exists inp, nth_error (svp_ins p) i = Some inp /\ svi_sigs inp <> [] /\
                VSigs v p i inp (svi_sigs inp) = VOk true.
  Proof.
    unfold vs_validate_input. destruct (nth_error (svp_ins p) i) as [inp|]; [|discriminate].
    destruct (svi_sigs inp) as [|s0 r] eqn:Es; [discriminate|].
    intro H. exists inp. rewrite Es. repeat split; [discriminate | exact H].
  Qed.

  Lemma outpoint_spec v p i inp op :
    vs_outpoint v p i inp = VOk op -> outpoint_of v p i inp = Some op.
  Proof.
    unfold vs_outpoint, outpoint_of. destruct v.
    - destruct (nth_error (t_ins (svp_tx p)) i); [|discriminate]. intro H; injection H as <-. reflexivity.
    - intro H; injection H as <-. reflexivity.
  Qed.

  (* the script the validator classifies *)
  Definition used_script (inp : vinput) (o : txout) : bytes :=
    match svi_redeem inp with Some r => r | None => o_script o end.

  (* a script starting with OP_0 is a well-formed v0 witness program.  address.GetScriptType
     looks at script[0] and len(script[2:]) only, so OP_0 <any byte> <20 bytes> is treated as
     P2WPKH; this is the one fact about the packet the validator does not check *)
  Definition wf_program (s : bytes) : Prop :=
    match s with
    | a :: _ => n8 a = 0 -> p2wpkh_prog s <> None \/ p2wsh_prog s <> None
    | [] => True
    end.

  Lemma bytes_eqb_refl a : bytes_eqb a a = true.
  Proof. exact (Lib.Bytes.bytes_eqb_refl a). Qed.

  Lemma pick_script_used inp o script :
    vs_pick_script hash160 inp (o_script o) = VOk script -> script = used_script inp o.
  Proof.
    unfold vs_pick_script, used_script. destruct (svi_redeem inp) as [r|].
    - destruct (vs_is_redeem_of _ _ _); [|discriminate]. intro H; injection H as <-. reflexivity.
    - intro H; injection H as <-. reflexivity.
  Qed.

  Lemma digest_v0_ok p i script amount ht (scr : bytes) r :
    (d <-- vs_digest_v0 digest p i script amount ht ;;; VOk (d, scr)) = VOk r ->
    r = (digest VSegwitV0 (svp_tx p) i script amount ht, scr).
  Proof.
    unfold vs_digest_v0. destruct (i <? length (t_ins (svp_tx p)))%nat; [|discriminate].
    intro H; injection H as <-. reflexivity.
  Qed.

  (* getHashAndScriptForSignature returns a digest: which output it spends, which script it
     classified, and what it hashed for each class of script *)
  Lemma hash_and_script_inv v p i inp ht d scr :
    HS v p i inp ht = VOk (d, scr) ->
    prev_tx_matches v p i inp /\
    exists o, spent_output v p i inp = Some o /\
      vs_pick_script hash160 inp (o_script o) = VOk (used_script inp o) /\
      let script := used_script inp o in
      (vs_script_type script = StP2WPKH /\ scr = script /\
       d = digest VSegwitV0 (svp_tx p) i (vs_p2pkh_code (skipn 2 script)) (o_value o) ht) \/
      (vs_script_type script = StP2WSH /\ vs_is_witness_of scr script = true /\
       scr = vs_opt (svi_witscript inp) /\ d = digest VSegwitV0 (svp_tx p) i scr (o_value o) ht) \/
      (vs_script_type script <> StP2WPKH /\ vs_script_type script <> StP2WSH /\ scr = script /\
       d = digest VLegacy (svp_tx p) i script [] ht).
  Proof.
    unfold vs_hash_and_script, spent_output, prev_tx_matches. intro H.
    destruct (svi_nonwit inp) as [prev|].
    - apply vbind_ok in H as [[h idx] [Ho H]]. cbn [fst snd] in H.
      apply outpoint_spec in Ho. rewrite Ho.
      destruct (vs_prev_id_ok h (txid prev)) eqn:Eok; cbn [negb] in H; [|discriminate].
      split. { intros ? [= <-]. exists h, idx. split; [reflexivity|]. symmetry. apply bytes_eqb_eq. exact Eok. }
      destruct (lenL (t_outs prev) <=? idx) eqn:El; [discriminate|].
      rewrite N.ltb_antisym, El. cbn [negb].
      destruct (nth_error (t_outs prev) (N.to_nat idx)) as [o|]; [|discriminate].
      exists o. split; [reflexivity|]. cbv zeta.
      apply vbind_ok in H as [script [Hpick H]].
      rewrite <- (pick_script_used inp o script Hpick). split; [exact Hpick|].
      destruct (vs_script_type script).
      3-6: right; right; injection H as <- <-; repeat split; discriminate.
      + left. apply digest_v0_ok in H. injection H as -> ->. auto.
      + right; left. destruct (svi_witscript inp) as [ws|]; [|discriminate].
        destruct (vs_is_witness_of ws script) eqn:Eis; cbn [negb] in H; [|discriminate].
        apply digest_v0_ok in H. injection H as -> ->. auto.
    - split; [discriminate|]. destruct (svi_wit inp) as [o|]; [|discriminate].
      exists o. split; [reflexivity|]. cbv zeta.
      apply vbind_ok in H as [script [Hpick H]].
      rewrite <- (pick_script_used inp o script Hpick). split; [exact Hpick|].
      destruct (vs_script_type script); try discriminate.
      + left. apply digest_v0_ok in H. injection H as -> ->. auto.
      + right; left.
        destruct (vs_is_witness_of (vs_opt (svi_witscript inp)) script) eqn:Eis; cbn [negb] in H; [|discriminate].
        apply digest_v0_ok in H. injection H as -> ->. auto.
  Qed.

  (* What a valid verdict guarantees for every packet, with no hypothesis: every partial
     signature verifies, under the stated key, the digest the validator selected
     (vs_hash_and_script), the key or its HASH160 is a data push of the script returned with
     that digest, and a supplied previous transaction hashes to the outpoint txid (v0 and v2:
     this conjunct of the full statement holds outright). *)
  Theorem valid_only_if_checked v p i :
    VI v p i = VOk true ->
    exists inp, nth_error (svp_ins p) i = Some inp /\ svi_sigs inp <> [] /\
      (forall s, In s (svi_sigs inp) -> sig_checked v p i inp s) /\
      prev_tx_matches v p i inp.
  Proof.
    intro H. apply validate_input_true in H as [inp [Hn [Hne Hs]]].
    exists inp. split; [exact Hn|]. split; [exact Hne|].
    assert (Hc : forall s, In s (svi_sigs inp) -> sig_checked v p i inp s).
    { intros s Hin. apply validate_sig_true. eapply validate_sigs_true; eassumption. }
    split; [exact Hc|].
    destruct (svi_sigs inp) as [|s0 r]; [congruence|].
    destruct (Hc s0 (or_introl eq_refl)) as (pub & sg & ck & last & rder & d & scr & asm & _ & _ & _ & Hhs & _).
    apply hash_and_script_inv in Hhs. apply Hhs.
  Qed.

  (* address.GetScriptType against the strict forms *)
  Lemma script_type_op0 a r : n8 a = 0 ->
    vs_script_type (a :: r) = if (length (a :: r) =? 22)%nat then StP2WPKH else StP2WSH.
  Proof. intro Ha. unfold vs_script_type. rewrite Ha. reflexivity. Qed.

  Lemma p2wpkh_prog_type s h : p2wpkh_prog s = Some h -> vs_script_type s = StP2WPKH /\ h = skipn 2 s.
  Proof.
    unfold p2wpkh_prog. destruct s as [|a [|b r]]; try discriminate.
    destruct (N.eqb_spec (n8 a) 0) as [Ea|]; [|discriminate]. destruct (n8 b =? 0x14); [|discriminate].
    destruct (Nat.eqb_spec (length r) 20) as [El|]; [|discriminate]. cbn [andb]. intro H; injection H as <-.
    rewrite (script_type_op0 a _ Ea). cbn [length]. rewrite El. split; reflexivity.
  Qed.

  Lemma p2wsh_prog_type s h : p2wsh_prog s = Some h -> vs_script_type s = StP2WSH.
  Proof.
    unfold vs_p2wsh_prog. destruct s as [|a [|b r]]; try discriminate.
    destruct (N.eqb_spec (n8 a) 0) as [Ea|]; [|discriminate]. destruct (n8 b =? 0x20); [|discriminate].
    destruct (Nat.eqb_spec (length r) 32) as [El|]; [|discriminate]. intros _.
    rewrite (script_type_op0 a _ Ea). cbn [length]. rewrite El. reflexivity.
  Qed.

  (* only here the well-formedness of the program matters *)
  Lemma script_type_wpkh s : wf_program s -> vs_script_type s = StP2WPKH -> p2wpkh_prog s = Some (skipn 2 s).
  Proof.
    destruct s as [|a r]; [discriminate|]. intros Hwf Hty.
    assert (Ha : n8 a = 0).
    { unfold vs_script_type in Hty. destruct (N.eqb_spec (n8 a) 0) as [E|_]; [exact E|].
      destruct (n8 a =? 0x51), (n8 a =? 0xa9), (n8 a =? 0x76); discriminate. }
    destruct (Hwf Ha) as [Hp|Hp].
    - destruct (p2wpkh_prog (a :: r)) as [h|] eqn:E; [|congruence]. apply p2wpkh_prog_type in E as [_ ->]. reflexivity.
    - destruct (p2wsh_prog (a :: r)) as [h|] eqn:E; [|congruence]. apply p2wsh_prog_type in E. congruence.
  Qed.

  Lemma p2sh_not_witness inp am s prog : p2sh_prog s = Some prog -> witness_sel inp am s = None.
  Proof.
    unfold vs_p2sh_prog, witness_sel, p2wpkh_prog, vs_p2wsh_prog.
    destruct s as [|a [|b r]]; try discriminate.
    destruct (N.eqb_spec (n8 a) 0xa9) as [Ea|]; cbn [andb]; [|discriminate].
    rewrite Ea. reflexivity.
  Qed.

  (* once the validator has picked its script (redeem script checked against the spent
     script), the specification selects from that same script *)
  Lemma spec_select_picked inp o :
    vs_pick_script hash160 inp (o_script o) = VOk (used_script inp o) ->
    spec_select inp o =
    match witness_sel inp (o_value o) (used_script inp o) with
    | Some x => x
    | None => Some (VLegacy, used_script inp o, [], used_script inp o)
    end.
  Proof.
    unfold vs_pick_script, spec_select, used_script, vs_is_redeem_of.
    destruct (svi_redeem inp) as [r|].
    - destruct (p2sh_prog (o_script o)) as [prog|] eqn:Ep; [|discriminate].
      destruct (bytes_eqb (hash160 r) prog) eqn:Eh; [|discriminate]. intros _.
      rewrite (p2sh_not_witness inp (o_value o) _ _ Ep). reflexivity.
    - intros _. destruct (witness_sel inp (o_value o) (o_script o)); [reflexivity|].
      destruct (p2sh_prog (o_script o)); reflexivity.
  Qed.

  (* the digest and script the validator selects are those of the output actually spent *)
  Lemma select_agrees v p i inp ht d scr :
    (forall o, spent_output v p i inp = Some o -> wf_program (used_script inp o)) ->
    HS v p i inp ht = VOk (d, scr) ->
    digest_of_spent v p i inp ht = Some (d, scr).
  Proof.
    intros Hwf H. apply hash_and_script_inv in H as (_ & o & Ho & Hpick & Hc). cbv zeta in Hc.
    unfold digest_of_spent. rewrite Ho, (spec_select_picked inp o Hpick). unfold witness_sel.
    destruct Hc as [(Ety & -> & ->)|[(Ety & Hw & Es & ->)|(Hn1 & Hn2 & -> & ->)]].
    - rewrite (script_type_wpkh _ (Hwf o Ho) Ety). reflexivity.
    - destruct (p2wpkh_prog (used_script inp o)) as [h|] eqn:E1; [apply p2wpkh_prog_type in E1; intuition congruence|].
      unfold vs_is_witness_of in Hw. destruct (p2wsh_prog (used_script inp o)); [|discriminate].
      rewrite <- Es, Hw. reflexivity.
    - destruct (p2wpkh_prog (used_script inp o)) as [h|] eqn:E1; [apply p2wpkh_prog_type in E1; intuition congruence|].
      destruct (p2wsh_prog (used_script inp o)) as [h|] eqn:E2; [apply p2wsh_prog_type in E2; congruence|].
      reflexivity.
  Qed.

  (* The full statement for every packet in which the script classified for input i (the
     redeem script if present, else the spent script) is not a malformed witness program.
     Everything else the statement asks for is enforced by the validator: previous
     transaction hashing to the outpoint txid (v0 and v2), amount of the output actually
     spent, redeem script committed to by a P2SH spent script, witness script committed to by
     the P2WSH program, signature verification under the stated key, key or its HASH160 among
     the data pushes of the script being satisfied. *)
  Theorem valid_only_if_partial v p i :
    VI v p i = VOk true ->
    exists inp, nth_error (svp_ins p) i = Some inp /\ svi_sigs inp <> [] /\
      prev_tx_matches v p i inp /\
      ((forall o, spent_output v p i inp = Some o -> wf_program (used_script inp o)) ->
       forall s, In s (svi_sigs inp) -> sig_genuine v p i inp s).
  Proof.
    intro H. apply valid_only_if_checked in H as [inp [Hn [Hne [Hs Hp]]]].
    exists inp. split; [exact Hn|]. split; [exact Hne|]. split; [exact Hp|].
    intros Hwf s Hin. apply sig_checked_genuine; [|exact (Hs s Hin)].
    intros. apply select_agrees; assumption.
  Qed.

  (* a script that passed the key test with a 33-byte key / 20-byte hash is a well-formed program *)
  Lemma checked_wf v p i inp ht d scr ts ck pub :
    HS v p i inp ht = VOk (d, scr) ->
    vs_script_tokens scr = Some ts -> vs_key_in_pushes hash160 ck pub ts = true ->
    length ck = 33%nat -> length (hash160 pub) = 20%nat ->
    forall o, spent_output v p i inp = Some o -> wf_program (used_script inp o).
  Proof.
    intros H Ht Hk Hck Hh o Ho.
    apply hash_and_script_inv in H as (_ & o' & Ho' & _ & Hc). rewrite Ho in Ho'. injection Ho' as <-.
    cbv zeta in Hc. unfold wf_program.
    destruct (used_script inp o) as [|a r] eqn:Eus; [exact I|]. intro Ha.
    rewrite (script_type_op0 a r Ha) in Hc.
    destruct Hc as [(Ety & -> & _)|[(_ & Hw & _)|(Hn1 & Hn2 & _)]].
    - left. destruct (Nat.eqb_spec (length (a :: r)) 22) as [E22|]; [|discriminate].
      destruct r as [|b r2]; [discriminate|]. cbn [length] in E22.
      apply key_test_exact in Hk as (op & d0 & Hin & Hd).
      assert (Hb : n8 b = 0x14).
      { apply (wpkh_second_byte a b r2 ts op d0 Ha); [lia | exact Ht | exact Hin |].
        destruct Hd as [->| ->]; lia. }
      unfold p2wpkh_prog. rewrite Ha, Hb. cbn [N.eqb Pos.eqb andb].
      replace (length r2 =? 20)%nat with true by lia. discriminate.
    - right. unfold vs_is_witness_of in Hw. destruct (p2wsh_prog (a :: r)); discriminate.
    - exfalso. destruct (length (a :: r) =? 22)%nat; congruence.
  Qed.

  (* With the sizes of the two byte strings the key test compares (33-byte compressed keys,
     20-byte HASH160) as the only hypotheses, a valid verdict gives every conjunct of the
     statement, for every packet, v0 and v2. *)
  Theorem valid_only_if :
    (forall pub ck, parse_pk pub = Some ck -> length ck = 33%nat) ->
    (forall b, length (hash160 b) = 20%nat) ->
    valid_only_if_statement.
  Proof.
    intros Hpk Hh v p i H.
    apply valid_only_if_checked in H as [inp [Hn [Hne [Hs Hp]]]].
    exists inp. split; [exact Hn|]. split; [exact Hne|]. split; [|exact Hp].
    intros s Hin. apply sig_checked_genuine; [|exact (Hs s Hin)].
    intros pub ck ht d scr asm E2 E4 E7 E8. apply select_agrees; [|exact E4].
    eapply checked_wf; try eassumption; [eapply Hpk; exact E2 | apply Hh].
  Qed.

  (* a valid verdict, for a partial signature of the input whose key and trailing hash-type
     byte are known: the validator selected a digest, and the signature verifies it *)
  Lemma valid_sig_inv v p i inp pub sg ck last rder :
    VI v p i = VOk true -> nth_error (svp_ins p) i = Some inp ->
    In (Some (mk_vsig (Some pub) sg)) (svi_sigs inp) ->
    parse_pk pub = Some ck -> rev sg = last :: rder ->
    exists d scr, HS v p i inp (n8 last) = VOk (d, scr) /\ verify ck d (rev rder) = true.
  Proof.
    intros H Hn Hin Hpk Hrev.
    apply valid_only_if_checked in H as [inp' [Hn' [_ [Hs _]]]].
    rewrite Hn in Hn'. injection Hn' as <-.
    destruct (Hs _ Hin) as (pub' & sg' & ck' & last' & rder' & d & scr & asm & E1 & E2 & E3 & E4 & _ & E6 & _).
    injection E1 as <- <-. rewrite Hpk in E2. injection E2 as <-.
    rewrite Hrev in E3. injection E3 as <- <-. exists d, scr. split; assumption.
  Qed.

  Section Ideal.
    (* signed k m s : s was produced by the holder of key k for message m *)
    Variable signed : bytes -> bytes -> bytes -> Prop.
    Hypothesis ideal_sig : forall k m s, verify k m s = true -> signed k m s.

    Theorem valid_implies_signed v p i :
      VI v p i = VOk true ->
      exists inp, nth_error (svp_ins p) i = Some inp /\
        forall s, In s (svi_sigs inp) ->
          exists pub sg ck last rder d scr,
            s = Some (mk_vsig (Some pub) sg) /\ parse_pk pub = Some ck /\ rev sg = last :: rder /\
            HS v p i inp (n8 last) = VOk (d, scr) /\ signed ck d (rev rder).
    Proof.
      intro H. apply valid_only_if_checked in H as [inp [Hn [_ [Hs _]]]].
      exists inp. split; [exact Hn|]. intros s Hin.
      destruct (Hs s Hin) as (pub & sg & ck & last & rder & d & scr & asm & E1 & E2 & E3 & E4 & E5 & E6 & _).
      exists pub, sg, ck, last, rder, d, scr. repeat split; try assumption. apply ideal_sig; exact E6.
    Qed.

    (* A partial signature that its key holder produced for the digest d0 only makes the
       input invalid (or an error, or a panic: never valid) as soon as the validator selects
       any other digest for it - whatever was changed: a covered transaction field, the
       script, the amount, the hash-type byte. *)
    Theorem corruption_rejected v p i inp pub sg ck last rder d0 :
      nth_error (svp_ins p) i = Some inp ->
      In (Some (mk_vsig (Some pub) sg)) (svi_sigs inp) ->
      parse_pk pub = Some ck -> rev sg = last :: rder ->
      (forall m, signed ck m (rev rder) -> m = d0) ->
      (forall d scr, HS v p i inp (n8 last) = VOk (d, scr) -> d <> d0) ->
      VI v p i <> VOk true.
    Proof.
      intros Hn Hin Hpk Hrev Honly Hdiff H.
      destruct (valid_sig_inv v p i inp pub sg ck last rder H Hn Hin Hpk Hrev) as (d & scr & E4 & E6).
      apply (Hdiff d scr E4). apply Honly. apply ideal_sig. exact E6.
    Qed.
  End Ideal.

  (* what the PSET parsers guarantee about the fields read here: one packet input per
     transaction input (v2 builds its transaction from the inputs), partial signatures that
     are present *)
  Definition accepted (p : vpacket) : Prop :=
    length (t_ins (svp_tx p)) = length (svp_ins p) /\
    forall inp, In inp (svp_ins p) -> forall s, In s (svi_sigs inp) -> s <> None.

  Lemma digest_v0_no_panic p i script amount ht (scr : bytes) site :
    (i < length (t_ins (svp_tx p)))%nat ->
    (d <-- vs_digest_v0 digest p i script amount ht ;;; VOk (d, scr)) <> VPanic site.
  Proof.
    intro H. unfold vs_digest_v0. destruct (Nat.ltb_spec i (length (t_ins (svp_tx p)))); [discriminate|lia].
  Qed.

  Lemma pick_script_no_panic inp spent st : vs_pick_script hash160 inp spent <> VPanic st.
  Proof. unfold vs_pick_script. destruct (svi_redeem inp); [destruct (vs_is_redeem_of _ _ _)|]; discriminate. Qed.

  Lemma hash_and_script_no_panic v p i inp ht :
    (i < length (t_ins (svp_tx p)))%nat -> forall site, HS v p i inp ht <> VPanic site.
  Proof.
    intros Hi site H. unfold vs_hash_and_script in H.
    destruct (svi_nonwit inp) as [prev|].
    - apply vbind_panic in H as [H|(op & _ & H)].
      { unfold vs_outpoint in H. destruct v; [|discriminate].
        destruct (nth_error (t_ins (svp_tx p)) i) eqn:E; [discriminate|]. apply nth_error_None in E. lia. }
      destruct (negb _); [discriminate|]. destruct (_ <=? _); [discriminate|].
      destruct (nth_error _ _) as [o|]; [|discriminate].
      apply vbind_panic in H as [H|(script & _ & H)]; [exact (pick_script_no_panic _ _ _ H)|].
      destruct (vs_script_type script); try discriminate.
      + exact (digest_v0_no_panic _ _ _ _ _ _ _ Hi H).
      + destruct (svi_witscript inp) as [ws|]; [|discriminate]. destruct (negb _); [discriminate|].
        exact (digest_v0_no_panic _ _ _ _ _ _ _ Hi H).
    - destruct (svi_wit inp) as [w|]; [|discriminate].
      apply vbind_panic in H as [H|(script & _ & H)]; [exact (pick_script_no_panic _ _ _ H)|].
      destruct (vs_script_type script); try discriminate.
      + exact (digest_v0_no_panic _ _ _ _ _ _ _ Hi H).
      + destruct (negb _); [discriminate|]. exact (digest_v0_no_panic _ _ _ _ _ _ _ Hi H).
  Qed.

  Lemma validate_sig_no_panic v p i inp s :
    (i < length (t_ins (svp_tx p)))%nat -> s <> None ->
    forall site, VSig v p i inp s <> VPanic site.
  Proof.
    intros Hi Hs site. unfold vs_validate_sig. destruct s as [s|]; [|congruence].
    destruct (vs_pub_missing v s); [discriminate|].
    destruct (rev (svg_sig s)) as [|last rder]; [discriminate|].
    destruct (HS v p i inp (n8 last)) as [[d scr]| |st] eqn:Eh; cbn [vbind]; try discriminate.
    - cbn [fst snd]. unfold vs_verify_script. destruct (parse_pk _) as [ck|]; cbn [vbind]; [|discriminate].
      destruct (vs_script_tokens scr); cbn [vbind]; [|discriminate].
      destruct (negb _); [discriminate|]. destruct (negb _); discriminate.
    - exfalso. exact (hash_and_script_no_panic v p i inp (n8 last) Hi st Eh).
  Qed.

  Lemma validate_sigs_no_panic v p i inp sigs :
    (forall s, In s sigs -> forall site, VSig v p i inp s <> VPanic site) ->
    forall site, VSigs v p i inp sigs <> VPanic site.
  Proof.
    induction sigs as [|s0 r IH]; intros H site; cbn [vs_validate_sigs]; [discriminate|].
    destruct (VSig v p i inp s0) as [[|]| |st] eqn:E; try discriminate.
    - apply IH. intros s Hin. apply H. right; exact Hin.
    - exfalso. exact (H s0 (or_introl eq_refl) st E).
  Qed.

  (* no expression reachable from a parser-shaped packet and an input index within range
     can panic *)
  Theorem no_panic_on_accepted_packets v p i :
    accepted p -> (i < length (svp_ins p))%nat ->
    forall site, VI v p i <> VPanic site.
  Proof.
    intros [Hlen Hsig] Hi site. unfold vs_validate_input.
    destruct (nth_error (svp_ins p) i) as [inp|] eqn:En.
    - destruct (svi_sigs inp) as [|s0 r] eqn:Es; [discriminate|]. rewrite <- Es.
      apply validate_sigs_no_panic. intros s Hin.
      apply validate_sig_no_panic; [lia|].
      apply (Hsig inp); [eapply nth_error_In; exact En | exact Hin].
    - apply nth_error_None in En. lia.
  Qed.

  (* a valid verdict of the loop over the inputs k, ..., k+n-1 is a valid verdict for each of
     them (in particular each carries at least one partial signature) *)
  Lemma validate_from_true v p n : forall k,
    vs_validate_from digest parse_pk der_ok verify hash160 v p k n = VOk true ->
    forall j, (k <= j < k + n)%nat -> VI v p j = VOk true.
  Proof.
    induction n as [|n IH]; intros k H j Hj; [lia|].
    cbn [vs_validate_from] in H.
    destruct (VI v p k) as [[|]| |st] eqn:E; try discriminate.
    destruct (Nat.eq_dec j k) as [->|Hne]; [exact E|].
    apply (IH (S k) H). lia.
  Qed.
End Spec.

(* A toy instantiation: the hypotheses are satisfiable; packets that refute the full statement.
   toy_digest depends on the algorithm, script code, amount and hash type only: its transaction
   and input-index arguments are ignored, so the signatures in the packets below are written
   over (tx_of [] []) 0 whatever transaction the packet carries. *)
Definition toy_digest (a : valgo) (t : tx) (i : nat) (code amount : bytes) (ht : N) : bytes :=
  (match a with VLegacy => x00 | VSegwitV0 => x01 end) :: code ++ amount ++ [b8 ht].
Definition toy_parse_pk (pub : bytes) : option bytes := Some pub.
Definition toy_der_ok (_ : bytes) : bool := true.
(* a "signature" by key k on message m is k ++ m *)
Definition toy_verify (k m s : bytes) : bool := bytes_eqb s (k ++ m).
Definition toy_signed (k m s : bytes) : Prop := s = k ++ m.
Definition toy_hash160 (b : bytes) : bytes := b.

Notation TVI := (vs_validate_input toy_digest toy_parse_pk toy_der_ok toy_verify toy_hash160).

Example toy_ideal_sig : forall k m s, toy_verify k m s = true -> toy_signed k m s.
Proof. intros k m s H. apply bytes_eqb_eq in H. exact H. Qed.

Definition toy_sig (k : bytes) (d : bytes) (ht : N) : bytes := k ++ d ++ [b8 ht].

Definition out_of (script value : bytes) : txout := mk_out [] value script [] [] [].
Definition tx_of (ins : list txin) (outs : list txout) : tx := mk_tx 2 0 0 ins outs.
Definition in_of (h : bytes) (idx : N) : txin := mk_in h idx 0xffffffff [] [] false [] None [] [].

Definition kA : bytes := [x02].                                (* toy key; its toy HASH160 is itself *)
Definition scrA : bytes := [x76; x01; x02].                    (* OP_DUP <02> : mentions kA *)
Definition scrB : bytes := [x76; x01; x03].                    (* somebody else's script *)
Definition kW : bytes := repeat x11 20.                         (* toy key whose HASH160 is a 20-byte program *)
Definition spkW : bytes := [x00; x14] ++ kW.                    (* P2WPKH-shaped *)

(* four packets whose acceptance would contradict the full statement; each is rejected
   (fixes a910e27, 9415d49) *)
(* v0: a previous transaction whose id is not the outpoint txid (it compares above it) *)
Definition prevA : tx := Eval vm_compute in tx_of [in_of [] 0] [out_of scrA [x01]].
Definition pkt1 : vpacket := Eval vm_compute in
  mk_vpacket (tx_of [in_of [] 0] [out_of [] [x01]])
    [mk_vinput (Some prevA) None None None
       [Some (mk_vsig (Some kA) (toy_sig kA (toy_digest VLegacy (tx_of [] []) 0 scrA [] 1) 1))] [] 0].

(* both utxo records present, amounts disagree, signature over the witness-utxo amount *)
Definition prevW : tx := Eval vm_compute in tx_of [in_of [] 0] [out_of spkW [x01; x05]].
Definition idW : bytes := Eval vm_compute in txid prevW.
Lemma idW_ok : txid prevW = idW.
Proof. vm_compute. reflexivity. Qed.
Definition pkt2 : vpacket := Eval vm_compute in
  mk_vpacket (tx_of [in_of idW 0] [out_of [] [x01]])
    [mk_vinput (Some prevW) (Some (out_of spkW [x01; x09])) None None
       [Some (mk_vsig (Some kW) (toy_sig kW (toy_digest VSegwitV0 (tx_of [] []) 0 (vs_p2pkh_code kW) [x01; x09] 1) 1))]
       idW 0].

(* a redeem script that the spent script does not commit to *)
Definition prevB : tx := Eval vm_compute in tx_of [in_of [] 0] [out_of scrB [x01]].
Definition idB : bytes := Eval vm_compute in txid prevB.
Lemma idB_ok : txid prevB = idB.
Proof. vm_compute. reflexivity. Qed.
Definition pkt3 : vpacket := Eval vm_compute in
  mk_vpacket (tx_of [in_of idB 0] [out_of [] [x01]])
    [mk_vinput (Some prevB) None (Some scrA) None
       [Some (mk_vsig (Some kA) (toy_sig kA (toy_digest VLegacy (tx_of [] []) 0 scrA [] 1) 1))]
       idB 0].

(* a witness script that is not the pre-image of the P2WSH program *)
Definition wsA : bytes := [x51; x01; x02].                     (* OP_1 <02> *)
Definition pkt4 : vpacket := Eval vm_compute in
  mk_vpacket (tx_of [in_of (repeat x07 32) 0] [out_of [] [x01]])
    [mk_vinput None (Some (out_of ([x00; x20] ++ repeat x00 32) [x01; x05])) None (Some wsA)
       [Some (mk_vsig (Some kA) (toy_sig kA (toy_digest VSegwitV0 (tx_of [] []) 0 wsA [x01; x05] 1) 1))]
       (repeat x07 32) 0].

Example former_witnesses_rejected :
  TVI VsV0 pkt1 0 = VErr /\                               (* previous transaction with another id *)
  TVI VsV0 pkt2 0 = VOk false /\ TVI VsV2 pkt2 0 = VOk false /\   (* signature over the wrong amount *)
  TVI VsV0 pkt3 0 = VErr /\ TVI VsV2 pkt3 0 = VErr /\     (* uncommitted redeem script *)
  TVI VsV0 pkt4 0 = VErr /\ TVI VsV2 pkt4 0 = VErr.       (* uncommitted witness script *)
Proof. vm_compute. repeat split. Qed.

(* a malformed witness program OP_0 <01> <02> <19 bytes>: GetScriptType calls it P2WPKH (first
   byte 0, 20 bytes after the second), so the digest is the segwit one over a P2PKH code made
   of script[2:], not a digest of the output's script.  The packet needs a key that is a data
   push of such a script (here the 1-byte toy key 02); with real keys (33-byte
   compressed key, 20-byte HASH160) no such script passes the key test, and the S oracle
   finds none on the implementation. *)
Definition spkM : bytes := [x00; x01; x02] ++ repeat x51 19.
Definition pktM : vpacket := Eval vm_compute in
  mk_vpacket (tx_of [in_of (repeat x07 32) 0] [out_of [] [x01]])
    [mk_vinput None (Some (out_of spkM [x01; x05])) None None
       [Some (mk_vsig (Some kA) (toy_sig kA (toy_digest VSegwitV0 (tx_of [] []) 0 (vs_p2pkh_code (skipn 2 spkM)) [x01; x05] 1) 1))]
       (repeat x07 32) 0].

Theorem valid_only_if_refuted_malformed_program :
  TVI VsV0 pktM 0 = VOk true /\ TVI VsV2 pktM 0 = VOk true /\
  exists inp s, nth_error (svp_ins pktM) 0 = Some inp /\ In s (svi_sigs inp) /\
    ~ sig_genuine toy_digest toy_parse_pk toy_der_ok toy_verify toy_hash160 VsV2 pktM 0 inp s.
Proof.
  split; [vm_compute; reflexivity|]. split; [vm_compute; reflexivity|].
  eexists; eexists. split; [reflexivity|]. split; [left; reflexivity|].
  intros (pub & sg & ck & last & rder & d & sat & asm & E1 & E2 & E3 & E4 & E5 & E6 & E7).
  injection E1 as <- <-. vm_compute in E2. injection E2 as <-.
  vm_compute in E3. injection E3 as <- <-.
  vm_compute in E4. injection E4 as <- <-.
  vm_compute in E6. discriminate E6.
Qed.

(* the hypotheses of valid_only_if_partial are satisfiable: an honest P2WPKH input with
   both utxo records (valid, well-formed program), and a P2SH-wrapped multisig-like input *)
Definition pkt0 : vpacket := Eval vm_compute in
  mk_vpacket (tx_of [in_of idW 0] [out_of [] [x01]])
    [mk_vinput (Some prevW) (Some (out_of spkW [x01; x05])) None None
       [Some (mk_vsig (Some kW) (toy_sig kW (toy_digest VSegwitV0 (tx_of [] []) 0 (vs_p2pkh_code kW) [x01; x05] 1) 1))]
       idW 0].

Example valid_packet_wf_program :
  TVI VsV2 pkt0 0 = VOk true /\ TVI VsV0 pkt0 0 = VOk true /\
  exists inp, nth_error (svp_ins pkt0) 0 = Some inp /\
    forall o, spent_output VsV2 pkt0 0 inp = Some o -> wf_program (used_script inp o).
Proof.
  split; [vm_compute; reflexivity|]. split; [vm_compute; reflexivity|].
  eexists. split; [reflexivity|].
  intros o Ho. vm_compute in Ho. injection Ho as <-. intros _. left. vm_compute. discriminate.
Qed.

(* a committed redeem script is accepted (toy HASH160 is the identity: the program is the script) *)
Definition rsA : bytes := repeat x51 17 ++ [x76; x01; x02].    (* 20 bytes, mentions kA *)
Definition prevS : tx := Eval vm_compute in tx_of [in_of [] 0] [out_of ([xa9; x14] ++ rsA ++ [x87]) [x01]].
Definition idS : bytes := Eval vm_compute in txid prevS.
Definition pktS : vpacket := Eval vm_compute in
  mk_vpacket (tx_of [in_of idS 0] [out_of [] [x01]])
    [mk_vinput (Some prevS) None (Some rsA) None
       [Some (mk_vsig (Some kA) (toy_sig kA (toy_digest VLegacy (tx_of [] []) 0 rsA [] 1) 1))]
       idS 0].
Example committed_redeem_script_valid : TVI VsV0 pktS 0 = VOk true /\ TVI VsV2 pktS 0 = VOk true.
Proof. vm_compute. split; reflexivity. Qed.

(* the hypotheses of corruption_rejected are satisfiable (toy signatures are produced for one message) *)
Example toy_signed_only : forall k m m' s, toy_signed k m s -> toy_signed k m' s -> m = m'.
Proof. unfold toy_signed. intros k m m' s -> H. apply app_inv_head in H. exact H. Qed.

(* the hypotheses of valid_only_if are satisfiable: 33-byte keys, 20-byte hashes, a valid pay-to-pubkey input *)
Definition toy33_parse (pub : bytes) : option bytes := if (length pub =? 33)%nat then Some pub else None.
Definition toy20_hash (_ : bytes) : bytes := repeat x00 20.
Definition kL : bytes := repeat x02 33.
Definition spkL : bytes := [x21] ++ kL ++ [xac].               (* <33-byte key> OP_CHECKSIG *)
Definition prevL : tx := Eval vm_compute in tx_of [in_of [] 0] [out_of spkL [x01]].
Definition idL : bytes := Eval vm_compute in txid prevL.
Definition pktL : vpacket := Eval vm_compute in
  mk_vpacket (tx_of [in_of idL 0] [out_of [] [x01]])
    [mk_vinput (Some prevL) None None None
       [Some (mk_vsig (Some kL) (toy_sig kL (toy_digest VLegacy (tx_of [] []) 0 spkL [] 1) 1))] idL 0].
Example valid_only_if_hypotheses_hold :
  (forall pub ck, toy33_parse pub = Some ck -> length ck = 33%nat) /\
  (forall b, length (toy20_hash b) = 20%nat) /\
  vs_validate_input toy_digest toy33_parse toy_der_ok toy_verify toy20_hash VsV0 pktL 0 = VOk true /\
  vs_validate_input toy_digest toy33_parse toy_der_ok toy_verify toy20_hash VsV2 pktL 0 = VOk true.
Proof.
  split.
  - unfold toy33_parse. intros pub ck H. destruct (Nat.eqb_spec (length pub) 33); [|discriminate].
    injection H as <-. assumption.
  - split; [intro b; reflexivity|]. vm_compute. split; reflexivity.
Qed.

(* an empty script / the one-byte script OP_0 in the witness-utxo record *)
Definition pkt7 (s : bytes) : vpacket :=
  mk_vpacket (tx_of [in_of [] 0] [])
    [mk_vinput None (Some (out_of s [x01])) None None [Some (mk_vsig (Some kA) [x01])] [] 0].

(* index and slice expressions that are guarded by an error return (fixes a910e27, 1acccfe) *)
Definition pkt5 : vpacket := Eval vm_compute in
  mk_vpacket (tx_of [in_of idB 1] [])
    [mk_vinput (Some prevB) None None None [Some (mk_vsig (Some kA) [x01])] idB 1].
Definition pkt6 : vpacket := Eval vm_compute in
  mk_vpacket (tx_of [in_of idW 0] [])
    [mk_vinput (Some prevW) None None None [Some (mk_vsig (Some kW) [x01])] idW 0].
Example former_panics_are_errors :
  TVI VsV0 pkt5 0 = VErr /\ TVI VsV2 pkt5 0 = VErr /\                  (* outpoint index past the outputs *)
  TVI VsV0 pkt6 0 = VOk false /\ TVI VsV2 pkt6 0 = VOk false /\        (* P2WPKH described by the previous transaction only *)
  TVI VsV2 (mk_vpacket (tx_of [in_of [] 0] []) [mk_vinput None None None None [Some (mk_vsig (Some kA) [])] [] 0]) 0
    = VErr /\                                                          (* empty signature *)
  TVI VsV0 (pkt7 []) 0 = VErr /\ TVI VsV2 (pkt7 []) 0 = VErr /\         (* empty spent script *)
  TVI VsV0 (pkt7 [x00]) 0 = VErr /\ TVI VsV2 (pkt7 [x00]) 0 = VErr.     (* one-byte script OP_0 *)
Proof. vm_compute. repeat split. Qed.

(* outside the parsers' guarantees: a nil signature element, an index past the inputs (hand-built packets only) *)
Example panic_on_unparsed :
  TVI VsV0 (mk_vpacket (tx_of [in_of [] 0] []) [mk_vinput None None None None [None] [] 0]) 0 = VPanic VPSigNil /\
  TVI VsV0 (mk_vpacket (tx_of [] []) []) 0 = VPanic VPInputIndex.
Proof. vm_compute. repeat split. Qed.

(* the hypotheses of no_panic_on_accepted_packets are satisfiable *)
Example accepted_example : accepted pkt0 /\ (0 < length (svp_ins pkt0))%nat.
Proof.
  split; [|vm_compute; lia]. split; [reflexivity|].
  intros inp [<-|[]] s [<-|[]]. discriminate.
Qed.

Section Fields.
  Variable digest : valgo -> tx -> nat -> bytes -> bytes -> N -> bytes.
  Variable parse_pk : bytes -> option bytes.
  Variable der_ok : bytes -> bool.
  Variable verify : bytes -> bytes -> bytes -> bool.
  Variable hash160 : bytes -> bytes.
  Notation VI := (vs_validate_input digest parse_pk der_ok verify hash160).
  Notation HS := (vs_hash_and_script digest hash160).

  (* whatever the validator returns is a digest of this transaction and input *)
  Lemma hash_and_script_is_digest v p i inp ht d scr :
    HS v p i inp ht = VOk (d, scr) ->
    exists a c am, d = digest a (svp_tx p) i c am ht.
  Proof.
    intro H. apply hash_and_script_inv in H as (_ & o & _ & _ & Hc). cbv zeta in Hc.
    destruct Hc as [(_ & _ & ->)|[(_ & _ & _ & ->)|(_ & _ & _ & ->)]]; eexists; eexists; eexists; reflexivity.
  Qed.

  Variable signed : bytes -> bytes -> bytes -> Prop.
  Hypothesis ideal_sig : forall k m s, verify k m s = true -> signed k m s.
  (* C02's sensitivity, as a hypothesis: equal digests force equal algorithm, input index,
     script code, amount, hash type and equal covered transaction fields *)
  Variable same_covered : valgo -> N -> nat -> tx -> tx -> Prop.
  Hypothesis digest_sensitive : forall a t i c am ht a' t' i' c' am' ht',
    digest a t i c am ht = digest a' t' i' c' am' ht' ->
    a = a' /\ i = i' /\ c = c' /\ am = am' /\ ht = ht' /\ same_covered a ht i t t'.

  (* A signature that its key holder produced only for
     digest a0 t0 i0 c0 am0 ht0 is accepted in a packet only if the validator, on that packet,
     hashes the same algorithm, input index, script code, amount and hash type, over a
     transaction equal to t0 in every covered field: changing any of them (a covered field,
     the script or amount that end up hashed, the hash-type byte) gives invalid or an error. *)
  Theorem corruption_rejected_fields v p i inp pub sg ck last rder a0 t0 i0 c0 am0 ht0 :
    nth_error (svp_ins p) i = Some inp ->
    In (Some (mk_vsig (Some pub) sg)) (svi_sigs inp) ->
    parse_pk pub = Some ck -> rev sg = last :: rder ->
    (forall m, signed ck m (rev rder) -> m = digest a0 t0 i0 c0 am0 ht0) ->
    VI v p i = VOk true ->
    exists scr, HS v p i inp (n8 last) = VOk (digest a0 t0 i0 c0 am0 ht0, scr) /\
      i = i0 /\ n8 last = ht0 /\ same_covered a0 ht0 i0 t0 (svp_tx p) /\
      digest a0 t0 i0 c0 am0 ht0 = digest a0 (svp_tx p) i c0 am0 (n8 last).
  Proof.
    intros Hn Hin Hpk Hrev Honly H.
    destruct (valid_sig_inv digest parse_pk der_ok verify hash160 v p i inp pub sg ck last rder H Hn Hin Hpk Hrev)
      as (d & scr & E4 & E6).
    apply ideal_sig in E6. apply Honly in E6. subst d.
    destruct (hash_and_script_is_digest _ _ _ _ _ _ _ E4) as (a & c & am & Hd).
    destruct (digest_sensitive _ _ _ _ _ _ _ _ _ _ _ _ Hd) as (Ea & Ei & Ec & Eam & Eht & Hcov).
    subst a i0 c am. exists scr.
    split; [exact E4|]. split; [reflexivity|]. split; [symmetry; exact Eht|]. split; [exact Hcov|].
    exact Hd.
  Qed.
End Fields.

(* the law digest_sensitive is consistent: the tuple of the arguments is an injective digest that
   covers the whole transaction (same_covered := equality of the transactions).  Its codomain is
   that tuple type, not bytes, so this is the shape of the hypothesis and not an instance of
   Section Fields; a digest into bytes with this law is an ideal hash. *)
Example toy_digest_sensitive_instance :
  exists (dg : valgo -> tx -> nat -> bytes -> bytes -> N -> valgo * tx * nat * bytes * bytes * N),
    forall a t i c am ht a' t' i' c' am' ht',
      dg a t i c am ht = dg a' t' i' c' am' ht' ->
      a = a' /\ i = i' /\ c = c' /\ am = am' /\ ht = ht' /\ t = t'.
Proof.
  exists (fun a t i c am ht => (a, t, i, c, am, ht)).
  intros a t i c am ht a' t' i' c' am' ht' H. injection H as -> -> -> -> -> ->. repeat split.
Qed.
