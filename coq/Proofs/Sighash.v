(* Proofs/Sighash.v — what each signature hash covers (C02): the pre-image is a
   function of an explicit "covered view" of the transaction (frame), for all
   transactions, indexes and hash types, with no hypothesis on the hash function. *)
From GE Require Import Lib.Bytes Lib.Varint Lib.Sha256 Model.Tx Model.Sighash.
From Coq Require Import ZifyBool ZifyN ZifyNat.
Open Scope N_scope.

Lemma map_eq_compat {A B C} (f : A -> B) (g : A -> C) :
  (forall x y, f x = f y -> g x = g y) -> forall l l', map f l = map f l' -> map g l = map g l'.
Proof.
  intros K. induction l as [|x l IH]; intros [|y l'] E; try discriminate E; [reflexivity|].
  injection E as E1 E2. cbn [map]. rewrite (K _ _ E1), (IH _ E2). reflexivity.
Qed.

Lemma map_pair_eq {A B C} (f : A -> B) (g : A -> C) : forall l l',
  map f l = map f l' -> map g l = map g l' ->
  map (fun x => (f x, g x)) l = map (fun x => (f x, g x)) l'.
Proof.
  induction l as [|x l IH]; intros [|y l'] E G; try discriminate E; [reflexivity|].
  injection E as E1 E2. injection G as G1 G2. cbn [map]. rewrite E1, G1, (IH _ E2 G2). reflexivity.
Qed.

Lemma nth_error_map_idx {A} (f : nat -> A -> A) k l n :
  nth_error (map_idx f k l) n = option_map (f (k + n)%nat) (nth_error l n).
Proof.
  revert k n; induction l as [|a l IH]; intros k [|n]; cbn [map_idx nth_error option_map]; try reflexivity.
  - rewrite Nat.add_0_r. reflexivity.
  - rewrite IH. replace (S k + n)%nat with (k + S n)%nat by lia. reflexivity.
Qed.

Lemma map_idx_length {A} (f : nat -> A -> A) k l : length (map_idx f k l) = length l.
Proof. revert k; induction l as [|a l IH]; intro k; cbn; [reflexivity | rewrite IH; reflexivity]. Qed.

Lemma nth_zero_other_seqs idx ins : nth_error (zero_other_seqs idx ins) idx = nth_error ins idx.
Proof.
  unfold zero_other_seqs. rewrite nth_error_map_idx. cbn [Nat.add]. rewrite Nat.eqb_refl.
  destruct (nth_error ins idx); reflexivity.
Qed.

Definition in_outpoint (i : txin) : bytes * N := (in_hash i, in_index i).
Definition out_base (o : txout) : bytes * bytes * bytes * bytes := (o_asset o, o_value o, o_nonce o, o_script o).
Definition out_proofs (o : txout) : bytes * bytes := (o_rp o, o_sp o).
Definition in_proofs (i : txin) : bytes * bytes := (in_irp i, in_inrp i).

Lemma enc_list_view {A B} (e : A -> bytes) (v : A -> B) :
  (forall a b, v a = v b -> e a = e b) -> forall l l', map v l = map v l' -> enc_list e l = enc_list e l'.
Proof. intros K l l' E. unfold enc_list. rewrite (map_eq_compat v e K l l' E). reflexivity. Qed.

Lemma ser_prevouts_view l l' : map in_outpoint l = map in_outpoint l' -> ser_prevouts l = ser_prevouts l'.
Proof. apply (enc_list_view _ in_outpoint). intros a b E. injection E as E1 E2. unfold ser_prevout. congruence. Qed.
Lemma ser_sequences_view l l' : map in_seq l = map in_seq l' -> ser_sequences l = ser_sequences l'.
Proof. apply (enc_list_view _ in_seq). intros a b E. cbv beta. rewrite E. reflexivity. Qed.
Lemma ser_issuances_view l l' : map in_iss l = map in_iss l' -> ser_issuances l = ser_issuances l'.
Proof. apply (enc_list_view _ in_iss). intros a b E. unfold ser_iss_or_zero. rewrite E. reflexivity. Qed.
Lemma ser_outputs_view l l' : map out_base l = map out_base l' -> ser_outputs l = ser_outputs l'.
Proof. apply (enc_list_view _ out_base). intros a b E. injection E as E1 E2 E3 E4. unfold ser_out. congruence. Qed.
Lemma ser_rangeproofs_view l l' : map out_proofs l = map out_proofs l' -> ser_rangeproofs l = ser_rangeproofs l'.
Proof. apply (enc_list_view _ out_proofs). intros a b E. injection E as E1 E2. unfold ser_out_proofs_rs. congruence. Qed.
Lemma ser_out_witnesses_view l l' : map out_proofs l = map out_proofs l' -> ser_out_witnesses l = ser_out_witnesses l'.
Proof. apply (enc_list_view _ out_proofs). intros a b E. injection E as E1 E2. cbv beta. congruence. Qed.
Lemma ser_flags_view l l' : map input_flag l = map input_flag l' -> ser_flags l = ser_flags l'.
Proof. apply (enc_list_view _ input_flag). intros a b E. cbv beta. rewrite E. reflexivity. Qed.
Lemma ser_issuance_proofs_view l l' : map in_proofs l = map in_proofs l' -> ser_issuance_proofs l = ser_issuance_proofs l'.
Proof. apply (enc_list_view _ in_proofs). intros a b E. injection E as E1 E2. cbv beta. congruence. Qed.

(* a hash that is written only when b is false, over a list read through v *)
Lemma if_view {A B} (b : bool) (v : list A -> B) (e : list A -> bytes) (H : bytes -> bytes) z d l l' :
  (forall l l', v l = v l' -> e l = e l') -> (if b then d else v l) = (if b then d else v l') ->
  (if b then z else H (e l)) = (if b then z else H (e l')).
Proof. destruct b; [reflexivity|]. intros K E. rewrite (K _ _ E). reflexivity. Qed.

Lemma option_map_eq {A B} (f : A -> B) (g : A -> bytes) (a b : option A) (d : bytes) :
  (forall x y, f x = f y -> g x = g y) -> option_map f a = option_map f b ->
  match a with Some l => g l | None => d end = match b with Some l => g l | None => d end.
Proof. intros Hg E. destruct a, b; cbn in E; try discriminate; [injection E as E; apply Hg; exact E | reflexivity]. Qed.

Definition view_v0 (t : tx) (idx : nat) (ht : N) :=
  match nth_error (t_ins t) idx with
  | None => None
  | Some own =>
      Some (t_version t, t_locktime t,
            (in_hash own, in_index own, in_seq own, in_iss own),
            (if ht_acp ht then [] else map in_outpoint (t_ins t)),
            (if ht_acp ht || (ht_single ht || ht_none ht) then [] else map in_seq (t_ins t)),
            (if ht_acp ht then [] else map in_iss (t_ins t)),
            option_map (map out_base) (covered_outs t idx ht),
            (if ht_rp ht then option_map (map out_proofs) (covered_outs t idx ht) else None))
  end.

Theorem v0_frame (H2 : bytes -> bytes) t t' idx script value ht :
  view_v0 t idx ht = view_v0 t' idx ht ->
  preimage_v0 H2 t idx script value ht = preimage_v0 H2 t' idx script value ht.
Proof.
  unfold view_v0, preimage_v0.
  destruct (nth_error (t_ins t) idx) as [own|], (nth_error (t_ins t') idx) as [own'|]; try discriminate; [|reflexivity].
  intro E. injection E as Ev El Eh Ei Es Eiss Ep Eq Er Eo Erp.
  unfold own_input_v0. rewrite Ev, El, Eh, Ei, Es, Eiss.
  rewrite (if_view _ _ _ H2 zero32 _ _ _ ser_prevouts_view Ep), (if_view _ _ _ H2 zero32 _ _ _ ser_sequences_view Eq),
          (if_view _ _ _ H2 zero32 _ _ _ ser_issuances_view Er).
  rewrite (option_map_eq (map out_base) (fun l => H2 (ser_outputs l)) _ _ zero32
             (fun x y E => f_equal H2 (ser_outputs_view x y E)) Eo).
  destruct (ht_rp ht); [|reflexivity].
  rewrite (option_map_eq (map out_proofs) (fun l => H2 (ser_rangeproofs l)) _ _ zero32
             (fun x y E => f_equal H2 (ser_rangeproofs_view x y E)) Erp). reflexivity.
Qed.

(* what the ANYONECANPAY and sequence rows of Props/C02 ask of the signing input *)
Definition same_own (t t' : tx) (idx : nat) : Prop :=
  exists own own', nth_error (t_ins t) idx = Some own /\ nth_error (t_ins t') idx = Some own' /\
    in_hash own = in_hash own' /\ in_index own = in_index own' /\ in_seq own = in_seq own' /\ in_iss own = in_iss own'.

Lemma covered_outs_base t t' idx ht : map out_base (t_outs t) = map out_base (t_outs t') ->
  option_map (map out_base) (covered_outs t idx ht) = option_map (map out_base) (covered_outs t' idx ht).
Proof.
  intro Eo. unfold covered_outs. destruct (negb (ht_single ht || ht_none ht)); [cbn; rewrite Eo; reflexivity|].
  destruct (ht_single ht); [|reflexivity].
  pose proof (f_equal (fun l => nth_error l idx) Eo) as N. cbn beta in N. rewrite !nth_error_map in N.
  destruct (nth_error (t_outs t) idx), (nth_error (t_outs t') idx); cbn in N |- *; congruence.
Qed.

Definition covered_outs_v1 (t : tx) (idx : nat) (ht : N) : option (list txout) :=
  let ot := v1_out_type ht in
  if negb (ot =? 2) && negb (ot =? 3) then Some (t_outs t)
  else if ot =? 3 then match nth_error (t_outs t) idx with Some o => Some [o] | None => None end
  else None.

Definition view_v1 (t : tx) (idx : nat) (a : v1_args) (ht : N) :=
  match nth_error (t_ins t) idx with
  | None => None
  | Some own =>
      Some (t_version t, t_locktime t, v1_genesis a, v1_leaf a, v1_annex a,
            (if v1_acp ht
             then Some (input_flag own, in_hash own, in_index own, in_seq own, in_iss own,
                        match in_iss own with Some _ => Some (in_proofs own) | None => None end,
                        nth_error (v1_assets a) idx, nth_error (v1_values a) idx, nth_error (v1_scripts a) idx)
             else None),
            (if v1_acp ht then None
             else Some (map input_flag (t_ins t), map in_outpoint (t_ins t), v1_assets a, v1_values a, v1_scripts a,
                        map in_seq (t_ins t), map in_iss (t_ins t), map in_proofs (t_ins t))),
            option_map (map out_base) (covered_outs_v1 t idx ht),
            option_map (map out_proofs) (covered_outs_v1 t idx ht))
  end.

(* the two output hashes of the taproot pre-image, over the covered outputs; they stand in
   the "all outputs" position unless the output type is SINGLE, else in the "single" position *)
Definition outs_hashes (H1 : bytes -> bytes) (o : option (list txout)) : bytes :=
  match o with Some l => H1 (ser_outputs l) ++ H1 (ser_out_witnesses l) | None => [] end.

Lemma v1_outs_all_cov H1 t idx ht :
  v1_outs_all H1 t ht = if v1_out_type ht =? 3 then [] else outs_hashes H1 (covered_outs_v1 t idx ht).
Proof.
  unfold v1_outs_all, covered_outs_v1.
  destruct (v1_out_type ht =? 2), (v1_out_type ht =? 3); reflexivity.
Qed.

Lemma v1_outs_single_cov H1 t idx ht :
  v1_outs_single H1 t idx ht = if v1_out_type ht =? 3 then outs_hashes H1 (covered_outs_v1 t idx ht) else [].
Proof.
  unfold v1_outs_single, covered_outs_v1.
  destruct (v1_out_type ht =? 3); [|reflexivity]. rewrite andb_false_r.
  destruct (nth_error (t_outs t) idx); reflexivity.
Qed.

Lemma outs_hashes_view H1 o o' :
  option_map (map out_base) o = option_map (map out_base) o' ->
  option_map (map out_proofs) o = option_map (map out_proofs) o' -> outs_hashes H1 o = outs_hashes H1 o'.
Proof.
  destruct o as [l|], o' as [l'|]; cbn; intros A B; try discriminate A; [|reflexivity].
  injection A as A. injection B as B.
  rewrite (ser_outputs_view _ _ A), (ser_out_witnesses_view _ _ B). reflexivity.
Qed.

Theorem v1_frame (H1 : bytes -> bytes) t t' idx a a' ht :
  view_v1 t idx a ht = view_v1 t' idx a' ht ->
  preimage_v1 H1 t idx a ht = preimage_v1 H1 t' idx a' ht.
Proof.
  unfold view_v1, preimage_v1.
  destruct (nth_error (t_ins t) idx) as [own|], (nth_error (t_ins t') idx) as [own'|]; try discriminate; [|reflexivity].
  intro E. injection E as Ev El Eg Elf Ean Eown Eins Eob Eop.
  rewrite (v1_outs_all_cov H1 t idx), (v1_outs_all_cov H1 t' idx), !v1_outs_single_cov,
          (outs_hashes_view H1 _ _ Eob Eop).
  unfold v1_spend_type, v1_ins_part, v1_own_part. rewrite Ev, El, Eg, Elf, Ean.
  destruct (v1_acp ht).
  - injection Eown as F Hh Hi Hs Hiss Hp A V S. rewrite A, V, S, F, Hh, Hi, Hs.
    destruct (nth_error (v1_assets a') idx), (nth_error (v1_values a') idx), (nth_error (v1_scripts a') idx); try reflexivity.
    rewrite Hiss in Hp |- *. destruct (in_iss own'); [|reflexivity].
    injection Hp as P1 P2. unfold ser_issuance_proofs, enc_list. cbn [map concat]. rewrite P1, P2. reflexivity.
  - injection Eins as F P A V S Q I R. rewrite A, V, S.
    rewrite (ser_flags_view _ _ F), (ser_prevouts_view _ _ P), (ser_sequences_view _ _ Q),
            (ser_issuances_view _ _ I), (ser_issuance_proofs_view _ _ R). reflexivity.
Qed.

(* legacy: what the signature form of the hashed copy writes; rp says whether the output proofs are included *)
Definition sig_in_view (i : txin) := (in_hash i, raw_index i, in_script i, in_seq i, in_iss i).
Definition sig_view (rp : bool) (c : tx) :=
  (t_version c, t_locktime c, map sig_in_view (t_ins c),
   map out_base (t_outs c), if rp then map out_proofs (t_outs c) else []).

(* the two counts are rewritten as lengths of the mapped lists, so that Ei and Eo apply to them *)
Lemma ser_sig_view rp c c' : sig_view rp c = sig_view rp c' ->
  ser_tx false true true rp c = ser_tx false true true rp c'.
Proof.
  unfold sig_view. intro E. injection E as Ev El Ei Eo Ep.
  unfold ser_tx, lenL. cbn [andb negb]. rewrite Ev, El.
  rewrite <- (map_length sig_in_view (t_ins c)), <- (map_length out_base (t_outs c)), Ei, Eo, !map_length.
  rewrite (enc_list_view ser_in sig_in_view) with (l' := t_ins c'); [|clear; intros i i' E|exact Ei].
  2:{ injection E as E1 E2 E3 E4 E5. unfold ser_in. rewrite E1, E2, E3, E4, E5. reflexivity. }
  destruct rp.
  - rewrite (enc_list_view (ser_out false true) (fun o => (out_base o, out_proofs o))) with (l' := t_outs c');
      [reflexivity | clear; intros o o' E | exact (map_pair_eq _ _ _ _ Eo Ep)].
    injection E as E1 E2 E3 E4 E5 E6. unfold ser_out. congruence.
  - fold (ser_outputs (t_outs c)). rewrite (ser_outputs_view _ _ Eo). reflexivity.
Qed.

(* The legacy view is the view of the copy that is serialized: legacy_frame says that the pre-image
   reads the copy through sig_view and nothing else.  Which fields of t reach the copy, hash type by
   hash type, is what the corollaries below and the legacy rows of Props/C02.v say. *)
Definition view_legacy (t : tx) (idx : nat) (script : bytes) (ht : N) :=
  option_map (sig_view (ht_rp ht)) (legacy_tx t idx script ht).

Theorem legacy_frame t t' idx script ht :
  view_legacy t idx script ht = view_legacy t' idx script ht ->
  preimage_legacy t idx script ht = preimage_legacy t' idx script ht.
Proof.
  unfold view_legacy, preimage_legacy.
  destruct (legacy_tx t idx script ht) as [c|], (legacy_tx t' idx script ht) as [c'|]; cbn [option_map]; try discriminate; [|reflexivity].
  intro E. f_equal. f_equal. apply ser_sig_view. congruence.
Qed.

(* other inputs under ANYONECANPAY (legacy): only the signing input, the outputs, version and locktime matter.
   The hypothesis that the signing input exists is not used: without it both sides are None. *)
Corollary legacy_anyonecanpay_ignores_other_inputs t t' idx script ht :
  ht_acp ht = true ->
  nth_error (t_ins t) idx = nth_error (t_ins t') idx -> nth_error (t_ins t) idx <> None ->
  t_version t = t_version t' -> t_locktime t = t_locktime t' -> t_outs t = t_outs t' ->
  preimage_legacy t idx script ht = preimage_legacy t' idx script ht.
Proof.
  intros A N _ Ev El Eo. apply legacy_frame. unfold view_legacy, legacy_tx.
  rewrite <- N. destruct (nth_error (t_ins t) idx) as [own|] eqn:EN; [|reflexivity].
  rewrite A, Eo, Ev, El.
  destruct (ht_none ht).
  - rewrite !nth_zero_other_seqs, <- N, EN. reflexivity.
  - destruct (ht_single ht).
    + destruct (length (t_outs t') <=? idx)%nat; [reflexivity|].
      rewrite !nth_zero_other_seqs, <- N, EN. reflexivity.
    + rewrite <- N, EN. reflexivity.
Qed.

Lemma map_blank_out_eq l l' : length l = length l' -> map blank_out l = map blank_out l'.
Proof.
  revert l'; induction l as [|x l IH]; intros [|y l'] L; try discriminate; [reflexivity|].
  cbn [map]. injection L as L. rewrite (IH l' L). reflexivity.
Qed.

(* for the row "output proofs without the RANGEPROOF bit": the hashed copies of two transactions that
   differ in output proofs only have the same view (or both do not exist) *)
Lemma legacy_tx_outs_base t t' idx script ht :
  t_version t = t_version t' -> t_locktime t = t_locktime t' -> t_ins t = t_ins t' ->
  map out_base (t_outs t) = map out_base (t_outs t') ->
  option_map (sig_view false) (legacy_tx t idx script ht) = option_map (sig_view false) (legacy_tx t' idx script ht).
Proof.
  intros Ev El Ei Eo. unfold legacy_tx. rewrite <- Ei, <- Ev, <- El.
  assert (LL : length (t_outs t') = length (t_outs t)) by (rewrite <- (map_length out_base), <- Eo, map_length; reflexivity).
  rewrite LL. destruct (nth_error (t_ins t) idx); [|reflexivity].
  destruct (ht_none ht); [reflexivity|].
  destruct (ht_single ht).
  - destruct (length (t_outs t) <=? idx)%nat; [reflexivity|].
    unfold sig_view. cbn [option_map t_version t_locktime t_ins t_outs]. rewrite !map_app.
    rewrite (map_blank_out_eq (firstn idx (t_outs t)) (firstn idx (t_outs t'))) by (rewrite !firstn_length, LL; reflexivity).
    rewrite <- !firstn_map, <- !skipn_map, Eo. reflexivity.
  - unfold sig_view. cbn [option_map t_version t_locktime t_ins t_outs]. rewrite Eo. reflexivity.
Qed.
