(* Proofs/SighashReparse.v — the legacy pre-image does not read the witness flag of the transaction
   object (the other two never mention it).  With the codec theorem of C01 this is what Props/C03 needs
   to show that a transaction read back from its own serialization has the pre-images of the object it
   was serialized from. *)
From GE Require Import Lib.Bytes Lib.Varint Model.Tx Model.Sighash.
Open Scope N_scope.

(* the legacy copy carries the flag along, but its signature form does not write it *)
Lemma preimage_legacy_flag v f f' l i o idx script ht :
  preimage_legacy (mk_tx v f l i o) idx script ht = preimage_legacy (mk_tx v f' l i o) idx script ht.
Proof.
  unfold preimage_legacy, legacy_tx. cbn [t_ins t_outs t_version t_flag t_locktime].
  destruct (nth_error i idx); [|reflexivity].
  destruct (ht_none ht); [reflexivity|].
  destruct (ht_single ht); [|reflexivity].
  destruct (length o <=? idx)%nat; reflexivity.
Qed.

(* non-vacuity: a witness transaction with flag 0 is well-formed, parses back with flag 1 *)
Example reparsed_example :
  let i := mk_in (repeat x00 32) 0 0xffffffff [] [[x01]] false [] None [] [] in
  let o := mk_out (b8 1 :: repeat x00 32) (b8 1 :: repeat x00 8) [] [x00] [] [] in
  let t := mk_tx 2 0 0 [i] [o] in
  wf_tx t = true /\ parse_tx (ser_full t) = Some (norm_tx t, []) /\ t_flag (norm_tx t) = 1.
Proof. vm_compute. repeat split. Qed.
