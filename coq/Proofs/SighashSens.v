(* Proofs/SighashSens.v — the converse of the frame theorems (C02): equal pre-images force equal
   covered views, i.e. every covered field changes the pre-image; for segwit v0 and taproot under an
   ideal hash (injective, 32-byte output, for v0 never the all-zero word), for legacy outright.
   Every pre-image is a concatenation of parts each of which is either of fixed width or read back by
   a parser, so that two equal pre-images can be taken apart part by part from the left. *)
From GE Require Import Lib.Bytes Lib.Varint Lib.Sha256 Model.Tx Model.Sighash Proofs.TxCodec Proofs.Sighash.
From Coq Require Import ZifyBool ZifyN ZifyNat.
Open Scope N_scope.

Lemma app_inv_len_tail {A} (a a' b b' : list A) : length b = length b' -> a ++ b = a' ++ b' -> a = a' /\ b = b'.
Proof.
  intros L E. apply app_eq_len; [|exact E].
  apply (f_equal (@length A)) in E. rewrite !app_length in E. lia.
Qed.

Lemma cons_inj {A} (x y : A) l l' : x :: l = y :: l' -> x = y /\ l = l'.
Proof. intro E. injection E as E1 E2. split; assumption. Qed.

Lemma parse_prefix_inj {B} (p : parser B) x x' y y' r r' :
  p (x ++ r) = Some (y, r) -> p (x' ++ r') = Some (y', r') -> x ++ r = x' ++ r' -> y = y' /\ r = r'.
Proof. intros P P' E. rewrite E in P. rewrite P in P'. injection P' as -> ->. split; reflexivity. Qed.

(* injection and discriminate would otherwise look into the four bytes of a 32-bit field *)
Local Opaque le_enc.

Lemma le4_peel a b r r' : a < two32 -> b < two32 -> le_enc 4 a ++ r = le_enc 4 b ++ r' -> a = b /\ r = r'.
Proof.
  intros A B E. apply app_eq_len in E as [E1 E2]; [|rewrite !le_enc_length; reflexivity].
  split; [exact (le_enc_inj 4 a b A B E1) | exact E2].
Qed.

Lemma var_slice_peel x x' r r' : lenN x < two64 -> lenN x' < two64 ->
  var_slice x ++ r = var_slice x' ++ r' -> x = x' /\ r = r'.
Proof. intros L L'. apply (parse_prefix_inj p_var_slice); apply p_var_slice_app; assumption. Qed.

Lemma value_peel x x' r r' : is_value x = true -> is_value x' = true -> x ++ r = x' ++ r' -> x = x' /\ r = r'.
Proof. intros V V'. apply (parse_prefix_inj p_value); apply p_value_app; assumption. Qed.

Lemma asset_peel x x' r r' : is_asset x = true -> is_asset x' = true -> x ++ r = x' ++ r' -> x = x' /\ r = r'.
Proof. intros V V'. apply (parse_prefix_inj p_asset); apply p_asset_app; assumption. Qed.

Lemma iss_peel s s' r r' : wf_iss s = true -> wf_iss s' = true -> ser_iss s ++ r = ser_iss s' ++ r' -> s = s' /\ r = r'.
Proof. intros W W'. apply (parse_prefix_inj p_issuance); apply p_issuance_app; assumption. Qed.

(* e is self-delimiting on W as far as f can see: whatever follows an encoding, f of the encoded
   value and what follows are determined *)
Definition delimits {A B} (e : A -> bytes) (f : A -> B) (W : A -> Prop) : Prop :=
  forall x x' r r', W x -> W x' -> e x ++ r = e x' ++ r' -> f x = f x' /\ r = r'.

Lemma delimits_parse {A B} (p : parser B) (e : A -> bytes) (f : A -> B) (W : A -> Prop) :
  (forall x r, W x -> p (e x ++ r) = Some (f x, r)) -> delimits e f W.
Proof. intros P x x' r r' Wx Wx'. apply (parse_prefix_inj p); apply P; assumption. Qed.

Lemma slices_delimit {A} (g h : A -> bytes) (W : A -> Prop) :
  (forall x, W x -> lenN (g x) < two64 /\ lenN (h x) < two64) ->
  delimits (fun x => var_slice (g x) ++ var_slice (h x)) (fun x => (g x, h x)) W.
Proof.
  intros K x x' r r' Wx Wx' E. rewrite <- !app_assoc in E.
  apply var_slice_peel in E as [E1 E]; [|apply K; assumption..].
  apply var_slice_peel in E as [E2 E]; [|apply K; assumption..].
  rewrite E1, E2. split; [reflexivity | exact E].
Qed.

(* as many encodings on both sides, followed by anything *)
Lemma enc_list_peel {A B} (e : A -> bytes) (f : A -> B) (W : A -> Prop) : delimits e f W ->
  forall l l' r r', length l = length l' -> Forall W l -> Forall W l' ->
  enc_list e l ++ r = enc_list e l' ++ r' -> map f l = map f l' /\ r = r'.
Proof.
  intros D. unfold enc_list.
  induction l as [|a l IH]; intros [|a' l'] r r' L F F' E; try discriminate L; cbn [map concat app] in E |- *.
  - split; [reflexivity | exact E].
  - inversion F as [|? ? Wa Fl]. inversion F' as [|? ? Wa' Fl']. subst. rewrite <- !app_assoc in E.
    destruct (D a a' _ _ Wa Wa' E) as [E1 E2]. injection L as L.
    destruct (IH l' r r' L Fl Fl' E2) as [E3 E4]. rewrite E1, E3. split; [reflexivity | exact E4].
Qed.

(* nothing follows: non-empty encodings give the number of elements *)
Lemma enc_list_inj {A B} (e : A -> bytes) (f : A -> B) (W : A -> Prop) :
  delimits e f W -> (forall a, W a -> e a <> []) -> forall l l', Forall W l -> Forall W l' ->
  enc_list e l = enc_list e l' -> map f l = map f l'.
Proof.
  intros D Hne. unfold enc_list.
  induction l as [|a l IH]; intros [|a' l'] F F' E; cbn [map concat] in E |- *.
  - reflexivity.
  - symmetry in E. apply app_eq_nil in E as [E _]. inversion F' as [|? ? Wa _]. destruct (Hne a' Wa E).
  - apply app_eq_nil in E as [E _]. inversion F as [|? ? Wa _]. destruct (Hne a Wa E).
  - inversion F as [|? ? Wa Fl]. inversion F' as [|? ? Wa' Fl']. subst.
    destruct (D a a' _ _ Wa Wa' E) as [E1 E2]. rewrite E1, (IH l' Fl Fl' E2). reflexivity.
Qed.

Lemma slices_nonempty (x y : bytes) : var_slice x ++ y <> [].
Proof. intro E. apply app_eq_nil in E as [E _]. exact (var_slice_nonempty _ E). Qed.

Notation WfIn := (fun i : txin => wf_in i = true).
Notation WfOut := (fun o : txout => wf_out o = true).

Lemma ser_iss_nonempty s : wf_iss s = true -> ser_iss s <> [].
Proof.
  unfold wf_iss, ser_iss. intros W E. rewrite !andb_true_iff in W. destruct W as [[[A _] _] _].
  apply app_eq_nil in E as [E _]. rewrite E in A. discriminate A.
Qed.

Definition iss_opt_bytes (o : option issuance) : bytes := match o with Some s => ser_iss s | None => [] end.
Definition wf_iss_opt (o : option issuance) : Prop := match o with Some s => wf_iss s = true | None => True end.

Lemma iss_opt_bytes_inj o o' : wf_iss_opt o -> wf_iss_opt o' -> iss_opt_bytes o = iss_opt_bytes o' -> o = o'.
Proof.
  destruct o as [s|], o' as [s'|]; cbn; intros W W' E.
  - f_equal. rewrite <- (app_nil_r (ser_iss s)), <- (app_nil_r (ser_iss s')) in E.
    apply iss_peel in E as [E _]; assumption.
  - destruct (ser_iss_nonempty s W E).
  - destruct (ser_iss_nonempty s' W' (eq_sym E)).
  - reflexivity.
Qed.

Lemma wf_in_iss i : wf_in i = true -> wf_iss_opt (in_iss i).
Proof.
  intro W. apply wf_in_parts in W as (_ & _ & _ & C & _).
  destruct (in_iss i) as [s|] eqn:E; [|exact I]. cbn.
  destruct (in_index i =? MinusOne).
  - apply andb_true_iff in C as [_ C]. discriminate.
  - rewrite !andb_true_iff in C. destruct C as [_ C]. exact C.
Qed.

(* the hashed issuance list: one 0x00 for "none", the issuance otherwise.  This concatenation is not
   self-delimiting in general (an issuance may itself begin with 0x00); it is injective for lists with the
   same presence pattern, and lists of different total length never collide — which is what any
   single-field perturbation gives. *)
Definition same_iss_pattern (l l' : list txin) : Prop :=
  Forall2 (fun i i' => (in_iss i = None <-> in_iss i' = None)) l l'.

Lemma ser_issuances_inj l l' : Forall WfIn l -> Forall WfIn l' ->
  same_iss_pattern l l' \/ length (ser_issuances l) <> length (ser_issuances l') ->
  ser_issuances l = ser_issuances l' -> map in_iss l = map in_iss l'.
Proof.
  intros F F' [P|P] E; [|destruct P; rewrite E; reflexivity].
  revert F F' E. unfold ser_issuances, enc_list.
  induction P as [|i i' l l' Hp P IH]; intros F F' E; [reflexivity|].
  inversion F as [|? ? Wi Fl]. inversion F' as [|? ? Wi' Fl']. subst.
  apply wf_in_iss in Wi, Wi'. cbn [map concat] in E |- *. unfold ser_iss_or_zero at 1 3 in E.
  revert Hp Wi Wi' E. destruct (in_iss i) as [s|], (in_iss i') as [s'|]; cbn; intros Hp Wi Wi' E.
  - apply iss_peel in E as [-> E]; [|assumption..]. rewrite (IH Fl Fl' E). reflexivity.
  - destruct Hp as [_ Hp]. discriminate (Hp eq_refl).
  - destruct Hp as [Hp _]. discriminate (Hp eq_refl).
  - injection E as E. rewrite (IH Fl Fl' E). reflexivity.
Qed.

(* the other hashed lists: the converses of the _view lemmas of Proofs/Sighash.v *)
Lemma ser_prevouts_inj l l' : Forall WfIn l -> Forall WfIn l' ->
  ser_prevouts l = ser_prevouts l' -> map in_outpoint l = map in_outpoint l'.
Proof.
  apply (enc_list_inj ser_prevout in_outpoint).
  - intros i i' r r' W W' E. unfold ser_prevout in E. rewrite <- !app_assoc in E.
    apply app_eq_len in E as [E1 E]; [|rewrite !wf_in_hash_len by assumption; reflexivity].
    apply le4_peel in E as [E2 E]; [|apply wf_in_index_lt; assumption..].
    unfold in_outpoint. rewrite E1, E2. split; [reflexivity | exact E].
  - intros i _ E. apply (f_equal (@length byte)) in E. unfold ser_prevout in E.
    rewrite app_length, le_enc_length in E. cbn in E. lia.
Qed.

Lemma ser_sequences_inj l l' : Forall WfIn l -> Forall WfIn l' ->
  ser_sequences l = ser_sequences l' -> map in_seq l = map in_seq l'.
Proof.
  apply (enc_list_inj (fun i => le_enc 4 (in_seq i)) in_seq).
  - intros i i' r r' W W'. apply le4_peel; apply wf_in_seq_lt; assumption.
  - intros i _ E. apply (f_equal (@length byte)) in E. rewrite le_enc_length in E. discriminate E.
Qed.

Lemma input_flag_lt i : input_flag i < 256.
Proof. unfold input_flag. destruct (in_iss i), (in_pegin i); lia. Qed.

Lemma ser_flags_inj l l' : ser_flags l = ser_flags l' -> map input_flag l = map input_flag l'.
Proof.
  apply (enc_list_inj (fun i => [b8 (input_flag i)]) input_flag (fun _ => True)).
  - intros i i' r r' _ _ E. injection E as E1 E2.
    split; [exact (b8_small_inj _ _ (input_flag_lt i) (input_flag_lt i') E1) | exact E2].
  - intros i _ E. discriminate E.
  - apply Forall_forall. intros; exact I.
  - apply Forall_forall. intros; exact I.
Qed.

Lemma ser_issuance_proofs_inj l l' : Forall WfIn l -> Forall WfIn l' ->
  ser_issuance_proofs l = ser_issuance_proofs l' -> map in_proofs l = map in_proofs l'.
Proof.
  apply (enc_list_inj _ in_proofs).
  - apply (slices_delimit in_irp in_inrp). intros i W. apply wf_in_parts in W as (_ & _ & _ & _ & H1 & H2 & _). split; assumption.
  - intros i _. apply slices_nonempty.
Qed.

Lemma ser_scripts_inj l l' : Forall (fun x => lenN x < two64) l -> Forall (fun x => lenN x < two64) l' ->
  ser_scripts l = ser_scripts l' -> l = l'.
Proof.
  intros F F' E. rewrite <- (map_id l), <- (map_id l'). revert E.
  apply (enc_list_inj var_slice (fun x => x) (fun x => lenN x < two64)); try assumption.
  - intros x x' r r'. apply var_slice_peel.
  - intros x _. apply var_slice_nonempty.
Qed.

Lemma strip_base o o' : strip_out o = strip_out o' -> out_base o = out_base o'.
Proof. unfold strip_out, out_base. intro E. injection E as A B C D. congruence. Qed.

Lemma ser_outputs_inj l l' : Forall WfOut l -> Forall WfOut l' ->
  ser_outputs l = ser_outputs l' -> map out_base l = map out_base l'.
Proof.
  intros F F' E. apply (map_eq_compat strip_out out_base strip_base). revert E.
  apply (enc_list_inj _ strip_out WfOut); try assumption.
  - apply (delimits_parse p_out). intros o r W. apply p_out_app, W.
  - intros o W. apply ser_out_nonempty, W.
Qed.

Lemma ser_rangeproofs_inj l l' : Forall WfOut l -> Forall WfOut l' ->
  ser_rangeproofs l = ser_rangeproofs l' -> map out_proofs l = map out_proofs l'.
Proof.
  apply (enc_list_inj _ out_proofs).
  - apply (slices_delimit o_rp o_sp). exact wf_out_slices.
  - intros o _. apply slices_nonempty.
Qed.

Lemma ser_out_witnesses_inj l l' : Forall WfOut l -> Forall WfOut l' ->
  ser_out_witnesses l = ser_out_witnesses l' -> map out_proofs l = map out_proofs l'.
Proof.
  intros F F' E. apply (map_eq_compat (fun o => (o_sp o, o_rp o)) out_proofs).
  { intros o o' X. injection X as X1 X2. unfold out_proofs. rewrite X1, X2. reflexivity. }
  revert E. apply (enc_list_inj _ _ WfOut); try assumption.
  - apply (slices_delimit o_sp o_rp). intros o W. apply wf_out_slices in W. tauto.
  - intros o _. apply slices_nonempty.
Qed.

Lemma covered_outs_wf t idx ht l : Forall WfOut (t_outs t) -> covered_outs t idx ht = Some l -> Forall WfOut l.
Proof.
  intro F. unfold covered_outs. destruct (negb _); [intro E; injection E as <-; exact F|].
  destruct (ht_single ht); [|discriminate]. destruct (nth_error (t_outs t) idx) as [o|] eqn:N; [|discriminate].
  intro E. injection E as <-. constructor; [exact (Forall_nth_error _ _ _ _ F N) | constructor].
Qed.

Lemma covered_outs_v1_wf t idx ht l : Forall WfOut (t_outs t) -> covered_outs_v1 t idx ht = Some l -> Forall WfOut l.
Proof.
  intro F. unfold covered_outs_v1. destruct (negb _ && negb _); [intro E; injection E as <-; exact F|].
  destruct (_ =? 3); [|discriminate]. destruct (nth_error (t_outs t) idx) as [o|] eqn:N; [|discriminate].
  intro E. injection E as <-. constructor; [exact (Forall_nth_error _ _ _ _ F N) | constructor].
Qed.

(* the signing input of the segwit-v0 pre-image: the optional issuance at its end is delimited by
   the fixed width of what follows *)
Lemma own_input_v0_inj own own' s s' v v' r r' :
  wf_in own = true -> wf_in own' = true -> lenN s < two64 -> lenN s' < two64 ->
  is_value v = true -> is_value v' = true -> length r = length r' ->
  own_input_v0 own s v ++ r = own_input_v0 own' s' v' ++ r' ->
  (in_hash own, in_index own, in_seq own, in_iss own) = (in_hash own', in_index own', in_seq own', in_iss own') /\
  s = s' /\ v = v' /\ r = r'.
Proof.
  intros W W' Ls Ls' V V' L E. unfold own_input_v0 in E. rewrite <- !app_assoc in E.
  apply app_eq_len in E as [E1 E]; [|rewrite !wf_in_hash_len by assumption; reflexivity].
  apply le4_peel in E as [E2 E]; [|apply wf_in_index_lt; assumption..].
  apply var_slice_peel in E as [E3 E]; [|assumption..].
  apply value_peel in E as [E4 E]; [|assumption..].
  apply le4_peel in E as [E5 E]; [|apply wf_in_seq_lt; assumption..].
  apply app_inv_len_tail in E as [E6 E]; [|exact L].
  apply iss_opt_bytes_inj in E6; [|apply wf_in_iss; assumption..].
  rewrite E1, E2, E5, E6. repeat split; assumption.
Qed.

(* The hypotheses on the hash.  H_len: the hash slots of the pre-image are cut out by their width.
   H_nonzero: a slot that is not covered holds zero32, and a hash equal to it would read as "not
   covered" (opt_hash_inj).  H_inj and H_len together hold of no function on all byte strings (there
   are more strings than 32-byte values), so read formally the theorems of this section apply to no
   H2; the proofs use H_inj on the strings hashed in the two pre-images compared and nowhere else,
   which is the reading meant: a covered field that differs gives different pre-images or exhibits a
   collision of H2 among those strings. *)
Section IdealHash.
  Variable H2 : bytes -> bytes.
  Hypothesis H_inj : forall a b, H2 a = H2 b -> a = b.
  Hypothesis H_len : forall a, length (H2 a) = 32%nat.
  Hypothesis H_nonzero : forall a, H2 a <> zero32.

  Lemma zero32_len : length zero32 = 32%nat. Proof. reflexivity. Qed.

  (* the two transactions compared have the same issuance presence pattern or issuance lists of
     different size, the premise of ser_issuances_inj.  It does not mention H2 and is used again in
     section IdealHashV1. *)
  Definition iss_compatible (t t' : tx) : Prop :=
    same_iss_pattern (t_ins t) (t_ins t') \/ length (ser_issuances (t_ins t)) <> length (ser_issuances (t_ins t')).

  (* the hash slots of the pre-image: a hash, or the zero word when the field is not covered *)
  Lemma if_hash_len (b : bool) x : length (if b then zero32 else H2 x) = 32%nat.
  Proof. destruct b; [reflexivity | apply H_len]. Qed.

  Lemma opt_hash_len {A} (o : option A) (g : A -> bytes) :
    length (match o with Some l => H2 (g l) | None => zero32 end) = 32%nat.
  Proof. destruct o; [apply H_len | reflexivity]. Qed.

  Lemma if_hash_inj {B} (b : bool) x x' (y y' d : B) :
    (if b then zero32 else H2 x) = (if b then zero32 else H2 x') -> (x = x' -> y = y') ->
    (if b then d else y) = (if b then d else y').
  Proof. destruct b; [reflexivity|]. intros E K. apply K, H_inj, E. Qed.

  Lemma opt_hash_inj {A B} (g : A -> bytes) (v : A -> B) o o' :
    match o with Some l => H2 (g l) | None => zero32 end = match o' with Some l => H2 (g l) | None => zero32 end ->
    (forall l l', o = Some l -> o' = Some l' -> g l = g l' -> v l = v l') -> option_map v o = option_map v o'.
  Proof.
    destruct o as [l|], o' as [l'|]; cbn; intros E K.
    - f_equal. apply (K _ _ eq_refl eq_refl), H_inj, E.
    - destruct (H_nonzero _ E).
    - symmetry in E. destruct (H_nonzero _ E).
    - reflexivity.
  Qed.

  Theorem v0_sensitive t t' idx script script' value value' ht p :
    wf_tx t = true -> wf_tx t' = true -> iss_compatible t t' ->
    lenN script < two64 -> lenN script' < two64 -> is_value value = true -> is_value value' = true ->
    preimage_v0 H2 t idx script value ht = Some p ->
    preimage_v0 H2 t' idx script' value' ht = Some p ->
    view_v0 t idx ht = view_v0 t' idx ht /\ script = script' /\ value = value'.
  Proof.
    intros W W' IC Ls Ls' Vv Vv'.
    apply wf_tx_Forall in W as (Hver & Hlt & _ & _ & Win & Wout).
    apply wf_tx_Forall in W' as (Hver' & Hlt' & _ & _ & Win' & Wout').
    unfold preimage_v0, view_v0.
    destruct (nth_error (t_ins t) idx) as [own|] eqn:N; [|discriminate].
    destruct (nth_error (t_ins t') idx) as [own'|] eqn:N'; [|discriminate].
    pose proof (Forall_nth_error _ _ _ _ Win N) as Wo. pose proof (Forall_nth_error _ _ _ _ Win' N') as Wo'.
    intros P P'. injection P as P. injection P' as P'. rewrite <- P' in P. clear P' p.
    apply le4_peel in P as [Ever P]; [|assumption..].
    apply app_eq_len in P as [Ehin P]; [|rewrite !if_hash_len; reflexivity].
    apply app_eq_len in P as [Ehseq P]; [|rewrite !if_hash_len; reflexivity].
    apply app_eq_len in P as [Ehiss P]; [|rewrite !if_hash_len; reflexivity].
    apply own_input_v0_inj in P as (Eown & Es & Ev & P); try assumption.
    2:{ destruct (ht_rp ht); rewrite !app_length, !opt_hash_len, !le_enc_length; reflexivity. }
    apply app_eq_len in P as [Ehout P]; [|rewrite !opt_hash_len; reflexivity].
    apply app_eq_len in P as [Ehrp P]; [|destruct (ht_rp ht); rewrite ?opt_hash_len; reflexivity].
    apply le4_peel in P as [Elt _]; [|assumption..].
    split; [|split; assumption].
    rewrite Ever, Elt, Eown.
    rewrite (if_hash_inj _ _ _ _ _ [] Ehin (ser_prevouts_inj _ _ Win Win')),
            (if_hash_inj _ _ _ _ _ [] Ehseq (ser_sequences_inj _ _ Win Win')),
            (if_hash_inj _ _ _ _ _ [] Ehiss (ser_issuances_inj _ _ Win Win' IC)).
    rewrite (opt_hash_inj ser_outputs (map out_base) _ _ Ehout).
    2:{ intros l l' C C'. apply ser_outputs_inj; [exact (covered_outs_wf _ _ _ _ Wout C) | exact (covered_outs_wf _ _ _ _ Wout' C')]. }
    revert Ehrp. destruct (ht_rp ht); intro Ehrp; [|reflexivity].
    rewrite (opt_hash_inj ser_rangeproofs (map out_proofs) _ _ Ehrp); [reflexivity|].
    intros l l' C C'. apply ser_rangeproofs_inj; [exact (covered_outs_wf _ _ _ _ Wout C) | exact (covered_outs_wf _ _ _ _ Wout' C')].
  Qed.
End IdealHash.

(* the hypotheses on the transactions are met by two that differ in one covered field, the locktime.  Those
   on H2 idealise collision resistance: no function on all byte strings is injective with 32-byte values. *)
Example v0_sensitive_applies :
  let i := mk_in (repeat x01 32) 0 5 [] [] false [] None [] [] in
  let t := mk_tx 2 0 0 [i] [] in
  let t' := mk_tx 2 0 1 [i] [] in
  wf_tx t = true /\ wf_tx t' = true /\ same_iss_pattern (t_ins t) (t_ins t') /\ view_v0 t 0 1 <> view_v0 t' 0 1.
Proof. cbn. repeat split; try reflexivity. - repeat constructor; intro; reflexivity. - discriminate. Qed.

(* legacy: the pre-image is the signature form of the hashed copy followed by the hash type.  Under
   SIGHASH_SINGLE above index 0 the copy begins with blanked outputs, which the wire format cannot
   represent: both sides carry the same blanks, which cancel, and the rest is read back as usual. *)
Definition single_core (c : tx) (k : nat) : tx :=
  mk_tx (t_version c) (t_flag c) (t_locktime c) (t_ins c) (skipn k (t_outs c)).

Lemma strip_sig_in i i' : strip_in i = strip_in i' -> sig_in_view i = sig_in_view i'.
Proof.
  intro E1. unfold strip_in in E1. unfold sig_in_view, raw_index. injection E1 as X1 X2 X3 X4 X5 X6.
  rewrite X1, X2, X3, X4, X5, X6. reflexivity.
Qed.

Lemma ser_out_rp o : ser_out false true o = ser_out false false o ++ var_slice (o_rp o) ++ var_slice (o_sp o).
Proof. unfold ser_out. cbn [app]. rewrite app_nil_r, <- !app_assoc. reflexivity. Qed.

Lemma ser_outs_peel rp l l' r r' : length l = length l' -> Forall WfOut l -> Forall WfOut l' ->
  enc_list (ser_out false rp) l ++ r = enc_list (ser_out false rp) l' ++ r' ->
  map out_base l = map out_base l' /\
  (if rp then map out_proofs l else []) = (if rp then map out_proofs l' else []) /\ r = r'.
Proof.
  intros L F F' E. destruct rp.
  - apply (enc_list_peel _ (fun o => (strip_out o, out_proofs o)) WfOut) in E as [E ->]; try assumption.
    + split; [|split; [|reflexivity]]; revert E; apply map_eq_compat; intros o o' X.
      * apply strip_base. exact (f_equal fst X).
      * exact (f_equal snd X).
    + intros o o' s s' W W' X. rewrite !ser_out_rp, <- !app_assoc in X.
      apply (parse_prefix_inj p_out _ _ _ _ _ _ (p_out_app o _ W) (p_out_app o' _ W')) in X as [X1 X].
      rewrite !app_assoc in X. apply (slices_delimit o_rp o_sp WfOut wf_out_slices) in X as [X2 X]; [|assumption..].
      unfold out_proofs. rewrite X1, X2. split; [reflexivity | exact X].
  - apply (enc_list_peel _ strip_out WfOut) in E as [E ->]; try assumption.
    + split; [|split; reflexivity]. revert E. apply map_eq_compat, strip_base.
    + apply (delimits_parse p_out). intros o s W. apply p_out_app, W.
Qed.

(* the signature forms of two copies that begin with the same k outputs and are well formed after them *)
Lemma sig_ser_inj rp c c' k :
  firstn k (t_outs c) = firstn k (t_outs c') -> length (t_outs c) = length (t_outs c') \/ k = 0%nat ->
  wf_tx (single_core c k) = true -> wf_tx (single_core c' k) = true ->
  ser_tx false true true rp c = ser_tx false true true rp c' -> sig_view rp c = sig_view rp c'.
Proof.
  intros B L W W' E.
  apply wf_tx_Forall in W as (Hv & Hl & Hn & Hno & Wi & Wo).
  apply wf_tx_Forall in W' as (Hv' & Hl' & Hn' & Hno' & Wi' & Wo').
  cbn [single_core t_version t_locktime t_ins t_outs] in *.
  unfold ser_tx in E. cbn [andb negb app] in E. rewrite !app_nil_r in E.
  apply le4_peel in E as [Ev E]; [|assumption..].
  apply (parse_prefix_inj p_varint _ _ _ _ _ _ (p_varint_app _ _ Hn) (p_varint_app _ _ Hn')) in E as [En E].
  apply (enc_list_peel ser_in strip_in WfIn) in E as [Ei E]; try assumption.
  2:{ apply (delimits_parse p_in). intros i r W. apply p_in_app, W. }
  2:{ unfold lenL in En. lia. }
  assert (LO : length (t_outs c) = length (t_outs c')).
  { destruct L as [L| ->]; [exact L|].
    apply (parse_prefix_inj p_varint _ _ _ _ _ _ (p_varint_app _ _ Hno) (p_varint_app _ _ Hno')) in E as [E _].
    unfold lenL in E. cbn [skipn] in E. lia. }
  unfold lenL in E. rewrite LO in E. apply app_inv_head in E.
  rewrite <- (firstn_skipn k (t_outs c)), <- (firstn_skipn k (t_outs c')), !enc_list_app, B, <- !app_assoc in E.
  apply app_inv_head in E.
  apply ser_outs_peel in E as (Eo & Ep & El); [|rewrite !skipn_length, LO; reflexivity | assumption..].
  unfold sig_view. rewrite Ev, (le_enc_inj 4 _ _ Hl Hl' El), (map_eq_compat _ _ strip_sig_in _ _ Ei).
  rewrite <- (firstn_skipn k (t_outs c)), <- (firstn_skipn k (t_outs c')), !map_app, B, Eo.
  destruct rp; [rewrite Ep|]; reflexivity.
Qed.

Lemma legacy_preimage_ser t t' idx script script' ht c c' p :
  legacy_tx t idx script ht = Some c -> legacy_tx t' idx script' ht = Some c' ->
  preimage_legacy t idx script ht = Some p -> preimage_legacy t' idx script' ht = Some p ->
  ser_tx false true true (ht_rp ht) c = ser_tx false true true (ht_rp ht) c'.
Proof.
  intros C C'. unfold preimage_legacy. rewrite C, C'.
  intros P P'. injection P as P. injection P' as P'. rewrite <- P' in P.
  apply app_inv_len_tail in P as [P _]; [exact P | reflexivity].
Qed.

(* every hash type, the hashed copies well formed as a whole: this leaves out SINGLE above index 0 only,
   which legacy_sensitive_full adds *)
Theorem legacy_sensitive_any t t' idx script script' ht c c' p :
  legacy_tx t idx script ht = Some c -> legacy_tx t' idx script' ht = Some c' ->
  wf_tx c = true -> wf_tx c' = true ->
  preimage_legacy t idx script ht = Some p -> preimage_legacy t' idx script' ht = Some p ->
  sig_view (ht_rp ht) c = sig_view (ht_rp ht) c'.
Proof.
  intros C C' W W' P P'. apply (sig_ser_inj _ c c' 0); [reflexivity | right; reflexivity | exact W | exact W' |].
  eapply legacy_preimage_ser; eassumption.
Qed.

(* non-vacuity: the hypotheses are met by a transaction with a confidential output and the RANGEPROOF bit *)
Example legacy_rp_sensitive_applies :
  let i := mk_in (repeat x01 32) 0 5 [] [] false [] None [] [] in
  let o := mk_out (x01 :: repeat x01 32) (x01 :: repeat x00 8) [] [x00] [x01] [x01] in
  let t := mk_tx 2 0 0 [i] [o] in
  exists c p, ht_rp 0x41 = true /\ legacy_tx t 0 [] 0x41 = Some c /\ wf_tx c = true /\ preimage_legacy t 0 [] 0x41 = Some p.
Proof. cbn. eexists. eexists. repeat split. Qed.

Lemma legacy_tx_single_shape t idx script ht c :
  ht_single ht = true -> legacy_tx t idx script ht = Some c ->
  firstn idx (t_outs c) = map blank_out (firstn idx (t_outs t)) /\
  length (firstn idx (t_outs t)) = idx /\ length (t_outs c) = S idx.
Proof.
  intros S. assert (Nn : ht_none ht = false).
  { unfold ht_single, ht_none in *. apply N.eqb_eq in S. rewrite S. reflexivity. }
  unfold legacy_tx. destruct (nth_error (t_ins t) idx); [|discriminate]. rewrite Nn, S.
  destruct (Nat.leb_spec (length (t_outs t)) idx) as [|Lt]; [discriminate|].
  intro E. injection E as <-. cbn [t_outs].
  assert (L : length (firstn idx (t_outs t)) = idx) by (apply firstn_length_le; lia).
  destruct (skipn idx (t_outs t)) as [|o rest] eqn:K.
  { apply (f_equal (@length txout)) in K. rewrite skipn_length in K. cbn in K. lia. }
  split; [|split; [exact L|]].
  - apply firstn_app_exact. rewrite map_length. exact L.
  - rewrite app_length, map_length, L. cbn. lia.
Qed.

(* every hash type and every index: equal legacy pre-images force equal covered views.  For SINGLE the hashed copy
   is required to be well formed once its blanked outputs are dropped (single_core); otherwise as a whole. *)
Definition legacy_core (ht : N) (idx : nat) (c : tx) : tx := if ht_single ht then single_core c idx else c.

Theorem legacy_sensitive_full t t' idx script script' ht c c' p :
  legacy_tx t idx script ht = Some c -> legacy_tx t' idx script' ht = Some c' ->
  wf_tx (legacy_core ht idx c) = true -> wf_tx (legacy_core ht idx c') = true ->
  preimage_legacy t idx script ht = Some p -> preimage_legacy t' idx script' ht = Some p ->
  sig_view (ht_rp ht) c = sig_view (ht_rp ht) c'.
Proof.
  unfold legacy_core. destruct (ht_single ht) eqn:S; intros C C' W W' P P'; [|eapply legacy_sensitive_any; eassumption].
  destruct (legacy_tx_single_shape _ _ _ _ _ S C) as (B & L & N).
  destruct (legacy_tx_single_shape _ _ _ _ _ S C') as (B' & L' & N').
  apply (sig_ser_inj _ c c' idx); try assumption.
  - rewrite B, B'. apply map_blank_out_eq. congruence.
  - left. congruence.
  - eapply legacy_preimage_ser; eassumption.
Qed.

(* non-vacuity: SINGLE on input 1 of a two-input, two-output transaction *)
Example legacy_single_sensitive_applies :
  let i := mk_in (repeat x01 32) 0 5 [] [] false [] None [] [] in
  let o := mk_out (x01 :: repeat x01 32) (x01 :: repeat x00 8) [] [x00] [] [] in
  let t := mk_tx 2 0 0 [i; i] [o; o] in
  exists c p, ht_single 3 = true /\ legacy_tx t 1 [] 3 = Some c /\ wf_tx (single_core c 1) = true /\
              wf_tx c = false /\ preimage_legacy t 1 [] 3 = Some p.
Proof. cbn. eexists. eexists. repeat split. Qed.

Lemma set_script_wf s i : wf_in i = true -> lenN s < two64 -> wf_in (set_script s i) = true.
Proof.
  intros W L. apply wf_in_parts in W as (A & B & _ & D & E & F & G & H).
  unfold wf_in, set_script, wf_slice. proj_in. rewrite A, D, G, H. cbn [Nat.eqb].
  destruct (N.ltb_spec (in_seq i) two32); [|lia]. destruct (N.ltb_spec (lenN s) two64); [|lia].
  destruct (N.ltb_spec (lenN (in_irp i)) two64); [|lia]. destruct (N.ltb_spec (lenN (in_inrp i)) two64); [|lia]. reflexivity.
Qed.

Definition p_asset_value : parser (bytes * bytes) := a <- p_asset ;; v <- p_value ;; ret (a, v).

Lemma ser_asset_amounts_inj : forall aa vv aa' vv' x,
  Forall (fun a => is_asset a = true) aa -> Forall (fun a => is_asset a = true) aa' ->
  Forall (fun v => is_value v = true) vv -> Forall (fun v => is_value v = true) vv' ->
  length aa = length vv -> length aa' = length vv' ->
  ser_asset_amounts aa vv = Some x -> ser_asset_amounts aa' vv' = Some x -> aa = aa' /\ vv = vv'.
Proof.
  induction aa as [|a aa IH]; intros [|v vv] [|a' aa'] [|v' vv'] x Fa Fa' Fv Fv' L L' E E';
    try discriminate L; try discriminate L'; cbn in E, E'.
  - split; reflexivity.
  - destruct (ser_asset_amounts aa' vv'); [|discriminate]. injection E as <-. injection E' as E'.
    apply Forall_inv, is_asset_nonempty in Fa'. apply app_eq_nil in E' as [E' _]. contradiction.
  - destruct (ser_asset_amounts aa vv); [|discriminate]. injection E' as <-. injection E as E.
    apply Forall_inv, is_asset_nonempty in Fa. apply app_eq_nil in E as [E _]. contradiction.
  - destruct (ser_asset_amounts aa vv) as [r|] eqn:R; [|discriminate].
    destruct (ser_asset_amounts aa' vv') as [r'|] eqn:R'; [|discriminate].
    injection E as <-. injection E' as E.
    inversion Fa as [|? ? Ia Fa2]. inversion Fa' as [|? ? Ia' Fa2']. inversion Fv as [|? ? Iv Fv2]. inversion Fv' as [|? ? Iv' Fv2']. subst.
    apply asset_peel in E as [-> E]; [|assumption..].
    apply value_peel in E as [-> ->]; [|assumption..].
    injection L as L. injection L' as L'.
    destruct (IH vv aa' vv' r Fa2 Fa2' Fv2 Fv2' L L' R R') as [-> ->]. split; reflexivity.
Qed.

(* the flag byte and the spend type say which optional parts follow *)
Definition present {A} (o : option A) : bool := match o with Some _ => true | None => false end.

Lemma input_flag_inj i i' : input_flag i = input_flag i' -> present (in_iss i) = present (in_iss i').
Proof. unfold input_flag. destruct (in_iss i), (in_iss i'), (in_pegin i), (in_pegin i'); intro E; try reflexivity; lia. Qed.

Lemma spend_lt a : v1_spend_type a < 256.
Proof. unfold v1_spend_type. destruct (v1_leaf a), (v1_annex a); lia. Qed.

Lemma spend_inj a a' : v1_spend_type a = v1_spend_type a' ->
  present (v1_leaf a) = present (v1_leaf a') /\ present (v1_annex a) = present (v1_annex a').
Proof.
  unfold v1_spend_type. destruct (v1_leaf a), (v1_leaf a'), (v1_annex a), (v1_annex a'); intro E;
    try (split; reflexivity); lia.
Qed.

(* H_inj and H_len as in section IdealHash, with the same reading; the taproot pre-image has no zero slots *)
Section IdealHashV1.
  Variable H1 : bytes -> bytes.
  Hypothesis H_inj : forall a b, H1 a = H1 b -> a = b.
  Hypothesis H_len : forall a, length (H1 a) = 32%nat.

  (* the caller's per-input data: one well-formed (asset, value, script) per input, 32-byte genesis and leaf hashes *)
  Definition v1_args_wf (t : tx) (a : v1_args) : Prop :=
    length (v1_scripts a) = length (t_ins t) /\ length (v1_assets a) = length (t_ins t) /\
    length (v1_values a) = length (t_ins t) /\
    Forall (fun x => is_asset x = true) (v1_assets a) /\ Forall (fun x => is_value x = true) (v1_values a) /\
    Forall (fun x => lenN x < two64) (v1_scripts a) /\
    length (v1_genesis a) = 32%nat /\
    match v1_leaf a with Some l => length l = 32%nat | None => True end /\
    match v1_annex a with Some x => lenN x < two64 | None => True end.

  Lemma hash_peel x y r r' : H1 x ++ r = H1 y ++ r' -> x = y /\ r = r'.
  Proof.
    intro E. apply app_eq_len in E as [E1 E2]; [|rewrite !H_len; reflexivity].
    split; [exact (H_inj _ _ E1) | exact E2].
  Qed.

  (* the seven hashes over all inputs *)
  Lemma v1_ins_part_inj t t' a a' ht x :
    v1_acp ht = false -> Forall WfIn (t_ins t) -> Forall WfIn (t_ins t') ->
    iss_compatible t t' -> v1_args_wf t a -> v1_args_wf t' a' ->
    v1_ins_part H1 t a ht = Some x -> v1_ins_part H1 t' a' ht = Some x ->
    map input_flag (t_ins t) = map input_flag (t_ins t') /\ map in_outpoint (t_ins t) = map in_outpoint (t_ins t') /\
    v1_assets a = v1_assets a' /\ v1_values a = v1_values a' /\ v1_scripts a = v1_scripts a' /\
    map in_seq (t_ins t) = map in_seq (t_ins t') /\ map in_iss (t_ins t) = map in_iss (t_ins t') /\
    map in_proofs (t_ins t) = map in_proofs (t_ins t').
  Proof.
    intros ACP W W' IC (L1 & L2 & L3 & Fa & Fv & Fs & _) (L1' & L2' & L3' & Fa' & Fv' & Fs' & _).
    unfold v1_ins_part. rewrite ACP.
    destruct (ser_asset_amounts (v1_assets a) (v1_values a)) as [aa|] eqn:A; [|discriminate].
    destruct (ser_asset_amounts (v1_assets a') (v1_values a')) as [aa'|] eqn:A'; [|discriminate].
    intros X X'. injection X as X. injection X' as X'. rewrite <- X' in X. clear X' x. rename X into E.
    apply hash_peel in E as [E1 E]. apply hash_peel in E as [E2 E]. apply hash_peel in E as [E3 E].
    apply hash_peel in E as [E4 E]. apply hash_peel in E as [E5 E]. apply hash_peel in E as [E6 E].
    apply H_inj in E. subst aa'.
    destruct (ser_asset_amounts_inj _ _ _ _ _ Fa Fa' Fv Fv' ltac:(congruence) ltac:(congruence) A A') as [Ea Ev].
    repeat split; try assumption.
    - apply ser_flags_inj, E1.
    - apply ser_prevouts_inj; assumption.
    - apply ser_scripts_inj; assumption.
    - apply ser_sequences_inj; assumption.
    - apply ser_issuances_inj; assumption.
    - apply ser_issuance_proofs_inj; assumption.
  Qed.

  Lemma outs_hashes_inj o o' :
    (forall l, o = Some l -> Forall WfOut l) -> (forall l, o' = Some l -> Forall WfOut l) ->
    outs_hashes H1 o = outs_hashes H1 o' ->
    option_map (map out_base) o = option_map (map out_base) o' /\
    option_map (map out_proofs) o = option_map (map out_proofs) o'.
  Proof.
    destruct o as [l|], o' as [l'|]; cbn; intros F F' E.
    - apply hash_peel in E as [E1 E2]. apply H_inj in E2.
      rewrite (ser_outputs_inj _ _ (F _ eq_refl) (F' _ eq_refl) E1), (ser_out_witnesses_inj _ _ (F _ eq_refl) (F' _ eq_refl) E2).
      split; reflexivity.
    - apply (f_equal (@length byte)) in E. rewrite app_length, !H_len in E. discriminate E.
    - apply (f_equal (@length byte)) in E. rewrite app_length, !H_len in E. discriminate E.
    - split; reflexivity.
  Qed.

  Lemma v1_ins_part_length t a ht x : v1_ins_part H1 t a ht = Some x ->
    length x = if v1_acp ht then 0%nat else 224%nat.
  Proof.
    unfold v1_ins_part. destruct (v1_acp ht); [intro E; injection E as <-; reflexivity|].
    destruct (ser_asset_amounts (v1_assets a) (v1_values a)); [|discriminate].
    intro E; injection E as <-. rewrite !app_length, !H_len. reflexivity.
  Qed.

  Lemma v1_outs_all_length t ht : length (v1_outs_all H1 t ht) =
    if negb (v1_out_type ht =? 2) && negb (v1_out_type ht =? 3) then 64%nat else 0%nat.
  Proof. unfold v1_outs_all. destruct (negb _ && negb _); [rewrite app_length, !H_len|]; reflexivity. Qed.

  (* the signing input: under ANYONECANPAY self-delimiting given the flag byte, else the 4-byte index *)
  Lemma v1_own_part_inj t t' own own' idx a a' ht op op' tail tail' :
    wf_in own = true -> wf_in own' = true -> v1_args_wf t a -> v1_args_wf t' a' ->
    v1_own_part H1 own idx a ht = Some op -> v1_own_part H1 own' idx a' ht = Some op' ->
    op ++ tail = op' ++ tail' ->
    tail = tail' /\
    (v1_acp ht = true ->
     input_flag own = input_flag own' /\ in_hash own = in_hash own' /\ in_index own = in_index own' /\
     in_seq own = in_seq own' /\ in_iss own = in_iss own' /\
     match in_iss own with Some _ => Some (in_proofs own) | None => None end =
     match in_iss own' with Some _ => Some (in_proofs own') | None => None end /\
     nth_error (v1_assets a) idx = nth_error (v1_assets a') idx /\
     nth_error (v1_values a) idx = nth_error (v1_values a') idx /\
     nth_error (v1_scripts a) idx = nth_error (v1_scripts a') idx).
  Proof.
    intros Wo Wo' (_ & _ & _ & Fa & Fv & Fs & _) (_ & _ & _ & Fa' & Fv' & Fs' & _). unfold v1_own_part.
    destruct (v1_acp ht).
    2:{ intros X X' E. injection X as <-. injection X' as <-. apply app_inv_head in E. split; [exact E | discriminate]. }
    destruct (nth_error (v1_assets a) idx) as [ea|] eqn:A; [|discriminate].
    destruct (nth_error (v1_values a) idx) as [ev|] eqn:V; [|discriminate].
    destruct (nth_error (v1_scripts a) idx) as [es|] eqn:S; [|discriminate].
    destruct (nth_error (v1_assets a') idx) as [ea'|] eqn:A'; [|discriminate].
    destruct (nth_error (v1_values a') idx) as [ev'|] eqn:V'; [|discriminate].
    destruct (nth_error (v1_scripts a') idx) as [es'|] eqn:S'; [|discriminate].
    rewrite Forall_forall in Fa, Fa', Fv, Fv', Fs, Fs'.
    intros X X' E. injection X as <-. injection X' as <-.
    cbn [app] in E. rewrite <- !app_assoc in E. apply cons_inj in E as [Ef E].
    apply b8_small_inj in Ef; [|apply input_flag_lt..].
    apply app_eq_len in E as [Eh E]; [|rewrite !wf_in_hash_len by assumption; reflexivity].
    apply le4_peel in E as [Ei E]; [|apply wf_in_index_lt; assumption..].
    apply asset_peel in E as [-> E]; [|exact (Fa _ (nth_error_In _ _ A)) | exact (Fa' _ (nth_error_In _ _ A'))].
    apply value_peel in E as [-> E]; [|exact (Fv _ (nth_error_In _ _ V)) | exact (Fv' _ (nth_error_In _ _ V'))].
    apply var_slice_peel in E as [-> E]; [|exact (Fs _ (nth_error_In _ _ S)) | exact (Fs' _ (nth_error_In _ _ S'))].
    apply le4_peel in E as [Eq E]; [|apply wf_in_seq_lt; assumption..].
    apply input_flag_inj in Ef as Pres.
    pose proof (wf_in_iss own Wo) as Wi. pose proof (wf_in_iss own' Wo') as Wi'.
    revert Pres Wi Wi' E. destruct (in_iss own) as [s|], (in_iss own') as [s'|]; cbn [wf_iss_opt];
      intros Pres Wi Wi' E; try discriminate Pres.
    - rewrite <- !app_assoc in E. apply iss_peel in E as [-> E]; [|assumption..].
      apply hash_peel in E as [E E']. apply ser_issuance_proofs_inj in E; [|repeat constructor; assumption..].
      cbn [map] in E. repeat split; congruence.
    - injection E as E. repeat split; congruence.
  Qed.

  Theorem v1_sensitive t t' idx a a' ht p :
    wf_tx t = true -> wf_tx t' = true -> iss_compatible t t' -> v1_args_wf t a -> v1_args_wf t' a' ->
    preimage_v1 H1 t idx a ht = Some p -> preimage_v1 H1 t' idx a' ht = Some p ->
    view_v1 t idx a ht = view_v1 t' idx a' ht.
  Proof.
    intros W W' IC AW AW'.
    pose proof AW as (_ & _ & _ & _ & _ & _ & Lg & Ll & Lx).
    pose proof AW' as (_ & _ & _ & _ & _ & _ & Lg' & Ll' & Lx').
    apply wf_tx_Forall in W as (Hver & Hlt & _ & _ & Win & Wout).
    apply wf_tx_Forall in W' as (Hver' & Hlt' & _ & _ & Win' & Wout').
    unfold preimage_v1, view_v1.
    destruct (nth_error (t_ins t) idx) as [own|] eqn:N; [|discriminate].
    destruct (nth_error (t_ins t') idx) as [own'|] eqn:N'; [|discriminate].
    pose proof (Forall_nth_error _ _ _ _ Win N) as Wo. pose proof (Forall_nth_error _ _ _ _ Win' N') as Wo'.
    destruct (v1_ins_part H1 t a ht) as [ip|] eqn:IP; [|discriminate].
    destruct (v1_own_part H1 own idx a ht) as [op|] eqn:OP; [|discriminate].
    destruct (v1_ins_part H1 t' a' ht) as [ip'|] eqn:IP'; [|discriminate].
    destruct (v1_own_part H1 own' idx a' ht) as [op'|] eqn:OP'; [|discriminate].
    intros P P'. injection P as P. injection P' as P'. rewrite <- P' in P. clear P' p.
    apply app_eq_len in P as [Eg P]; [|congruence].
    apply app_eq_len in P as [_ P]; [|congruence].
    apply cons_inj in P as [_ P].
    apply le4_peel in P as [Ever P]; [|assumption..].
    apply le4_peel in P as [Elt P]; [|assumption..].
    apply app_eq_len in P as [Eip P];
      [|rewrite (v1_ins_part_length _ _ _ _ IP), (v1_ins_part_length _ _ _ _ IP'); reflexivity].
    apply app_eq_len in P as [Eoa P]; [|rewrite !v1_outs_all_length; reflexivity].
    apply cons_inj in P as [Esp P].
    apply b8_small_inj in Esp; [|apply spend_lt..]. destruct (spend_inj a a' Esp) as [Pl Pa].
    destruct (v1_own_part_inj t t' _ _ _ _ _ _ _ _ _ _ Wo Wo' AW AW' OP OP' P) as [P2 Eown]. clear P.
    (* the annex hash is present on both sides or on neither *)
    set (R := v1_outs_single H1 t idx ht ++ _) in P2. set (R' := v1_outs_single H1 t' idx ht ++ _) in P2.
    assert (Eannex : v1_annex a = v1_annex a' /\ R = R').
    { revert P2 Pa Lx Lx'. destruct (v1_annex a) as [x|], (v1_annex a') as [x'|]; intros P2 Pa Lx Lx'; try discriminate Pa.
      - apply hash_peel in P2 as [E1 E2].
        rewrite <- (app_nil_r (var_slice x)), <- (app_nil_r (var_slice x')) in E1.
        apply var_slice_peel in E1 as [-> _]; [|assumption..]. split; [reflexivity | exact E2].
      - split; [reflexivity | exact P2]. }
    destruct Eannex as [Eannex P3]. subst R R'. clear P2.
    (* the leaf hash and what follows it end the pre-image: fixed width from the right *)
    assert (Eleaf : v1_leaf a = v1_leaf a' /\ v1_outs_single H1 t idx ht = v1_outs_single H1 t' idx ht).
    { revert P3 Pl Ll Ll'. destruct (v1_leaf a) as [l|], (v1_leaf a') as [l'|]; intros P3 Pl Ll Ll'; try discriminate Pl.
      - apply app_inv_len_tail in P3 as [E1 E2]; [|rewrite !app_length, Ll, Ll'; reflexivity].
        apply app_eq_len in E2 as [-> _]; [|congruence]. split; [reflexivity | exact E1].
      - rewrite !app_nil_r in P3. split; [reflexivity | exact P3]. }
    destruct Eleaf as [Eleaf Eos].
    (* the output hashes stand in one of two places, according to the hash type alone *)
    rewrite (v1_outs_all_cov H1 t idx), (v1_outs_all_cov H1 t' idx) in Eoa. rewrite !v1_outs_single_cov in Eos.
    assert (Eo : outs_hashes H1 (covered_outs_v1 t idx ht) = outs_hashes H1 (covered_outs_v1 t' idx ht))
      by (destruct (v1_out_type ht =? 3); assumption).
    apply outs_hashes_inj in Eo as [Eob Eop].
    2:{ intros l C. exact (covered_outs_v1_wf _ _ _ _ Wout C). }
    2:{ intros l C. exact (covered_outs_v1_wf _ _ _ _ Wout' C). }
    rewrite Eob, Eop. destruct (v1_acp ht) eqn:ACP.
    - destruct (Eown eq_refl) as (X1 & X2 & X3 & X4 & X5 & X6 & X7 & X8 & X9). congruence.
    - rewrite <- Eip in IP'.
      destruct (v1_ins_part_inj t t' a a' ht ip ACP Win Win' IC AW AW' IP IP')
        as (X1 & X2 & X3 & X4 & X5 & X6 & X7 & X8). congruence.
  Qed.
End IdealHashV1.
