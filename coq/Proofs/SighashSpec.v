(* Proofs/SighashSpec.v — the coded pre-images equal the specification layouts on the
   domain where the specification fixes them (C03). *)
From GE Require Import Lib.Bytes Lib.Varint Lib.Sha256 Model.Tx Model.Sighash Spec.ElementsSighash Proofs.Sighash.
From Coq Require Import ZifyBool ZifyN ZifyNat.
Open Scope N_scope.

Lemma land_pow2 a n : N.land a (2 ^ n) = if N.testbit a n then 2 ^ n else 0.
Proof.
  apply N.bits_inj. intro k. rewrite N.land_spec, N.pow2_bits_eqb.
  destruct (N.eqb_spec n k) as [<-|Hk].
  - destruct (N.testbit a n) eqn:E; [rewrite N.pow2_bits_true; reflexivity | rewrite N.bits_0; reflexivity].
  - rewrite andb_false_r. destruct (N.testbit a n); [rewrite N.pow2_bits_false by exact Hk; reflexivity | rewrite N.bits_0; reflexivity].
Qed.

Lemma base_eq ht : ht_base ht = base_type ht.
Proof. unfold ht_base, base_type. change 0x1f with (N.ones 5). apply N.land_ones. Qed.

Lemma v1_acp_eq ht : v1_acp ht = anyonecanpay ht.
Proof.
  unfold v1_acp, anyonecanpay. change 0x80 with (2 ^ 7). rewrite land_pow2.
  pose proof (N.testbit_spec' ht 7) as B. change (2 ^ 7) with 128 in *.
  destruct (N.testbit ht 7); cbn [N.b2n] in B.
  - cbn. destruct (N.leb_spec 128 (ht mod 256)); [reflexivity | lia].
  - cbn. destruct (N.leb_spec 128 (ht mod 256)); [lia | reflexivity].
Qed.

Lemma acp_eq ht : ht_acp ht = anyonecanpay ht.
Proof.
  rewrite <- v1_acp_eq. unfold ht_acp, v1_acp. change 0x80 with (2 ^ 7). rewrite land_pow2.
  destruct (N.testbit ht 7); reflexivity.
Qed.

Lemma enc_list_one {A} (e : A -> bytes) x : enc_list e [x] = e x.
Proof. apply app_nil_r. Qed.

Lemma ser_out_S o : ser_out false false o = S_txout o.
Proof. unfold ser_out, S_txout. cbn [app]. rewrite app_nil_r. reflexivity. Qed.
Lemma ser_outputs_S l : ser_outputs l = S_all S_txout l.
Proof. unfold ser_outputs, enc_list, S_all. f_equal. apply map_ext. exact ser_out_S. Qed.
Lemma ser_outputs_one o : ser_outputs [o] = S_txout o.
Proof. unfold ser_outputs. rewrite enc_list_one. apply ser_out_S. Qed.

Theorem v0_refines_spec t idx script value ht :
  ht_rp ht = false ->
  preimage_v0 dsha256 t idx script value ht = spec_v0_preimage t idx script value ht.
Proof.
  intro RP. unfold preimage_v0, spec_v0_preimage, covered_outs, ht_single, ht_none.
  rewrite RP, acp_eq, base_eq.
  destruct (nth_error (t_ins t) idx) as [own|]; [|reflexivity].
  f_equal. unfold layout, own_input_v0, S_outpoint, u32. cbn [concat app].
  rewrite <- !app_assoc, app_nil_r.
  repeat f_equal.
  - rewrite orb_assoc. reflexivity.
  - destruct (base_type ht =? 3), (base_type ht =? 2); cbn [orb negb]; try destruct (nth_error (t_outs t) idx);
      rewrite ?ser_outputs_one, ?ser_outputs_S; reflexivity.
Qed.

Lemma ser_out_witnesses_one o : ser_out_witnesses [o] = S_out_witness o.
Proof. apply enc_list_one. Qed.
Lemma ser_issuance_proofs_one i : ser_issuance_proofs [i] = S_issuance_proofs i.
Proof. apply enc_list_one. Qed.

Definition spents_of (a : v1_args) : list spent :=
  zip_with (fun s av => mk_spent s (fst av) (snd av)) (v1_scripts a) (combine (v1_assets a) (v1_values a)).

(* the three per-input lists have the length of the input list (what every caller supplies); these are the
   first three clauses of v1_args_wf in Proofs/SighashSens.v *)
Definition v1_args_ok (t : tx) (a : v1_args) : Prop :=
  length (v1_scripts a) = length (t_ins t) /\ length (v1_assets a) = length (t_ins t) /\
  length (v1_values a) = length (t_ins t).

(* spents_of a is spents of the three lists of a, by definition; the lemmas go by induction on the lists *)
Definition spents (ss aa vv : list bytes) : list spent :=
  zip_with (fun s av => mk_spent s (fst av) (snd av)) ss (combine aa vv).

Lemma ser_asset_amounts_spents : forall ss aa vv, length ss = length aa -> length aa = length vv ->
  ser_asset_amounts aa vv = Some (S_all (fun s => sp_asset s ++ sp_value s) (spents ss aa vv)) /\
  ser_scripts ss = S_all (fun s => var_slice (sp_script s)) (spents ss aa vv).
Proof.
  induction ss as [|s ss IH]; intros [|a aa] [|v vv] L1 L2; try discriminate; [split; reflexivity|].
  injection L1 as L1. injection L2 as L2. destruct (IH aa vv L1 L2) as [A B].
  unfold spents, S_all, ser_scripts, enc_list in *.
  cbn [ser_asset_amounts combine zip_with map concat fst snd sp_asset sp_value sp_script].
  rewrite A, B, <- !app_assoc. split; reflexivity.
Qed.

Lemma nth_spents : forall ss aa vv idx, length ss = length aa -> length aa = length vv ->
  match nth_error aa idx, nth_error vv idx, nth_error ss idx with
  | Some a, Some v, Some s => nth_error (spents ss aa vv) idx = Some (mk_spent s a v)
  | None, None, None => nth_error (spents ss aa vv) idx = None
  | _, _, _ => False
  end.
Proof.
  induction ss as [|s ss IH]; intros [|a aa] [|v vv] idx L1 L2; try discriminate.
  - destruct idx; reflexivity.
  - injection L1 as L1. injection L2 as L2. destruct idx as [|idx]; [reflexivity|].
    unfold spents. cbn [nth_error combine zip_with]. apply IH; assumption.
Qed.

Lemma out_type_eq ht : v1_out_type ht = if ht =? 0 then 1 else ht mod 4.
Proof. unfold v1_out_type. change 0x03 with (N.ones 2). rewrite N.land_ones. reflexivity. Qed.

(* the parts of the taproot pre-image whose form does not depend on ANYONECANPAY *)
Lemma outs_all_S t ht : v1_outs_all sha256 t ht =
  if (v1_out_type ht =? 2) || (v1_out_type ht =? 3) then []
  else layout [sha256 (S_all S_txout (t_outs t)); sha256 (S_all S_out_witness (t_outs t))].
Proof.
  unfold v1_outs_all. destruct (_ =? 2), (_ =? 3); try reflexivity.
  cbn [negb andb orb layout concat]. rewrite ser_outputs_S, app_nil_r. reflexivity.
Qed.

Lemma outs_single_S t idx ht : v1_outs_single sha256 t idx ht =
  if v1_out_type ht =? 3
  then match nth_error (t_outs t) idx with
       | Some o => layout [sha256 (S_txout o); sha256 (S_out_witness o)]
       | None => [] end
  else [].
Proof.
  unfold v1_outs_single. destruct (_ =? 3); [|reflexivity]. destruct (nth_error _ _); [|reflexivity].
  cbn [layout concat]. rewrite ser_outputs_one, ser_out_witnesses_one, app_nil_r. reflexivity.
Qed.

Lemma spend_type_S a : v1_spend_type a =
  (match v1_leaf a with Some _ => 2 | None => 0 end) + (match v1_annex a with Some _ => 1 | None => 0 end).
Proof. unfold v1_spend_type. destruct (v1_leaf a); reflexivity. Qed.

Theorem v1_refines_spec t idx a ht :
  v1_args_ok t a ->
  preimage_v1 sha256 t idx a ht =
  spec_v1_preimage t idx (spents_of a) (v1_genesis a) (v1_leaf a) (v1_annex a) ht.
Proof.
  intros (L1 & L2 & L3).
  assert (LA : length (v1_scripts a) = length (v1_assets a)) by congruence.
  assert (LB : length (v1_assets a) = length (v1_values a)) by congruence.
  unfold preimage_v1, spec_v1_preimage, spents_of. fold (spents (v1_scripts a) (v1_assets a) (v1_values a)).
  destruct (nth_error (t_ins t) idx) as [own|] eqn:EN; [|reflexivity].
  pose proof (nth_spents (v1_scripts a) (v1_assets a) (v1_values a) idx LA LB) as NS.
  destruct (ser_asset_amounts_spents (v1_scripts a) (v1_assets a) (v1_values a) LA LB) as [SA SS].
  assert (IDX : (idx < length (t_ins t))%nat) by (apply nth_error_Some; congruence).
  destruct (nth_error (v1_assets a) idx) as [ea|] eqn:E1; [|apply nth_error_None in E1; lia].
  destruct (nth_error (v1_values a) idx) as [ev|] eqn:E2; [|apply nth_error_None in E2; lia].
  destruct (nth_error (v1_scripts a) idx) as [es|] eqn:E3; [|apply nth_error_None in E3; lia].
  rewrite NS, outs_all_S, outs_single_S, spend_type_S, !out_type_eq.
  unfold v1_ins_part, v1_own_part. rewrite E1, E2, E3, SA, SS, v1_acp_eq.
  (* the remaining parts agree one by one, up to the names of the serializers *)
  destruct (anyonecanpay ht); f_equal; unfold layout, S_outpoint, u8, u32;
    cbn [concat app sp_asset sp_value sp_script]; rewrite ?app_nil_r, <- ?app_assoc; repeat f_equal.
  destruct (in_iss own); [rewrite ser_issuance_proofs_one|]; reflexivity.
Qed.

Definition legacy_domain (t : tx) (idx : nat) (ht : N) : Prop :=
  ht_acp ht = false /\ ht_rp ht = false /\ (ht_single ht = true -> ht_none ht = false -> idx = 0%nat) /\
  Forall (fun i => in_index i <= OutpointIndexMask) (t_ins t).

Lemma lor_disjoint a b : N.land a b = 0 -> N.lor a b = a + b.
Proof. intro D. rewrite <- N.lxor_lor by exact D. symmetry. apply N.add_nocarry_lxor. exact D. Qed.

Lemma raw_index_add i : in_index i <= OutpointIndexMask ->
  raw_index i = in_index i + (match in_iss i with Some _ => 0x80000000 | None => 0 end) + (if in_pegin i then 0x40000000 else 0).
Proof.
  intro H. unfold raw_index, OutpointIssuanceFlag, OutpointPeginFlag.
  assert (B : in_index i < 2 ^ 30) by (unfold OutpointIndexMask in H; lia).
  assert (T : forall m, 30 <= m -> N.testbit (in_index i) m = false) by (intros m; apply (testbit_small_le _ 30 m B)).
  assert (D1 : N.land (in_index i) 0x80000000 = 0).
  { change 0x80000000 with (2 ^ 31). rewrite land_pow2, T by lia. reflexivity. }
  assert (D2 : forall x, N.testbit x 30 = false -> N.land x 0x40000000 = 0).
  { intros x X. change 0x40000000 with (2 ^ 30). rewrite land_pow2, X. reflexivity. }
  destruct (in_iss i), (in_pegin i); rewrite ?N.add_0_r; try reflexivity.
  - rewrite (lor_disjoint _ _ D1). apply lor_disjoint, D2.
    rewrite <- (lor_disjoint _ _ D1), N.lor_spec, T by lia. reflexivity.
  - apply lor_disjoint, D1.
  - apply lor_disjoint, D2, T. lia.
Qed.

(* own: i is the signing input; sq: the sequence written for an input that is not (ignored when own) *)
Lemma ser_in_spec (script : bytes) (i : txin) (own : bool) (sq : N) :
  in_index i <= OutpointIndexMask ->
  ser_in (set_script (if own then script else []) (if own then i else set_seq sq i)) =
  S_outpoint_flags i ++ (if own then var_slice script else u8 0) ++ u32 (if own then in_seq i else sq) ++
  match in_iss i with Some s => S_issuance s | None => [] end.
Proof.
  intro Fi. unfold ser_in, S_outpoint_flags, u32, u8, S_issuance, ser_iss.
  destruct own; cbn [set_script set_seq in_hash in_index in_seq in_script in_iss in_pegin];
    rewrite <- (raw_index_add i Fi); unfold raw_index; cbn [in_index in_iss in_pegin set_script set_seq];
    rewrite <- ?app_assoc; reflexivity.
Qed.

(* the input vector of the hashed copy; z says whether the other inputs' sequences are zeroed *)
Lemma legacy_inputs_spec (script : bytes) (z : bool) : forall (l : list txin) (k idx : nat),
  Forall (fun i => in_index i <= OutpointIndexMask) l ->
  enc_list ser_in (map_idx (fun j i => set_script (if (j =? idx)%nat then script else []) i) k
                    (if z then map_idx (fun j i => if (j =? idx)%nat then i else set_seq 0 i) k l else l)) =
  legacy_inputs k idx script z l.
Proof.
  induction l as [|i l IH]; intros k idx F; [destruct z; reflexivity|].
  inversion F as [|? ? Fi Fl]; subst. specialize (IH (S k) idx Fl).
  pose proof (ser_in_spec script i (k =? idx)%nat (if z then 0 else in_seq i) Fi) as E.
  unfold enc_list in *. destruct z; cbn [map_idx legacy_inputs map concat]; rewrite IH.
  - rewrite E, <- !app_assoc. destruct (k =? idx)%nat; reflexivity.
  - replace (set_seq (in_seq i) i) with i in E by (destruct i; reflexivity).
    destruct (k =? idx)%nat; rewrite E, <- !app_assoc; reflexivity.
Qed.

Lemma le4_low v : le_enc 4 (v mod 256) = [b8 v; x00; x00; x00].
Proof.
  cbn [le_enc]. unfold b8 at 1. rewrite N.mod_mod by lia. fold (b8 v).
  rewrite (N.div_small (v mod 256)) by (apply N.mod_lt; lia). reflexivity.
Qed.

(* the signature form of a copy followed by the hash type, part by part *)
Lemma sig_layout v f l ins outs ht :
  ser_tx false true true false (mk_tx v f l ins outs) ++ [b8 ht; x00; x00; x00] =
  u32 v ++ varint (lenL ins) ++ enc_list ser_in ins ++ varint (lenL outs) ++ S_all S_txout outs ++ u32 l ++ u32 (ht mod 256).
Proof.
  unfold ser_tx, u32. cbn [andb negb app t_version t_ins t_outs t_locktime].
  fold (ser_outputs outs). rewrite le4_low, ser_outputs_S, app_nil_r, <- !app_assoc. reflexivity.
Qed.

Theorem legacy_refines_spec t idx script ht :
  legacy_domain t idx ht ->
  preimage_legacy t idx script ht = spec_legacy_preimage t idx script ht.
Proof.
  intros (ACP & RP & SNG & F).
  unfold preimage_legacy, legacy_tx, spec_legacy_preimage, zero_other_seqs. rewrite ACP, RP.
  unfold ht_none, ht_single in *. rewrite base_eq in *.
  destruct (Nat.leb_spec (length (t_ins t)) idx) as [LE|GT].
  { apply nth_error_None in LE. rewrite LE. reflexivity. }
  destruct (nth_error (t_ins t) idx) as [own|] eqn:EN; [|apply nth_error_None in EN; lia].
  unfold layout. cbn [concat]. rewrite app_nil_r.
  destruct (base_type ht =? 2) eqn:B2; [|destruct (base_type ht =? 3) eqn:B3]; cbn [andb orb].
  - replace (base_type ht =? 3) with false by (apply N.eqb_eq in B2; rewrite B2; reflexivity).
    rewrite sig_layout, (legacy_inputs_spec script true) by exact F. unfold lenL. rewrite !map_idx_length. reflexivity.
  - rewrite (SNG eq_refl eq_refl) in *.
    destruct (length (t_outs t) <=? 0)%nat; [reflexivity|].
    rewrite sig_layout, (legacy_inputs_spec script true) by exact F. unfold lenL. rewrite !map_idx_length. reflexivity.
  - rewrite sig_layout, (legacy_inputs_spec script false) by exact F. unfold lenL. rewrite !map_idx_length. reflexivity.
Qed.

(* ANYONECANPAY: the signing input alone, own sequence kept (also under NONE / SINGLE); the domain is
   legacy_domain with the bit set *)
Definition legacy_acp_domain (t : tx) (idx : nat) (ht : N) : Prop :=
  ht_acp ht = true /\ ht_rp ht = false /\ (ht_single ht = true -> ht_none ht = false -> idx = 0%nat) /\
  Forall (fun i => in_index i <= OutpointIndexMask) (t_ins t).

Theorem legacy_acp_refines_spec t idx script ht :
  legacy_acp_domain t idx ht ->
  preimage_legacy t idx script ht = spec_legacy_acp_preimage t idx script ht.
Proof.
  intros (ACP & RP & SNG & F).
  unfold preimage_legacy, legacy_tx, spec_legacy_acp_preimage. rewrite ACP, RP.
  unfold ht_none, ht_single in *. rewrite base_eq in *.
  destruct (nth_error (t_ins t) idx) as [own|] eqn:EN; [|reflexivity].
  pose proof (Forall_nth_error _ _ _ _ F EN) as Fo. cbv beta in Fo.
  pose proof (ser_in_spec script own true 0 Fo) as OWN. cbn iota in OWN.
  unfold layout. cbn [concat]. rewrite app_nil_r.
  destruct (base_type ht =? 2) eqn:B2; [|destruct (base_type ht =? 3) eqn:B3]; cbn [andb orb].
  - replace (base_type ht =? 3) with false by (apply N.eqb_eq in B2; rewrite B2; reflexivity).
    rewrite nth_zero_other_seqs, EN, sig_layout, enc_list_one, OWN, <- !app_assoc. reflexivity.
  - rewrite (SNG eq_refl eq_refl) in *.
    destruct (length (t_outs t) <=? 0)%nat; [reflexivity|].
    rewrite nth_zero_other_seqs, EN, sig_layout, enc_list_one, OWN, <- !app_assoc. reflexivity.
  - rewrite EN, sig_layout, enc_list_one, OWN, <- !app_assoc. reflexivity.
Qed.
