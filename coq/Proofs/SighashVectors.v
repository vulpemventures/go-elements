(* Proofs/SighashVectors.v — the specification layouts of Spec/ElementsSighash.v reproduce the published
   signature-hash vectors of transaction/data/tx_valid.json (regenerated into Gen/SighashVectors.v on every run).
   check_legacy / check_v0 / check_v1 parse the transaction of a vector, compute the specified digest and compare
   it with the recorded one; the three theorems at the end say that every vector passes.

   The theorems speak of the checks as defined, with sha256; the evaluation runs on sha256_fast of Lib/Sha256Fast
   (why: see there).  They are reached in three steps: sha256 is abstracted out of the unfolded check
   (check_x_with h; check_x is check_x_with sha256 by conversion); check_x_with uses h through its values only
   (check_x_with_ext), so sha256 may give way to sha256_fast; the evaluation then runs on
   check_x_with sha256_fast. *)
From GE Require Import Lib.Sha256Fast Lib.Bytes Lib.Sha256 Model.Tx Spec.ElementsSighash Gen.SighashVectors.
Open Scope N_scope.

Definition zb (l : list Z) : bytes := map (fun z => b8 (Z.to_N z)) l.

Definition parse_all (bs : bytes) : option tx :=
  match parse_tx bs with Some (t, []) => Some t | _ => None end.

Definition check_legacy (v : list Z * Z * list Z * Z * list Z) : bool :=
  let '(txb, idx, script, ht, expected) := v in
  match parse_all (zb txb) with
  | Some t => bytes_eqb (spec_legacy_digest t (Z.to_nat idx) (zb script) (Z.to_N ht)) (zb expected)
  | None => false end.

Definition check_v0 (v : list Z * Z * list Z * list Z * Z * list Z) : bool :=
  let '(txb, idx, script, value, ht, expected) := v in
  match parse_all (zb txb) with
  | Some t => match spec_v0_digest t (Z.to_nat idx) (zb script) (zb value) (Z.to_N ht) with
              | Some d => bytes_eqb d (zb expected) | None => false end
  | None => false end.

Definition check_v1 (v : list Z * Z * list (list Z * list Z * list Z) * list Z * list Z * Z * list Z) : bool :=
  let '(txb, idx, spents, genesis, leaf, ht, expected) := v in
  match parse_all (zb txb) with
  | Some t =>
      let sp := map (fun p => let '(s, a, va) := p in mk_spent (zb s) (zb a) (zb va)) spents in
      let lf := match leaf with [] => None | _ => Some (zb leaf) end in
      match spec_v1_digest t (Z.to_nat idx) sp (zb genesis) lf None (Z.to_N ht) with
      | Some d => bytes_eqb d (zb expected) | None => false end
  | None => false end.

(* the domain of the legacy specification, decided on a vector: RANGEPROOF (bit 6) clear, and base type SINGLE (3)
   on input 0 only.  The theorem exempts the legacy vectors outside it; ANYONECANPAY is inside (spec_legacy_digest
   dispatches on that bit). *)
Definition legacy_in_domain (v : list Z * Z * list Z * Z * list Z) : bool :=
  let '(_, idx, _, ht, _) := v in
  let h := Z.to_N ht in
  negb (N.testbit h 6) && (negb (h mod 32 =? 3) || (Z.to_nat idx =? 0)%nat).

(* the checks with the hash function as an argument.  They are not written out a second time: each is computed from
   the check itself, unfolded down to sha256, by abstracting sha256 (pattern), so that check_x_with sha256 is
   convertible with check_x (the first step of check_x_fast below). *)
Definition check_legacy_with : (bytes -> bytes) -> _ -> bool :=
  ltac:(let b := eval cbv delta [check_legacy spec_legacy_digest dsha256] in check_legacy in
        let f := eval pattern sha256 in b in
        match f with ?g _ => exact g end).
Definition check_v0_with : (bytes -> bytes) -> _ -> bool :=
  ltac:(let b := eval cbv delta [check_v0 spec_v0_digest spec_v0_preimage dsha256] in check_v0 in
        let f := eval pattern sha256 in b in
        match f with ?g _ => exact g end).
Definition check_v1_with : (bytes -> bytes) -> _ -> bool :=
  ltac:(let b := eval cbv delta [check_v1 spec_v1_digest spec_v1_preimage tagged_hash] in check_v1 in
        let f := eval pattern sha256 in b in
        match f with ?g _ => exact g end).

Section Ext.
Variables h h' : bytes -> bytes.
Hypothesis E : forall x, h x = h' x.

Lemma check_legacy_with_ext v : check_legacy_with h v = check_legacy_with h' v.
Proof.
  destruct v as [[[[txb idx] script] ht] expected]. unfold check_legacy_with.
  destruct (parse_all (zb txb)) as [t|]; [|reflexivity]. cbv beta.
  destruct (if anyonecanpay _ then _ else _) as [p|]; rewrite ?E; reflexivity.
Qed.
Lemma check_v0_with_ext v : check_v0_with h v = check_v0_with h' v.
Proof.
  destruct v as [[[[[txb idx] script] value] ht] expected]. unfold check_v0_with, option_map.
  destruct (parse_all (zb txb)) as [t|]; [|reflexivity]. cbv beta zeta.
  destruct (nth_error (t_ins t) _) as [txin|]; [|reflexivity].
  destruct (nth_error (t_outs t) _); rewrite !E; reflexivity.
Qed.
Lemma check_v1_with_ext v : check_v1_with h v = check_v1_with h' v.
Proof.
  destruct v as [[[[[[txb idx] spents] genesis] leaf] ht] expected]. unfold check_v1_with, option_map.
  destruct (parse_all (zb txb)) as [t|]; [|reflexivity]. cbv beta zeta.
  destruct (nth_error (t_ins t) _) as [txin|]; [|reflexivity].
  destruct (nth_error (map _ spents) _) as [me|]; [|reflexivity].
  destruct (in_iss txin), (nth_error (t_outs t) _); rewrite !E; reflexivity.
Qed.
End Ext.

Lemma check_legacy_fast v : check_legacy v = check_legacy_with sha256_fast v.
Proof.
  transitivity (check_legacy_with sha256 v); [|symmetry; apply check_legacy_with_ext, sha256_fast_eq].
  unfold check_legacy_with, check_legacy, spec_legacy_digest, dsha256. reflexivity.
Qed.
Lemma check_v0_fast v : check_v0 v = check_v0_with sha256_fast v.
Proof.
  transitivity (check_v0_with sha256 v); [|symmetry; apply check_v0_with_ext, sha256_fast_eq].
  unfold check_v0_with, check_v0, spec_v0_digest, spec_v0_preimage, dsha256. reflexivity.
Qed.
Lemma check_v1_fast v : check_v1 v = check_v1_with sha256_fast v.
Proof.
  transitivity (check_v1_with sha256 v); [|symmetry; apply check_v1_with_ext, sha256_fast_eq].
  unfold check_v1_with, check_v1, spec_v1_digest, spec_v1_preimage, tagged_hash. reflexivity.
Qed.

(* stated on the checks as defined; only the evaluation goes through sha256_fast *)
Theorem vectors_legacy_ok : forallb (fun v => negb (legacy_in_domain v) || check_legacy v) g_vec_legacy = true.
Proof.
  rewrite (forallb_ext _ (fun v => negb (legacy_in_domain v) || check_legacy_with sha256_fast v)).
  - vm_compute. reflexivity.
  - intro v. rewrite check_legacy_fast. reflexivity.
Qed.

Theorem vectors_v0_ok : forallb check_v0 g_vec_v0 = true.
Proof. rewrite (forallb_ext _ _ _ check_v0_fast). vm_compute. reflexivity. Qed.

Theorem vectors_v1_ok : forallb check_v1 g_vec_v1 = true.
Proof. rewrite (forallb_ext _ _ _ check_v1_fast). vm_compute. reflexivity. Qed.

Definition n_vectors : nat := (length g_vec_legacy + length g_vec_v0 + length g_vec_v1)%nat.
