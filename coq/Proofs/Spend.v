(* Proofs/Spend.v — C09: sign, finalize, extract yields a transaction that satisfies its inputs.
   Script builder against tokenizer (what is pushed is what is read back); the multisig ordering
   (extractKeyOrderFromScript sorts by the offset of each key's own push, Section Order);
   per template, the final script/witness and its evaluation by satisfies; what a successful
   Finalize implies about the partial signatures (sigs_required) and its contrapositives;
   the extractors against the unsigned transaction (strip_tx); an abstract signature check
   over a digest (chk_dig); signature admission (add_sigs0); example key sets. *)
From Coq Require Import ZifyBool ZifyN ZifyNat Sorting.Sorted Sorting.Permutation.
From GE Require Import Lib.Bytes Lib.Varint Lib.Sha256 Model.Ripemd160 Model.Tx Model.TxHash Model.Spend.
Open Scope N_scope.

Lemma lenL_length {A} (l : list A) : lenL l = N.of_nat (length l).
Proof. reflexivity. Qed.

(* the operand parser inside tokenize_f: the data pushed by opcode op in front of r, and the rest;
   after OP_PUSHDATA1/2/4 the length in k = 1, 2, 4 bytes, then the data *)
Definition pushdata (k : nat) (r : bytes) : option (bytes * bytes) :=
  match p_le k r with Some (n, r1) => takeN n r1 | None => None end.
Definition tok_pushed (op : byte) (r : bytes) : option (bytes * bytes) :=
  if (1 <=? n8 op) && (n8 op <=? 75) then takeN (n8 op) r
  else if n8 op =? 76 then pushdata 1 r
  else if n8 op =? 77 then pushdata 2 r
  else if n8 op =? 78 then pushdata 4 r
  else Some ([], r).

Lemma tokenize_f_step f op r :
  tokenize_f (S f) (op :: r) =
  match tok_pushed op r with
  | None => None
  | Some (d, r') => match tokenize_f f r' with Some l => Some ((op, d) :: l) | None => None end
  end.
Proof. reflexivity. Qed.

Lemma takeN_shorter n s x r : takeN n s = Some (x, r) -> (length r <= length s)%nat.
Proof. intro H. apply takeN_inv in H as [-> _]. rewrite app_length. lia. Qed.

Lemma pushdata_shorter k r d r' : pushdata k r = Some (d, r') -> (length r' <= length r)%nat.
Proof.
  unfold pushdata. destruct (p_le k r) as [[n r1]|] eqn:E; [|discriminate].
  intro H. apply p_le_inv in E as [-> _]. apply takeN_shorter in H. rewrite app_length. lia.
Qed.

Lemma tok_pushed_shorter op r d r' : tok_pushed op r = Some (d, r') -> (length r' <= length r)%nat.
Proof.
  unfold tok_pushed. destruct (_ && _); [apply takeN_shorter|].
  destruct (_ =? 76); [apply pushdata_shorter|].
  destruct (_ =? 77); [apply pushdata_shorter|].
  destruct (_ =? 78); [apply pushdata_shorter|].
  intro H. inversion H. lia.
Qed.

Lemma tokenize_f_fuel : forall f f' s, (length s < f)%nat -> (length s < f')%nat ->
  tokenize_f f s = tokenize_f f' s.
Proof.
  induction f as [|f IH]; intros [|f'] s Hf Hf'; try lia.
  destruct s as [|op r]; [reflexivity|].
  rewrite !tokenize_f_step. cbn [length] in Hf, Hf'.
  destruct (tok_pushed op r) as [[d r']|] eqn:E; [|reflexivity].
  apply tok_pushed_shorter in E. rewrite (IH f' r') by lia. reflexivity.
Qed.

Lemma tokenize_cons op r d rest : tok_pushed op r = Some (d, rest) ->
  tokenize (op :: r) = match tokenize rest with Some l => Some ((op, d) :: l) | None => None end.
Proof.
  intro E. unfold tokenize. cbn [length]. rewrite tokenize_f_step, E.
  apply tok_pushed_shorter in E.
  rewrite (tokenize_f_fuel (S (length r)) (S (length rest)) rest) by lia. reflexivity.
Qed.

Lemma not_push_op o : o = 0 \/ 79 <= o ->
  (1 <=? o) && (o <=? 75) = false /\ (o =? 76) = false /\ (o =? 77) = false /\ (o =? 78) = false.
Proof. lia. Qed.

Lemma tok_pushed_op op r : n8 op = 0 \/ 79 <= n8 op -> tok_pushed op r = Some ([], r).
Proof.
  intro H. destruct (not_push_op _ H) as (E1 & E2 & E3 & E4).
  unfold tok_pushed. rewrite E1, E2, E3, E4. reflexivity.
Qed.

Lemma tok_pushed_direct d rest : 1 <= lenN d -> lenN d <= 75 ->
  tok_pushed (b8 (lenN d)) (d ++ rest) = Some (d, rest).
Proof.
  intros H1 H2. unfold tok_pushed. rewrite n8_b8_small by lia.
  replace ((1 <=? lenN d) && (lenN d <=? 75)) with true by lia. apply takeN_app.
Qed.

Lemma pushdata_app k d rest : lenN d < 256 ^ N.of_nat k ->
  pushdata k (le_enc k (lenN d) ++ d ++ rest) = Some (d, rest).
Proof. intro H. unfold pushdata. rewrite p_le_app by exact H. apply takeN_app. Qed.

(* an item the builder pushes with a data-push opcode: 2..520 bytes *)
Definition pushable (d : bytes) : Prop := 2 <= lenN d /\ lenN d <= 520.

Lemma add_data_raw_long d : 2 <= lenN d -> lenN d <= 65535 ->
  add_data_raw d =
  if lenN d <? 76 then b8 (lenN d) :: d
  else if lenN d <=? 255 then x4c :: b8 (lenN d) :: d
  else x4d :: le_enc 2 (lenN d) ++ d.
Proof.
  intros H1 H2. destruct d as [|a [|b r]]; [cbn in H1; lia | cbn in H1; lia |].
  unfold add_data_raw. fold (lenN (a :: b :: r)).
  replace (lenN (a :: b :: r) <=? 65535) with true by lia. reflexivity.
Qed.

Lemma add_data_raw_len d : pushable d -> 1 <= lenN (add_data_raw d) <= 523.
Proof.
  intros [H1 H2]. rewrite add_data_raw_long by lia.
  destruct (lenN d <? 76); [rewrite lenN_cons; lia|].
  destruct (lenN d <=? 255); [rewrite !lenN_cons; lia|].
  rewrite lenN_cons, lenN_app, lenN_le_enc. lia.
Qed.

Lemma parse_pushes_cons op r d rest : tok_pushed op r = Some (d, rest) -> is_push_op op = true ->
  parse_pushes (op :: r) = match parse_pushes rest with Some xs => Some (d :: xs) | None => None end.
Proof.
  intros E H. unfold parse_pushes. rewrite (tokenize_cons _ _ _ _ E).
  destruct (tokenize rest) as [l|]; [|reflexivity].
  unfold is_push_op in H. cbn [pushes_of].
  replace (n8 op =? 0) with false by lia. replace (n8 op <=? 78) with true by lia. reflexivity.
Qed.

Lemma parse_pushes_push d rest : pushable d ->
  parse_pushes (add_data_raw d ++ rest) =
  match parse_pushes rest with Some xs => Some (d :: xs) | None => None end.
Proof.
  intros [H1 H2]. rewrite add_data_raw_long by lia.
  destruct (N.ltb_spec (lenN d) 76); [|destruct (N.leb_spec (lenN d) 255)]; cbn [app].
  - apply parse_pushes_cons; [apply tok_pushed_direct; lia|].
    unfold is_push_op. rewrite n8_b8_small by lia. lia.
  - apply (parse_pushes_cons x4c); [apply (pushdata_app 1); cbn; lia | reflexivity].
  - rewrite <- app_assoc. apply (parse_pushes_cons x4d); [apply (pushdata_app 2); cbn; lia | reflexivity].
Qed.

Lemma parse_pushes_single d : pushable d -> parse_pushes (add_data_raw d) = Some [d].
Proof. intro H. rewrite <- (app_nil_r (add_data_raw d)). apply parse_pushes_push. exact H. Qed.

Lemma parse_pushes_op0 rest :
  parse_pushes (x00 :: rest) = match parse_pushes rest with Some xs => Some ([] :: xs) | None => None end.
Proof.
  unfold parse_pushes. rewrite (tokenize_cons x00 rest [] rest eq_refl).
  destruct (tokenize rest) as [l|]; reflexivity.
Qed.

Lemma parse_pushes_concat items rest : Forall pushable items ->
  parse_pushes (concat (map add_data_raw items) ++ rest) =
  match parse_pushes rest with Some xs => Some (items ++ xs) | None => None end.
Proof.
  induction 1 as [|d items Hd Hr IH]; cbn [map concat app].
  - destruct (parse_pushes rest); reflexivity.
  - rewrite <- app_assoc, parse_pushes_push by exact Hd. rewrite IH.
    destruct (parse_pushes rest); reflexivity.
Qed.

(* 9477 = MaxScriptSize - 523, the longest push of a pushable item *)
Lemma sb_data_ok s d : pushable d -> lenN s <= 9477 -> sb_data (Some s) d = Some (s ++ add_data_raw d).
Proof.
  intros Hd Hs. pose proof (add_data_raw_len d Hd). destruct Hd as [_ Hd].
  unfold sb_data, MaxScriptSize, MaxScriptElementSize.
  replace (lenN s + lenN (add_data_raw d) <=? 10000) with true by lia.
  replace (lenN d <=? 520) with true by lia. reflexivity.
Qed.

Lemma lenN_concat_pushes items : Forall pushable items ->
  lenN (concat (map add_data_raw items)) <= 523 * lenL items.
Proof.
  induction 1 as [|d items Hd _ IH]; cbn [map concat]; [cbn; lia|].
  rewrite lenN_app. pose proof (add_data_raw_len d Hd). unfold lenL in *. cbn [length]. lia.
Qed.

Lemma fold_sb_data items : forall s, Forall pushable items ->
  lenN s + 523 * lenL items <= 10000 ->
  fold_left sb_data items (Some s) = Some (s ++ concat (map add_data_raw items)).
Proof.
  induction items as [|d items IH]; intros s Hf Hl; cbn [fold_left map concat].
  - rewrite app_nil_r. reflexivity.
  - inversion Hf as [|? ? Hd Hr]; subst. pose proof (add_data_raw_len d Hd).
    unfold lenL in *. cbn [length] in Hl.
    rewrite sb_data_ok by (trivial; lia).
    rewrite IH by (trivial; rewrite lenN_app; lia). rewrite <- app_assoc. reflexivity.
Qed.

Definition wf_key (k : bytes) : Prop := lenN k = 33 \/ lenN k = 65.

Lemma wf_key_pushable k : wf_key k -> pushable k.
Proof. intros [H | H]; unfold pushable; rewrite H; lia. Qed.

Lemma small_int_is_op n : n <= 16 -> small_int_op (small_int n) = true /\ as_small_int (small_int n) = n /\
  (n8 (small_int n) = 0 \/ 79 <= n8 (small_int n)).
Proof.
  intro H. unfold small_int, small_int_op, as_small_int, SOP_0.
  destruct (N.eqb_spec n 0) as [->|Hn]; [cbn; repeat split; lia|].
  rewrite n8_b8_small by lia.
  replace (80 + n =? 0) with false by lia. repeat split; lia.
Qed.

Local Notation key_tok := (fun k : bytes => (b8 (lenN k), k)).

Lemma key_op k : wf_key k ->
  small_int_op (b8 (lenN k)) = false /\ is_push_op (b8 (lenN k)) = true /\ tok_size (key_tok k) = 1 + lenN k.
Proof. intros [H | H]; unfold tok_size; cbn [fst snd]; rewrite H; repeat split; reflexivity. Qed.

Lemma tokenize_keys keys rest : Forall wf_key keys ->
  tokenize (concat (map push_key keys) ++ rest) =
  match tokenize rest with Some l => Some (map key_tok keys ++ l) | None => None end.
Proof.
  induction 1 as [|k keys Hk Hr IH]; cbn [map concat app].
  - destruct (tokenize rest); reflexivity.
  - unfold push_key at 1. cbn [app]. rewrite <- app_assoc.
    rewrite (tokenize_cons _ _ k _) by (apply tok_pushed_direct; destruct Hk as [-> | ->]; lia).
    rewrite IH. destruct (tokenize rest); reflexivity.
Qed.

Lemma tokenize_multisig m keys : m <= 16 -> lenL keys <= 16 -> Forall wf_key keys ->
  tokenize (multisig_script m keys) =
  Some ((small_int m, []) :: map key_tok keys ++ [(small_int (lenL keys), []); (SOP_CHECKMULTISIG, [])]).
Proof.
  intros Hm Hn Hk. unfold multisig_script.
  destruct (small_int_is_op m Hm) as (_ & _ & Hop).
  destruct (small_int_is_op (lenL keys) Hn) as (_ & _ & Hop2).
  rewrite (tokenize_cons _ _ _ _ (tok_pushed_op _ _ Hop)), tokenize_keys by exact Hk.
  rewrite (tokenize_cons _ _ _ _ (tok_pushed_op _ _ Hop2)). reflexivity.
Qed.

Lemma ms_count_keys keys op rest : Forall wf_key keys -> small_int_op op = true -> forall acc,
  ms_count (map key_tok keys ++ (op, []) :: rest) acc = Some (acc + lenL keys, op, rest).
Proof.
  intros Hk Hop. induction Hk as [|k keys Hk1 Hr IH]; intro acc; cbn [map app ms_count].
  - rewrite Hop, N.add_0_r. reflexivity.
  - destruct (key_op k Hk1) as (-> & _). rewrite IH. unfold lenL. cbn [length]. do 3 f_equal. lia.
Qed.

Lemma ms_keys_keys keys op rest : Forall wf_key keys -> small_int_op op = true ->
  ms_keys (map key_tok keys ++ (op, []) :: rest) = keys.
Proof.
  intros Hk Hop. induction Hk as [|k keys Hk1 Hr IH]; cbn [map app ms_keys].
  - rewrite Hop. reflexivity.
  - destruct (key_op k Hk1) as (-> & _). rewrite IH. reflexivity.
Qed.

Lemma ms_stats_multisig m keys : m <= 16 -> lenL keys <= 16 -> Forall wf_key keys ->
  ms_stats (multisig_script m keys) = Some (lenL keys, m).
Proof.
  intros Hm Hn Hk. unfold ms_stats. rewrite tokenize_multisig by assumption.
  destruct (small_int_is_op m Hm) as (Hop & Has & _). rewrite Hop.
  destruct (small_int_is_op (lenL keys) Hn) as (Hop2 & Has2 & _).
  rewrite ms_count_keys by assumption. rewrite Has2, Has. cbn [N.add].
  rewrite N.eqb_refl. reflexivity.
Qed.

Lemma ms_parse_multisig m keys : m <= 16 -> lenL keys <= 16 -> Forall wf_key keys ->
  ms_parse (multisig_script m keys) = Some (m, keys).
Proof.
  intros Hm Hn Hk. unfold ms_parse. rewrite ms_stats_multisig, tokenize_multisig by assumption.
  destruct (small_int_is_op (lenL keys) Hn) as (Hop2 & _ & _).
  rewrite ms_keys_keys by assumption. reflexivity.
Qed.

Lemma multisig_script_len m keys : Forall wf_key keys ->
  3 <= lenN (multisig_script m keys) <= 3 + 66 * lenL keys.
Proof.
  intro Hk. unfold multisig_script. rewrite lenN_cons, lenN_app.
  change (lenN [small_int (lenL keys); SOP_CHECKMULTISIG]) with 2.
  assert (lenN (concat (map push_key keys)) <= 66 * lenL keys); [|lia].
  induction Hk as [|k r Hk1 Hr IH]; [cbn; lia|].
  cbn [map concat]. unfold push_key at 1. rewrite lenN_app, lenN_cons.
  unfold lenL in *. cbn [length]. destruct Hk1 as [E | E]; rewrite E; lia.
Qed.

Lemma multisig_not_witness_program m keys : Forall wf_key keys -> keys <> [] ->
  is_witness_program (multisig_script m keys) = false.
Proof.
  intros Hk Hne. destruct Hk as [|k keys Hk1 _]; [congruence|].
  unfold multisig_script, is_witness_program. cbn [map concat]. unfold push_key at 1. cbn [app].
  rewrite !lenN_cons, !lenN_app, n8_b8_small by (destruct Hk1 as [-> | ->]; lia).
  change (lenN [_; _]) with 2. destruct Hk1 as [E | E]; rewrite E; lia.
Qed.

Definition memb (pks : list bytes) (k : bytes) : bool := existsb (bytes_eqb k) pks.

Lemma memb_In pks k : memb pks k = true <-> In k pks.
Proof.
  unfold memb. rewrite existsb_exists. split.
  - intros (x & Hx & E). apply bytes_eqb_eq in E. subst. exact Hx.
  - intro H. exists k. split; [exact H | apply bytes_eqb_refl].
Qed.

Lemma memb_false pks k : ~ In k pks -> memb pks k = false.
Proof. intro H. destruct (memb pks k) eqn:E; [apply memb_In in E; contradiction | reflexivity]. Qed.

Lemma filter_In_memb pks keys k : In k (filter (memb pks) keys) <-> In k keys /\ In k pks.
Proof. rewrite filter_In, memb_In. reflexivity. Qed.

(* as many keys of the script belong to signers as there are signers *)
Lemma filter_memb_length keys pks : NoDup keys -> NoDup pks -> incl pks keys ->
  length (filter (memb pks) keys) = length pks.
Proof.
  intros Hk Hp Hi. apply Nat.le_antisymm; apply NoDup_incl_length; try assumption.
  - apply NoDup_filter. exact Hk.
  - intros k Hin. apply filter_In_memb in Hin. apply Hin.
  - intros k Hin. apply filter_In_memb. split; [apply Hi|]; exact Hin.
Qed.

Section Order.
  Variable script : bytes.
  Variable pos : bytes -> N.
  Variable sg : bytes -> bytes.
  Let f (k : bytes) : N * bytes := (pos k, sg k).
  Let pair (k : bytes) : bytes * bytes := (k, sg k).

  Lemma positions_eq pks : (forall k, In k pks -> key_position script k = Some (pos k)) ->
    positions script (map pair pks) = Some (map f pks).
  Proof.
    induction pks as [|k pks IH]; intro H; cbn [map positions]; [reflexivity|].
    unfold pair at 1. rewrite (H k (or_introl eq_refl)).
    rewrite IH by (intros k' Hk'; apply H; right; exact Hk'). reflexivity.
  Qed.

  (* inserting the signature of x among those of S, both taken from keys sorted by position *)
  Lemma insert_into_sorted x S : forall ks,
    StronglySorted N.lt (map pos ks) -> In x ks -> ~ In x S ->
    insert_pos (f x) (map f (filter (memb S) ks)) = map f (filter (memb (x :: S)) ks).
  Proof.
    induction ks as [|k r IH]; intros Hs Hin Hns; [destruct Hin|].
    cbn [map] in Hs. apply StronglySorted_inv in Hs as [Hsr Hall]. rewrite Forall_forall in Hall.
    assert (Hlt : forall y, In y r -> pos k < pos y) by (intros y Hy; apply Hall, in_map, Hy).
    cbn [filter]. change (memb (x :: S) k) with (bytes_eqb k x || memb S k).
    destruct (bytes_eqb k x) eqn:Ekx.
    - apply bytes_eqb_eq in Ekx. subst k. cbn [orb].
      rewrite (memb_false S x Hns). cbn [map].
      assert (Efil : filter (memb (x :: S)) r = filter (memb S) r).
      { apply filter_ext_in. intros y Hy. change (memb (x :: S) y) with (bytes_eqb y x || memb S y).
        destruct (bytes_eqb y x) eqn:E; [|reflexivity].
        apply bytes_eqb_eq in E. subst y. apply Hlt in Hy. lia. }
      rewrite Efil.
      destruct (filter (memb S) r) as [|y r'] eqn:Ef; [reflexivity|].
      assert (Hy : In y r) by (apply (filter_In_memb S r y); rewrite Ef; left; reflexivity).
      cbn [map insert_pos fst f]. apply Hlt in Hy.
      replace (pos y <=? pos x) with false by lia. reflexivity.
    - cbn [orb]. destruct Hin as [->|Hin]; [rewrite bytes_eqb_refl in Ekx; discriminate|].
      destruct (memb S k); [|apply IH; assumption].
      cbn [map insert_pos fst f]. pose proof (Hlt x Hin).
      replace (pos k <=? pos x) with true by lia. rewrite <- IH by assumption. reflexivity.
  Qed.

  Lemma sort_positions keys : StronglySorted N.lt (map pos keys) -> forall pks,
    NoDup pks -> incl pks keys ->
    sort_pos (map f pks) = map f (filter (memb pks) keys).
  Proof.
    intros Hs. induction pks as [|x pks IH]; intros Hnd Hincl; cbn [map sort_pos].
    - replace (filter (memb []) keys) with (@nil bytes); [reflexivity|].
      clear. induction keys as [|k r IH]; [reflexivity | exact IH].
    - inversion Hnd as [|? ? Hx Hnd']; subst.
      rewrite IH by (try assumption; intros y Hy; apply Hincl; right; exact Hy).
      apply insert_into_sorted; [exact Hs | apply Hincl; left; reflexivity | exact Hx].
  Qed.

  (* extractKeyOrderFromScript returns the signatures in the order of the keys in the script,
     whatever the order of the partial signatures *)
  Lemma extract_key_order_sorted keys n pks :
    ms_stats script = Some (n, lenL pks) ->
    (forall k, In k keys -> key_position script k = Some (pos k)) ->
    StronglySorted N.lt (map pos keys) -> NoDup pks -> incl pks keys ->
    extract_key_order script (map pair pks) = Some (map sg (filter (memb pks) keys)).
  Proof.
    intros Hms Hpos Hs Hnd Hincl. unfold extract_key_order. rewrite Hms.
    unfold lenL. rewrite map_length, N.eqb_refl.
    rewrite positions_eq by (intros k Hk; apply Hpos, Hincl, Hk).
    rewrite (sort_positions keys Hs pks Hnd Hincl), map_map. reflexivity.
  Qed.
End Order.

(* OP_CHECKMULTISIG accepts signatures that follow the key order, each valid for its own key
   and for no other key of the script *)
Lemma cms_loop_accepts (chk : bytes -> bytes -> bool) (sg : bytes -> bytes) (S : bytes -> bool) :
  forall ks, NoDup ks ->
  (forall k, In k ks -> S k = true -> chk k (sg k) = true) ->
  (forall k k', In k ks -> In k' ks -> chk k (sg k') = true -> k = k') ->
  cms_loop chk ks (map sg (filter S ks)) = true.
Proof.
  induction ks as [|k r IH]; intros Hnd Hv Hex; [reflexivity|].
  inversion Hnd as [|? ? Hk Hnd']; subst.
  assert (IH' : cms_loop chk r (map sg (filter S r)) = true).
  { apply IH; [exact Hnd' | intros; apply Hv; [right|]; assumption
               | intros a b Ha Hb; apply Hex; right; assumption]. }
  cbn [filter]. destruct (S k) eqn:ES.
  - cbn [map cms_loop]. rewrite (Hv k (or_introl eq_refl) ES). exact IH'.
  - destruct (filter S r) as [|y r'] eqn:Ef; [reflexivity|].
    cbn [map cms_loop]. cbn [map] in IH'.
    destruct (chk k (sg y)) eqn:Ec; [|exact IH'].
    assert (Hy : In y r) by (apply (filter_In S y r); rewrite Ef; left; reflexivity).
    assert (k = y) by (apply Hex; [left; reflexivity | right; exact Hy | exact Ec]).
    subst y. contradiction.
Qed.

Lemma filter_rev {A} (p : A -> bool) (l : list A) : filter p (rev l) = rev (filter p l).
Proof.
  induction l as [|x l IH]; [reflexivity|]. cbn [rev filter].
  rewrite filter_app, IH. cbn [filter]. destruct (p x); [reflexivity | apply app_nil_r].
Qed.

Lemma filter_length_le {A} (p : A -> bool) (l : list A) : (length (filter p l) <= length l)%nat.
Proof. induction l as [|x l IH]; cbn; [lia | destruct (p x); cbn; lia]. Qed.

Lemma checkmultisig_accepts chk sg keys pks :
  NoDup keys -> NoDup pks -> incl pks keys ->
  (forall k, In k pks -> chk k (sg k) = true) ->
  (forall k k', In k keys -> In k' keys -> chk k (sg k') = true -> k = k') ->
  checkmultisig chk (lenL pks) keys ([] :: map sg (filter (memb pks) keys)) = true.
Proof.
  intros Hndk Hnd Hincl Hv Hex. unfold checkmultisig, lenL. cbn [nonempty negb andb].
  rewrite map_length, filter_memb_length, N.eqb_refl by assumption.
  pose proof (NoDup_incl_length Hnd Hincl).
  replace (N.of_nat (length pks) <=? N.of_nat (length keys)) with true by lia. cbn [andb].
  rewrite <- map_rev, <- filter_rev.
  apply cms_loop_accepts.
  - apply NoDup_rev. exact Hndk.
  - intros k _ HS. apply Hv, memb_In, HS.
  - intros k k' Hk Hk'. apply Hex; apply in_rev; assumption.
Qed.

(* offset of the push of k among the pushes of keys, the first of which starts at off *)
Fixpoint key_off (keys : list bytes) (k : bytes) (off : N) : N :=
  match keys with
  | [] => off
  | x :: r => if bytes_eqb x k then off else key_off r k (off + 1 + lenN x)
  end.

Lemma push_index_keys k rest : forall keys off, Forall wf_key keys -> In k keys ->
  push_index k (map key_tok keys ++ rest) off = Some (key_off keys k off).
Proof.
  induction keys as [|x r IH]; intros off Hk Hin; [destruct Hin|].
  inversion Hk as [|? ? Hx Hr]; subst.
  destruct (key_op x Hx) as (_ & Hp & Hs).
  cbn [map app push_index key_off]. rewrite Hp. cbn [andb].
  destruct (bytes_eqb x k) eqn:E; [reflexivity|].
  destruct Hin as [->|Hin]; [rewrite bytes_eqb_refl in E; discriminate|].
  rewrite Hs, IH, N.add_assoc by assumption. reflexivity.
Qed.

Lemma key_off_ge keys k : forall off, off <= key_off keys k off.
Proof.
  induction keys as [|x r IH]; intro off; cbn [key_off]; [lia|].
  destruct (bytes_eqb x k); [lia|]. specialize (IH (off + 1 + lenN x)). lia.
Qed.

Lemma key_off_sorted : forall keys off, NoDup keys ->
  StronglySorted N.lt (map (fun k => key_off keys k off) keys).
Proof.
  induction keys as [|x r IH]; intros off Hnd; [constructor|].
  inversion Hnd as [|? ? Hx Hr]; subst. cbn [map].
  assert (E : map (fun k => key_off (x :: r) k off) r = map (fun k => key_off r k (off + 1 + lenN x)) r).
  { apply map_ext_in. intros k Hk. cbn [key_off].
    destruct (bytes_eqb x k) eqn:Ex; [|reflexivity]. apply bytes_eqb_eq in Ex. subst k. contradiction. }
  rewrite E. constructor; [apply IH; exact Hr|].
  apply Forall_forall. intros y Hy. apply in_map_iff in Hy as (k & <- & Hk).
  cbn [key_off]. rewrite bytes_eqb_refl. pose proof (key_off_ge r k (off + 1 + lenN x)). lia.
Qed.

(* the position extractKeyOrderFromScript gives a key is the offset of its own push, also when
   its bytes occur earlier inside another push *)
Lemma key_position_multisig m keys k : m <= 16 -> lenL keys <= 16 -> Forall wf_key keys -> In k keys ->
  key_position (multisig_script m keys) k = Some (key_off keys k 1).
Proof.
  intros Hm Hn Hk Hin. unfold key_position. rewrite tokenize_multisig by assumption.
  destruct (small_int_is_op m Hm) as (_ & _ & Hop).
  destruct (not_push_op _ Hop) as (E1 & E2 & E3 & E4).
  cbn [push_index]. unfold is_push_op, tok_size. cbn [fst snd].
  replace ((1 <=? n8 (small_int m)) && (n8 (small_int m) <=? 78)) with false by lia.
  rewrite E1, E2, E3, E4. cbn [andb]. apply push_index_keys; assumption.
Qed.

Record ms_ok (m : N) (keys pks : list bytes) (sgf : bytes -> bytes) : Prop := {
  mo_m : 1 <= m /\ m <= 16;
  mo_n : lenL keys <= 16;
  mo_keys : Forall wf_key keys;
  mo_nodupk : NoDup keys;
  mo_nodup : NoDup pks;
  mo_incl : incl pks keys;
  mo_count : m = lenL pks;
  mo_sigs : forall k, In k pks -> pushable (sgf k)
}.

Definition ms_pairs (sgf : bytes -> bytes) (pks : list bytes) : list (bytes * bytes) :=
  map (fun k => (k, sgf k)) pks.
Definition ms_ordered (sgf : bytes -> bytes) (keys pks : list bytes) : list bytes :=
  map sgf (filter (memb pks) keys).

Lemma ms_order m keys pks sgf : ms_ok m keys pks sgf ->
  extract_key_order (multisig_script m keys) (ms_pairs sgf pks) = Some (ms_ordered sgf keys pks).
Proof.
  intros [[_ Hm] Hn Hk Hndk Hnd Hincl -> _].
  apply extract_key_order_sorted with (pos := fun k => key_off keys k 1) (n := lenL keys); try assumption.
  - apply ms_stats_multisig; assumption.
  - intros k Hin. apply key_position_multisig; assumption.
  - apply key_off_sorted. exact Hndk.
Qed.

Lemma ms_ordered_pushable m keys pks sgf : ms_ok m keys pks sgf -> Forall pushable (ms_ordered sgf keys pks).
Proof.
  intro H. apply Forall_forall. intros x Hx. apply in_map_iff in Hx as (k & <- & Hk).
  apply filter_In_memb in Hk. apply (mo_sigs _ _ _ _ H), Hk.
Qed.

Lemma ms_ordered_len m keys pks sgf : ms_ok m keys pks sgf -> lenL (ms_ordered sgf keys pks) = m.
Proof.
  intro H. rewrite (mo_count _ _ _ _ H). unfold ms_ordered, lenL. rewrite map_length.
  f_equal. apply filter_memb_length; apply H.
Qed.

Lemma ms_pks_nonempty m keys pks sgf : ms_ok m keys pks sgf -> pks <> [] /\ keys <> [].
Proof.
  intros H. destruct (mo_m _ _ _ _ H) as [Hm _]. pose proof (mo_count _ _ _ _ H) as Hc.
  destruct pks as [|k r]; [cbn in Hc; lia|]. split; [discriminate|].
  intro E. subst keys. apply (mo_incl _ _ _ _ H k). left. reflexivity.
Qed.

Lemma read_witness_ser w : Forall (fun x => lenN x <= 10000) w -> lenL w <= 10000 ->
  read_witness (ser_witness w) = Some w.
Proof.
  intros H1 H2. unfold read_witness, ser_witness. rewrite <- (app_nil_r (vector w)), p_vector_app.
  - replace (forallb (fun x => lenN x <=? MaxScriptSize) w) with true; [reflexivity|].
    symmetry. apply forallb_forall. intros x Hx. rewrite Forall_forall in H1.
    specialize (H1 x Hx). unfold MaxScriptSize. lia.
  - split; [unfold two64; lia|].
    eapply Forall_impl; [|exact H1]. intros x Hx. cbn beta in Hx. unfold two64. lia.
Qed.

Lemma unsnoc_app {A} (l : list A) (x : A) : unsnoc (l ++ [x]) = Some (l, x).
Proof.
  induction l as [|a l IH]; [reflexivity|]. cbn [app unsnoc]. rewrite IH.
  destruct (l ++ [x]) eqn:E; [destruct l; discriminate | reflexivity].
Qed.

Lemma last_byte_snoc l x : last_byte (l ++ [x]) = Some x.
Proof.
  induction l as [|a r IH]; [reflexivity|]. cbn [app last_byte]. rewrite IH.
  destruct (r ++ [x]) eqn:E; [destruct r; discriminate | reflexivity].
Qed.

(* the hash-type check of the finalizer passes exactly on signatures that end in the expected byte *)
Definition sig_typed (e : N) (sg : bytes) : Prop := exists b, last_byte sg = Some b /\ n8 b = e.

Lemma check_sigs_typed e sigs :
  check_sigs_sht e sigs = OcOk tt <-> forall pk sg, In (pk, sg) sigs -> sig_typed e sg.
Proof.
  induction sigs as [|[pk0 sg0] r IH]; cbn [check_sigs_sht].
  - split; [intros _ ? ? [] | reflexivity].
  - split.
    + destruct (last_byte sg0) as [b|] eqn:El; [|discriminate].
      destruct (N.eqb_spec e (n8 b)) as [->|]; [|discriminate].
      intros H pk sg [E|Hin]; [|apply (proj1 IH H pk sg Hin)].
      inversion E; subst. exists b. split; [exact El | reflexivity].
    + intro H. destruct (H pk0 sg0 (or_introl eq_refl)) as (b & -> & <-). rewrite N.eqb_refl.
      apply IH. intros pk sg Hin. apply (H pk sg). right. exact Hin.
Qed.

Lemma check_sigs_single e pk sg : sig_typed e sg -> check_sigs_sht e [(pk, sg)] = OcOk tt.
Proof. intro H. apply check_sigs_typed. intros pk' sg' [E|[]]. inversion E; subst. exact H. Qed.

Lemma has_f_some v2 s : nonempty s = true -> has_f v2 (Some s) = true.
Proof. intro H. unfold has_f. destruct v2; [exact H | reflexivity]. Qed.

Lemma nonempty_len (d : bytes) : 1 <= lenN d -> nonempty d = true.
Proof. intro H. destruct d; [cbn in H; lia | reflexivity]. Qed.

(* template scripts are classified as themselves: the recognisers test the script length first, so
   with the length of the hash known the rest computes; where they also look at the bytes after
   the hash, the hash is split into its bytes *)
Tactic Notation "explode" ident(h) hyp(H) integer(n) :=
  do n (destruct h as [|? h]; [cbn in H; discriminate H|]);
  destruct h; [|cbn in H; discriminate H].

Lemma native_is_witness_program s : is_p2wpkh s || is_p2wsh s = true -> is_witness_program s = true.
Proof.
  destruct s as [|a [|b r]]; try discriminate.
  unfold is_p2wpkh, is_p2wsh, is_witness_program, small_int_op. rewrite !lenN_cons. lia.
Qed.

Lemma witness_program_pushable s : is_witness_program s = true -> pushable s.
Proof.
  destruct s as [|a [|b r]]; try discriminate.
  unfold is_witness_program, pushable. lia.
Qed.

Lemma native_p2wpkh h : length h = 20%nat -> is_p2wpkh (p2wpkh_script h) || is_p2wsh (p2wpkh_script h) = true.
Proof. intro H. unfold is_p2wpkh, p2wpkh_script, lenN. cbn [app length]. rewrite H. reflexivity. Qed.

Lemma native_p2wsh h : length h = 32%nat -> is_p2wpkh (p2wsh_script h) || is_p2wsh (p2wsh_script h) = true.
Proof. intro H. unfold is_p2wpkh, is_p2wsh, p2wsh_script, lenN. cbn [app length]. rewrite H. reflexivity. Qed.

Section Templates.
  Variable chk : salgo -> bytes -> bytes -> bytes -> bool.
  Variable commit : bytes -> bytes -> bytes -> bool.
  Variable v2 : bool.

  Lemma satisfies_p2pkh h ss : length h = 20%nat ->
    satisfies chk commit (p2pkh_script h) ss [] =
    match parse_pushes ss with
    | Some [sg; pk] => bytes_eqb (hash160 pk) h && chk ALegacy (p2pkh_script h) pk sg
    | _ => false
    end.
  Proof. intro H. explode h H 20. reflexivity. Qed.

  Lemma satisfies_p2wpkh h w : length h = 20%nat ->
    satisfies chk commit (p2wpkh_script h) [] w = eval_wpkh chk h w.
  Proof.
    intro H. unfold satisfies, eval_witness_program, is_p2wpkh, p2wpkh_script, lenN.
    cbn [app length]. rewrite H. reflexivity.
  Qed.

  Lemma satisfies_p2wsh h w : length h = 32%nat ->
    satisfies chk commit (p2wsh_script h) [] w = eval_wsh chk h w.
  Proof.
    intro H. unfold satisfies, eval_witness_program, is_p2wpkh, is_p2wsh, p2wsh_script, lenN.
    cbn [app length]. rewrite H. reflexivity.
  Qed.

  Lemma satisfies_p2tr q w : length q = 32%nat ->
    satisfies chk commit (p2tr_script q) [] w = eval_taproot chk commit q w.
  Proof.
    intro H. unfold satisfies, is_p2wpkh, is_p2wsh, is_p2tr, p2tr_script, lenN.
    cbn [app length]. rewrite H. reflexivity.
  Qed.

  Lemma satisfies_p2sh h ss w items rs : length h = 20%nat -> parse_pushes ss = Some (items ++ [rs]) ->
    satisfies chk commit (p2sh_script h) ss w =
    bytes_eqb (hash160 rs) h &&
    if is_witness_program rs then negb (nonempty items) && eval_witness_program chk rs w
    else negb (nonempty w) && eval_multisig chk ALegacy rs items.
  Proof. intros H E. explode h H 20. unfold satisfies. rewrite E, unsnoc_app. reflexivity. Qed.

  Lemma satisfies_native spk w : is_p2wpkh spk || is_p2wsh spk = true ->
    satisfies chk commit spk [] w = eval_witness_program chk spk w.
  Proof. intro H. unfold satisfies. rewrite H. reflexivity. Qed.

  (* a witness program nested in P2SH: the scriptSig is one push of the program, the witness is
     that of the native spend, which is the finalization of the same input without redeem script *)
  Lemma witness_final_nested i rs : pi_redeem i = Some rs -> pushable rs ->
    witness_final v2 i = match witness_final v2 (set_redeem None i) with
                         | OcOk (_, w) => OcOk (add_data_raw rs, w)
                         | OcErr => OcErr
                         | OcPanic => OcPanic
                         end.
  Proof.
    intros Hr Hp. unfold witness_final, expected_sht. cbn [set_redeem pi_sigs pi_sht pi_redeem pi_wscript].
    rewrite Hr, has_f_some by (apply nonempty_len; destruct Hp; lia). cbn [has_f negb obytes].
    unfold sb_new. rewrite sb_data_ok by (trivial; cbn; lia). cbn [app of_builder].
    destruct (check_sigs_sht _ _) as [[]| |]; cbn [obind]; try reflexivity.
    destruct (pi_sigs i) as [|[pk sg] [|]]; try reflexivity;
      destruct (has_f v2 (pi_wscript i)); cbn [negb]; try reflexivity;
      destruct (multisig_witness _ _); reflexivity.
  Qed.

  Lemma nested_final i rs w ws : pi_redeem i = Some rs -> is_p2wpkh rs || is_p2wsh rs = true ->
    witness_final v2 (set_redeem None i) = OcOk ([], w) -> satisfies chk commit rs [] ws = true ->
    exists ss, witness_final v2 i = OcOk (ss, w) /\ nonempty ss = true /\
               satisfies chk commit (p2sh_script (hash160 rs)) ss ws = true.
  Proof.
    intros Hr Hn Hf Hsat. pose proof (native_is_witness_program rs Hn) as Hwp.
    pose proof (witness_program_pushable rs Hwp) as Hp.
    exists (add_data_raw rs). split; [|split].
    - rewrite (witness_final_nested i rs Hr Hp), Hf. reflexivity.
    - apply nonempty_len, add_data_raw_len, Hp.
    - rewrite (satisfies_p2sh _ _ _ [] rs (hash160_length rs) (parse_pushes_single rs Hp)).
      rewrite bytes_eqb_refl, Hwp, <- satisfies_native by exact Hn. exact Hsat.
  Qed.

  Lemma eval_multisig_ok a m keys pks sgf : ms_ok m keys pks sgf ->
    (forall k, In k pks -> chk a (multisig_script m keys) k (sgf k) = true) ->
    (forall k k', In k keys -> In k' keys -> chk a (multisig_script m keys) k (sgf k') = true -> k = k') ->
    eval_multisig chk a (multisig_script m keys) ([] :: ms_ordered sgf keys pks) = true.
  Proof.
    intros [[_ Hm] Hn Hk Hun Hnd Hincl -> _] Hv Hex. unfold eval_multisig.
    rewrite ms_parse_multisig by assumption.
    apply checkmultisig_accepts; assumption.
  Qed.

  Lemma p2pkh_final i pk sg :
    pi_sigs i = [(pk, sg)] -> has_f v2 (pi_redeem i) = false ->
    sig_typed (expected_sht i) sg -> wf_key pk -> pushable sg ->
    chk ALegacy (p2pkh_script (hash160 pk)) pk sg = true ->
    exists ss, legacy_sigscript v2 i = OcOk ss /\
               satisfies chk commit (p2pkh_script (hash160 pk)) ss [] = true.
  Proof.
    intros Hs Hr Ht Hk Hp Hc. exists (add_data_raw sg ++ add_data_raw pk).
    pose proof (wf_key_pushable pk Hk) as Hpk. pose proof (add_data_raw_len sg Hp).
    split.
    - unfold legacy_sigscript. rewrite Hs, check_sigs_single by exact Ht.
      cbn [obind]. rewrite Hr. cbn [negb]. unfold sb_new.
      rewrite !sb_data_ok by (trivial; cbn [app]; rewrite ?lenN_nil; lia). reflexivity.
    - rewrite satisfies_p2pkh by apply hash160_length.
      rewrite parse_pushes_push, parse_pushes_single by assumption.
      rewrite bytes_eqb_refl. exact Hc.
  Qed.

  Lemma p2wpkh_final i pk sg :
    pi_sigs i = [(pk, sg)] -> has_f v2 (pi_redeem i) = false -> has_f v2 (pi_wscript i) = false ->
    sig_typed (expected_sht i) sg -> wf_key pk -> pushable sg ->
    chk AWitV0 (p2pkh_script (hash160 pk)) pk sg = true ->
    witness_final v2 i = OcOk ([], ser_witness [sg; pk]) /\
    read_witness (ser_witness [sg; pk]) = Some [sg; pk] /\
    satisfies chk commit (p2wpkh_script (hash160 pk)) [] [sg; pk] = true.
  Proof.
    intros Hs Hr Hw Ht Hk Hp Hc. pose proof (wf_key_pushable pk Hk) as [_ Hk2]. destruct Hp as [_ Hp2].
    split; [|split].
    - unfold witness_final. rewrite Hs, check_sigs_single by exact Ht.
      cbn [obind]. rewrite Hr, Hw. reflexivity.
    - apply read_witness_ser; [repeat constructor; lia | cbn; lia].
    - rewrite satisfies_p2wpkh by apply hash160_length. unfold eval_wpkh.
      rewrite bytes_eqb_refl. exact Hc.
  Qed.
End Templates.

(* the scriptSig of a multisig spend: OP_0, the signatures, the redeem script *)
Lemma multisig_sigscript os rs : pushable rs -> Forall pushable os -> lenL os <= 16 ->
  of_builder (sb_data (fold_left sb_data os (sb_op sb_new SOP_0)) rs) =
    OcOk (x00 :: concat (map add_data_raw os) ++ add_data_raw rs) /\
  parse_pushes (x00 :: concat (map add_data_raw os) ++ add_data_raw rs) = Some (([] :: os) ++ [rs]).
Proof.
  intros Hrs Hos Hn. pose proof (lenN_concat_pushes os Hos). split.
  - change (sb_op sb_new SOP_0) with (Some [x00]).
    rewrite fold_sb_data by (trivial; change (lenN [x00]) with 1; lia).
    rewrite sb_data_ok by (trivial; rewrite lenN_app; change (lenN [x00]) with 1; lia).
    rewrite <- app_assoc. reflexivity.
  - rewrite parse_pushes_op0, parse_pushes_concat, parse_pushes_single by assumption. reflexivity.
Qed.

Lemma check_sigs_ms_pairs e sgf pks : (forall k, In k pks -> sig_typed e (sgf k)) ->
  check_sigs_sht e (ms_pairs sgf pks) = OcOk tt.
Proof.
  intro H. apply check_sigs_typed. intros pk sg Hin.
  apply in_map_iff in Hin as (k & E & Hk). inversion E; subst. apply H, Hk.
Qed.

Section TemplatesMS.
  Variable chk : salgo -> bytes -> bytes -> bytes -> bool.
  Variable commit : bytes -> bytes -> bytes -> bool.
  Variable v2 : bool.

  Lemma multisig_script_nonempty m keys : nonempty (multisig_script m keys) = true.
  Proof. reflexivity. Qed.

  Lemma p2sh_ms_final i m keys pks sgf :
    ms_ok m keys pks sgf -> pi_sigs i = ms_pairs sgf pks ->
    pi_redeem i = Some (multisig_script m keys) -> lenN (multisig_script m keys) <= 520 ->
    (forall k, In k pks -> sig_typed (expected_sht i) (sgf k)) ->
    (forall k, In k pks -> chk ALegacy (multisig_script m keys) k (sgf k) = true) ->
    (forall k k', In k keys -> In k' keys -> chk ALegacy (multisig_script m keys) k (sgf k') = true -> k = k') ->
    exists ss, legacy_sigscript v2 i = OcOk ss /\
               satisfies chk commit (p2sh_script (hash160 (multisig_script m keys))) ss [] = true.
  Proof.
    intros Hok Hs Hr Hlen Ht Hv Hex.
    destruct (ms_pks_nonempty _ _ _ _ Hok) as [Hne Hkne].
    assert (Hprs : pushable (multisig_script m keys)).
    { split; [|exact Hlen]. pose proof (multisig_script_len m keys (mo_keys _ _ _ _ Hok)). lia. }
    destruct (multisig_sigscript _ _ Hprs (ms_ordered_pushable _ _ _ _ Hok)) as [Hb Hp];
      [rewrite (ms_ordered_len _ _ _ _ Hok); apply Hok|].
    eexists. split.
    - unfold legacy_sigscript. rewrite Hs, check_sigs_ms_pairs by exact Ht. cbn [obind].
      rewrite Hr, has_f_some by apply multisig_script_nonempty. cbn [negb obytes].
      rewrite (ms_order _ _ _ _ Hok). destruct pks; [congruence | exact Hb].
    - rewrite (satisfies_p2sh _ _ _ _ _ _ _ (hash160_length _) Hp), bytes_eqb_refl.
      rewrite multisig_not_witness_program by (trivial; apply Hok).
      apply eval_multisig_ok; assumption.
  Qed.

  Lemma p2wsh_ms_final i m keys pks sgf :
    ms_ok m keys pks sgf -> pi_sigs i = ms_pairs sgf pks ->
    has_f v2 (pi_redeem i) = false -> pi_wscript i = Some (multisig_script m keys) ->
    (forall k, In k pks -> sig_typed (expected_sht i) (sgf k)) ->
    (forall k, In k pks -> chk AWitV0 (multisig_script m keys) k (sgf k) = true) ->
    (forall k k', In k keys -> In k' keys -> chk AWitV0 (multisig_script m keys) k (sgf k') = true -> k = k') ->
    let w := [] :: ms_ordered sgf keys pks ++ [multisig_script m keys] in
    witness_final v2 i = OcOk ([], ser_witness w) /\ read_witness (ser_witness w) = Some w /\
    satisfies chk commit (p2wsh_script (sha256 (multisig_script m keys))) [] w = true.
  Proof.
    intros Hok Hs Hr Hw Ht Hv Hex w. split; [|split].
    - unfold witness_final. rewrite Hs, check_sigs_ms_pairs by exact Ht. cbn [obind].
      rewrite Hr, Hw, has_f_some by apply multisig_script_nonempty. cbn [negb obytes].
      unfold multisig_witness. rewrite (ms_order _ _ _ _ Hok).
      destruct (ms_pks_nonempty _ _ _ _ Hok) as [Hne _].
      destruct pks as [|k0 [|k1 r]]; [congruence | reflexivity | reflexivity].
    - pose proof (ms_ordered_pushable _ _ _ _ Hok) as Hpos.
      pose proof (ms_ordered_len _ _ _ _ Hok) as Hol.
      pose proof (multisig_script_len m keys (mo_keys _ _ _ _ Hok)) as Hl.
      pose proof (mo_n _ _ _ _ Hok) as Hn. destruct (mo_m _ _ _ _ Hok) as [_ Hm].
      unfold w. apply read_witness_ser.
      + constructor; [rewrite lenN_nil; lia|]. apply Forall_app. split.
        * eapply Forall_impl; [|exact Hpos]. intros x [_ Hx]. lia.
        * constructor; [lia | constructor].
      + unfold lenL in *. cbn [length]. rewrite app_length. cbn [length]. lia.
    - rewrite satisfies_p2wsh by apply sha256_length. unfold eval_wsh.
      change w with (([] :: ms_ordered sgf keys pks) ++ [multisig_script m keys]).
      rewrite unsnoc_app, bytes_eqb_refl.
      apply eval_multisig_ok; assumption.
  Qed.
End TemplatesMS.

Section TemplatesTap.
  Variable chk : salgo -> bytes -> bytes -> bytes -> bool.
  Variable commit : bytes -> bytes -> bytes -> bool.

  Lemma tap_leaf_final (i : pin2) q l pk sg :
    is_final2 i = false -> q_tapkeysig i = [] ->
    q_tapleafs i = [l] -> tl_script l = tapleaf_checksig_script pk -> length pk = 32%nat ->
    q_tapsigs i = [mk_tsig pk sg (tapleaf_hash l)] ->
    tap_sig_ok (pi_sht (q_base i)) sg = true ->
    lenN sg <= 65 -> lenN (tl_cb l) <= 10000 -> length q = 32%nat ->
    commit (tl_cb l) (tl_script l) q = true -> chk ATapLeaf (tl_script l) pk sg = true ->
    let w := [sg; tl_script l; tl_cb l] in
    taproot_final i = OcOk (vector w) /\ read_witness (vector w) = Some w /\
    satisfies chk commit (p2tr_script q) [] w = true.
  Proof.
    intros Hf Hk Hl Hs Hpk Hts Hty Hsg Hcb Hq Hcm Hc w.
    assert (Hsl : lenN (pk ++ [SOP_CHECKSIG]) = 33) by (rewrite lenN_app; unfold lenN at 1; rewrite Hpk; reflexivity).
    split; [|split].
    - unfold taproot_final. cbv zeta. rewrite Hf, Hk, Hts, Hl. cbn [nonempty filter ts_leaf].
      rewrite bytes_eqb_refl. cbn [forallb ts_sig map]. rewrite Hty. reflexivity.
    - assert (lenN (tl_script l) = 34) by (rewrite Hs; unfold tapleaf_checksig_script; rewrite lenN_cons; lia).
      apply read_witness_ser; [repeat constructor; lia | cbn; lia].
    - rewrite satisfies_p2tr by exact Hq. unfold w, eval_taproot. rewrite Hcm.
      rewrite Hs in *. unfold tapleaf_checksig_script in *.
      rewrite Hsl, last_byte_snoc, N.eqb_refl. cbn [andb N.eqb n8 Byte.to_N Pos.eqb].
      rewrite (firstn_app_exact pk _ 32 Hpk). exact Hc.
  Qed.
End TemplatesTap.

Definition ms_exact (script : bytes) (sigs : list (bytes * bytes)) : Prop :=
  exists n m, ms_stats script = Some (n, m) /\ lenL sigs = m.

Lemma extract_key_order_exact script sigs os : extract_key_order script sigs = Some os -> ms_exact script sigs.
Proof.
  unfold extract_key_order, ms_exact. destruct (ms_stats script) as [[n m]|]; [|discriminate].
  destruct (N.eqb_spec m (lenL sigs)); [|discriminate]. intros _. exists n, m. split; [reflexivity | congruence].
Qed.

Lemma multisig_witness_exact ws sigs w : multisig_witness ws sigs = Some w -> ms_exact ws sigs.
Proof.
  unfold multisig_witness. destruct (extract_key_order ws sigs) eqn:E; [|discriminate].
  intros _. eapply extract_key_order_exact, E.
Qed.

(* what a successful legacy / witness finalization implies about the partial signatures *)
Definition enough_sigs (script : option bytes) (v2 : bool) (sigs : list (bytes * bytes)) : Prop :=
  if has_f v2 script then ms_exact (obytes script) sigs else length sigs = 1%nat.

(* the script whose signature count decides: witness script for witness inputs, redeem script otherwise *)
Definition deciding_script (i : pin) : option bytes := if osome (pi_wu i) then pi_wscript i else pi_redeem i.

(* the requirement both finalizers put on the partial signatures of the input section b *)
Definition sigs_required (v2 : bool) (b : pin) : Prop :=
  enough_sigs (deciding_script b) v2 (pi_sigs b) /\
  forall pk sg, In (pk, sg) (pi_sigs b) -> sig_typed (expected_sht b) sg.

Lemma legacy_sigscript_inv v2 i ss : legacy_sigscript v2 i = OcOk ss -> osome (pi_wu i) = false ->
  sigs_required v2 i.
Proof.
  unfold legacy_sigscript, sigs_required, deciding_script, enough_sigs. intros H ->.
  destruct (check_sigs_sht _ _) as [[]| |] eqn:Ec; try discriminate.
  cbn [obind] in H. split; [|apply check_sigs_typed; exact Ec].
  destruct (pi_sigs i) as [|[pk sg] r]; [discriminate|].
  destruct (has_f v2 (pi_redeem i)); cbn [negb] in H.
  - destruct (extract_key_order _ _) eqn:Ee; [|discriminate]. eapply extract_key_order_exact, Ee.
  - destruct r; [reflexivity | discriminate].
Qed.

Lemma witness_final_inv v2 i sw : witness_final v2 i = OcOk sw -> osome (pi_wu i) = true ->
  sigs_required v2 i.
Proof.
  unfold witness_final, sigs_required, deciding_script, enough_sigs. intros H ->.
  destruct (check_sigs_sht _ _) as [[]| |] eqn:Ec; try discriminate.
  cbn [obind] in H. split; [|apply check_sigs_typed; exact Ec].
  destruct (pi_sigs i) as [|[pk sg] r]; [discriminate|].
  destruct (has_f v2 (pi_redeem i)); cbn [negb] in H.
  - destruct (of_builder _) as [ss| |]; cbn [obind] in H; try discriminate.
    destruct (has_f v2 (pi_wscript i)); cbn [negb] in H.
    + destruct (multisig_witness _ _) eqn:Em; [|discriminate]. eapply multisig_witness_exact, Em.
    + destruct r; [reflexivity | discriminate].
  - destruct (has_f v2 (pi_wscript i)).
    + destruct r; cbn [negb] in H;
        (destruct (multisig_witness _ _) eqn:Em; [|discriminate]; eapply multisig_witness_exact, Em).
    + destruct r; [reflexivity | cbn [negb] in H; discriminate].
Qed.

Theorem finalize0_requires p k p' i : finalize0 p k = (p', StOk) -> nth_error (p0_ins p) k = Some i ->
  sigs_required false i.
Proof.
  unfold finalize0. intros H Hi. rewrite Hi in H.
  destruct (osome (pi_wu i)) eqn:Ew; [|destruct (osome (pi_nwu i)); [|discriminate]];
    (destruct (is_final0 i); [discriminate|]).
  - destruct (witness_final false i) eqn:E; try discriminate. exact (witness_final_inv _ _ _ E Ew).
  - destruct (legacy_sigscript false i) eqn:E; try discriminate. exact (legacy_sigscript_inv _ _ _ E Ew).
Qed.

Theorem finalize2_requires p k p' i : finalize2 p k = (p', StOk) -> nth_error (q_ins p) k = Some i ->
  osome (pi_wu (q_base i)) && is_taproot i = false -> sigs_required true (q_base i).
Proof.
  unfold finalize2. intros H Hi Ht. rewrite Hi, Ht in H.
  destruct (osome (pi_wu (q_base i))) eqn:Ew; [|destruct (osome (pi_nwu (q_base i))); [|discriminate]];
    (destruct (is_final2 i); [discriminate|]).
  - destruct (witness_final true _) eqn:E; try discriminate. exact (witness_final_inv _ _ _ E Ew).
  - destruct (legacy_sigscript true _) eqn:E; try discriminate. exact (legacy_sigscript_inv _ _ _ E Ew).
Qed.

(* what refuses finalization: the property states the contrapositives of the two theorems above *)
Lemma too_few_sigs s v2 sigs n m : has_f v2 s = true -> ms_stats (obytes s) = Some (n, m) ->
  lenL sigs < m -> ~ enough_sigs s v2 sigs.
Proof.
  unfold enough_sigs. intros -> Hms Hlt (n' & m' & E1 & E2). rewrite Hms in E1. inversion E1; subst. lia.
Qed.

Lemma no_sigs s v2 : has_f v2 s = false -> ~ enough_sigs s v2 [].
Proof. unfold enough_sigs. intros -> H. discriminate H. Qed.

Lemma sighash_mismatch e sg b : last_byte sg = Some b -> n8 b <> e -> ~ sig_typed e sg.
Proof. intros Hl Hne (b' & Hl' & Hb). rewrite Hl in Hl'. inversion Hl'; subst. contradiction. Qed.

Lemma never_ok {P} (x : P * rstat) : (forall p', x <> (p', StOk)) -> snd x <> StOk.
Proof. destruct x as [p' s]. intros H E. cbn in E. subst s. exact (H p' eq_refl). Qed.

Lemma set_in_final_strip ti i ti' : set_in_final ti i = Some ti' -> strip_in ti' = strip_in ti.
Proof.
  unfold set_in_final. destruct (pi_fwit i) as [fw|]; [destruct (read_witness fw); [|discriminate]|];
    intro H; inversion H; reflexivity.
Qed.

Lemma extract_ins_cons ti tr pis r : extract_ins (ti :: tr) pis = OcOk r ->
  exists i pr ti' r', pis = i :: pr /\ set_in_final ti i = Some ti' /\ extract_ins tr pr = OcOk r' /\ r = ti' :: r'.
Proof.
  cbn [extract_ins]. destruct pis as [|i pr]; [discriminate|].
  destruct (set_in_final ti i) as [ti'|] eqn:E; [|discriminate].
  destruct (extract_ins tr pr) as [r'| |] eqn:E2; cbn [obind]; try discriminate.
  intro H. inversion H. exists i, pr, ti', r'. auto.
Qed.

Lemma extract_ins_strip : forall tis pis r, extract_ins tis pis = OcOk r -> map strip_in r = map strip_in tis.
Proof.
  induction tis as [|ti tr IH]; intros pis r H.
  - inversion H; reflexivity.
  - apply extract_ins_cons in H as (i & pr & ti' & r' & -> & E & E2 & ->).
    cbn [map]. rewrite (set_in_final_strip _ _ _ E), (IH _ _ E2). reflexivity.
Qed.

Lemma extract_ins_nth : forall tis pis r k ti i, extract_ins tis pis = OcOk r ->
  nth_error tis k = Some ti -> nth_error pis k = Some i ->
  exists ti', nth_error r k = Some ti' /\ set_in_final ti i = Some ti'.
Proof.
  induction tis as [|t0 tr IH]; intros pis r k ti i H Ht Hi; [destruct k; discriminate|].
  apply extract_ins_cons in H as (i0 & pr & t0' & r' & -> & E & E2 & ->).
  destruct k as [|k]; cbn [nth_error] in *.
  - inversion Ht; inversion Hi; subst. exists t0'. split; [reflexivity | exact E].
  - eapply IH; eassumption.
Qed.

Lemma copy_tx_id t : copy_tx t = t.
Proof. destruct t. unfold copy_tx. cbn. f_equal. unfold copy_in. apply map_id. Qed.

Lemma extract0_inv p t : extract0 p = OcOk t ->
  exists ins, extract_ins (t_ins (p0_tx p)) (p0_ins p) = OcOk ins /\
              t = mk_tx (t_version (p0_tx p)) (t_flag (p0_tx p)) (t_locktime (p0_tx p)) ins (t_outs (p0_tx p)).
Proof.
  unfold extract0. destruct (all_final0 _ _) as [[|]| |]; cbn [obind negb]; try discriminate.
  rewrite copy_tx_id. destruct (extract_ins _ _) as [ins| |] eqn:E; cbn [obind]; try discriminate.
  intro H; inversion H. exists ins. auto.
Qed.

(* v2: Extract and UnsignedTx are two routines that apply the same sequence default, issuance
   test, null amount and peg-in flag.  The only difference is that UnsignedTx goes through
   NewTxInput, which masks the outpoint index with OutpointIndexMask unless it is 0xffffffff,
   while Extract copies it: the two agree on every index an Elements outpoint can carry (the
   same range as wf_in of Model/Tx.v). *)
Definition outpoint_index_ok (i : pin2) : Prop :=
  q_index i = MinusOne \/ q_index i <= OutpointIndexMask.

Lemma land_index_mask x : x <= OutpointIndexMask -> N.land x OutpointIndexMask = x.
Proof.
  intro H. change OutpointIndexMask with (N.ones 30) in *. rewrite N.land_ones.
  apply N.mod_small. change (N.ones 30) with 1073741823 in H. change (2 ^ 30) with 1073741824. lia.
Qed.

Lemma extract_in2_strip i x : outpoint_index_ok i -> extract_in2 i = Some x -> strip_in x = unsigned_in2 i.
Proof.
  intros Hx H. unfold extract_in2 in H.
  destruct (match pi_fwit (q_base i) with Some _ => _ | None => _ end) as [w|]; [|discriminate].
  inversion H; subst. unfold strip_in, unsigned_in2. cbn [in_hash in_index in_seq in_pegin in_iss].
  f_equal. destruct Hx as [E|E]; [rewrite E; reflexivity|].
  destruct (q_index i =? MinusOne); [reflexivity|]. symmetry. apply land_index_mask. exact E.
Qed.

Lemma extract_ins2_strip : forall l r, Forall outpoint_index_ok l -> extract_ins2 l = Some r ->
  map strip_in r = map unsigned_in2 l.
Proof.
  induction l as [|i l IH]; intros r Hf H; cbn [extract_ins2] in H.
  - inversion H; reflexivity.
  - inversion Hf as [|? ? Hi Hl]; subst.
    destruct (extract_in2 i) as [x|] eqn:E; [|discriminate].
    destruct (extract_ins2 l) as [xs|] eqn:E2; [|discriminate].
    inversion H; subst. cbn [map]. rewrite (extract_in2_strip i x Hi E), (IH xs Hl eq_refl). reflexivity.
Qed.

Lemma extract2_inv p t : extract2 p = OcOk t ->
  exists ins, extract_ins2 (q_ins p) = Some ins /\
              t = mk_tx (g_txversion p) 0 (locktime2 p) ins (map out_to_txout (q_outs p)).
Proof.
  unfold extract2. destruct (sanity2 p); cbn [negb]; [|discriminate].
  destruct (forallb is_final2 (q_ins p)); cbn [negb]; [|discriminate].
  destruct (extract_ins2 (q_ins p)) as [ins|]; [|discriminate].
  intro H; inversion H. exists ins. auto.
Qed.

(* packets on which a sequence of 0, an amount without entropy and a peg-in witness are set:
   each extracts to the signed-over transaction (rf_wu, rf_base, rf_in, rf_pset and, further
   down, rf_leaf, rf_tap_in are the values these examples share) *)
Definition rf_wu : txout := mk_out (x01 :: repeat x07 32) (x01 :: repeat x00 7 ++ [x09]) (x51 :: x20 :: repeat x05 32) [x00] [] [].
Definition rf_base : pin := mk_pin None (Some rf_wu) [] 0 None None None (Some [x01; x01; x2a]).
Definition rf_in (seq : N) (issv : N) (ent : option bytes) (peg : option (list bytes)) : pin2 :=
  mk_pin2 rf_base [x0b] 0 seq 0 0 issv None None None 0 None None ent [] [] peg [] [] [] [] [].
Definition rf_pset (i : pin2) : pset2 := mk_pset2 2 None 0 [i] [].

Example extract2_sequence_agrees :
  exists t, extract2 (rf_pset (rf_in 0 0 None None)) = OcOk t /\
            strip_tx t = strip_tx (unsigned_tx2 (rf_pset (rf_in 0 0 None None))) /\ map in_seq (t_ins t) = [u32max].
Proof. eexists. split; [vm_compute; reflexivity | split; vm_compute; reflexivity]. Qed.

Example extract2_issuance_agrees :
  exists t, extract2 (rf_pset (rf_in 5 7 None None)) = OcOk t /\
            strip_tx t = strip_tx (unsigned_tx2 (rf_pset (rf_in 5 7 None None))) /\
            map (fun i => osome (in_iss i)) (t_ins t) = [false].
Proof. eexists. split; [vm_compute; reflexivity | split; vm_compute; reflexivity]. Qed.

Example extract2_token_only_issuance_agrees :
  exists t, extract2 (rf_pset (rf_in 5 0 (Some (repeat x06 32)) None)) = OcOk t /\
            strip_tx t = strip_tx (unsigned_tx2 (rf_pset (rf_in 5 0 (Some (repeat x06 32)) None))) /\
            map (fun i => match in_iss i with Some s => Tx.iss_amount s | None => [] end) (t_ins t) = [[x00]].
Proof. eexists. split; [vm_compute; reflexivity | split; vm_compute; reflexivity]. Qed.

Example extract2_pegin_agrees :
  exists t, extract2 (rf_pset (rf_in 5 0 None (Some [[x01]]))) = OcOk t /\
            strip_tx t = strip_tx (unsigned_tx2 (rf_pset (rf_in 5 0 None (Some [[x01]])))) /\
            map in_pegin (t_ins t) = [true].
Proof. eexists. split; [vm_compute; reflexivity | split; vm_compute; reflexivity]. Qed.

(* the index hypothesis is about values outside the outpoint range only *)
Example extract2_index_flag_bits :
  let i := mk_pin2 rf_base [x0b] 0x80000005 5 0 0 0 None None None 0 None None None [] [] None [] [] [] [] [] in
  exists t, extract2 (rf_pset i) = OcOk t /\ map in_index (t_ins t) = [0x80000005] /\
            map in_index (t_ins (unsigned_tx2 (rf_pset i))) = [5].
Proof. eexists. split; [vm_compute; reflexivity | split; vm_compute; reflexivity]. Qed.

(* taproot finalization requires a signature for the leaf it finalizes and the declared hash
   type on every signature it uses *)
Definition taproot_requires (i : pin2) : Prop :=
  let sht := pi_sht (q_base i) in
  if nonempty (q_tapkeysig i) then tap_sig_ok sht (q_tapkeysig i) = true
  else exists l r, q_tapleafs i = l :: r /\
         let ms := filter (fun s => bytes_eqb (ts_leaf s) (tapleaf_hash l)) (q_tapsigs i) in
         ms <> [] /\ forall s, In s ms -> tap_sig_ok sht (ts_sig s) = true.

Lemma taproot_final_inv i w : taproot_final i = OcOk w -> taproot_requires i.
Proof.
  unfold taproot_final, taproot_requires. cbv zeta. destruct (is_final2 i); [discriminate|].
  destruct (nonempty (q_tapkeysig i)).
  - destruct (tap_sig_ok _ _); [reflexivity | discriminate].
  - destruct (nonempty (q_tapsigs i)); [|discriminate].
    destruct (q_tapleafs i) as [|l r]; [discriminate|].
    destruct (forallb _ _) eqn:Ef; cbn [negb]; [|discriminate].
    destruct (filter _ (q_tapsigs i)) as [|s0 ms] eqn:Em; [discriminate|].
    intros _. exists l, r. split; [reflexivity|]. rewrite Em. split; [discriminate|].
    apply forallb_forall, Ef.
Qed.

(* a signature for another leaf and a key signature of an undeclared hash type are refused;
   SIGHASH_DEFAULT counts as ALL *)
Definition rf_leaf : tleaf := mk_tleaf (tapleaf_checksig_script (repeat x03 32)) 0xc4 (xc4 :: repeat x02 32).
Definition rf_tap_in (sht : N) (keysig : bytes) (sigs : list tsig) (leafs : list tleaf) : pin2 :=
  mk_pin2 (mk_pin None (Some rf_wu) [] sht None None None None)
          [x0b] 0 5 0 0 0 None None None 0 None None None [] [] None keysig sigs leafs [] [].

Example taproot_other_leaf_refused :
  snd (finalize2 (rf_pset (rf_tap_in 0 [] [mk_tsig (repeat x03 32) (repeat x04 64) (repeat x09 32)] [rf_leaf])) 0) = StErr.
Proof. vm_compute. reflexivity. Qed.

Example taproot_wrong_hash_type_refused :
  snd (finalize2 (rf_pset (rf_tap_in 3 (repeat x04 64 ++ [x81]) [] [])) 0) = StErr.
Proof. vm_compute. reflexivity. Qed.

Example taproot_default_counts_as_all :
  snd (finalize2 (rf_pset (rf_tap_in 1 (repeat x04 64) [] [])) 0) = StOk.
Proof. vm_compute. reflexivity. Qed.

(* the order of the partial signatures (signer order, or the pubkey order a serialize/parse hop
   imposes) does not matter to extractKeyOrderFromScript *)
Lemma memb_perm pks pks' k : Permutation pks pks' -> memb pks k = memb pks' k.
Proof.
  intro H. apply eq_true_iff_eq. rewrite !memb_In.
  split; apply Permutation_in; [|apply Permutation_sym]; exact H.
Qed.

Lemma ms_ok_perm m keys pks pks' sgf : Permutation pks pks' -> ms_ok m keys pks sgf -> ms_ok m keys pks' sgf.
Proof.
  intros Hp [H1 H2 H3 H4 H5 H6 H7 H8]. pose proof (Permutation_in (l:=pks') (l':=pks)) as Hin.
  constructor; try assumption.
  - eapply Permutation_NoDup; eassumption.
  - intros k Hk. apply H6, (Hin k); [apply Permutation_sym|]; assumption.
  - rewrite H7. unfold lenL. rewrite (Permutation_length Hp). reflexivity.
  - intros k Hk. apply H8, (Hin k); [apply Permutation_sym|]; assumption.
Qed.

Lemma insert_pk_perm x l : Permutation (insert_pk x l) (x :: l).
Proof.
  induction l as [|y r IH]; [apply Permutation_refl|]. cbn [insert_pk].
  destruct (bytes_leb (fst y) (fst x)); [|apply Permutation_refl].
  eapply Permutation_trans; [apply perm_skip; exact IH | apply perm_swap].
Qed.

(* signature checks through an abstract signature scheme and signature-hash function (the digest
   itself is C02/C03 and is not instantiated here).  C09_extracted_checks_as_signed_v0 / _v2
   (Props/C09.v) take as a HYPOTHESIS that the digest depends on strip_tx of the transaction only,
   i.e. that no signature hash covers input scripts or witness data of the transaction being
   signed; Extract changes nothing else (extract_ins_strip, extract_ins2_strip), so under that
   hypothesis chk_dig over the extracted transaction is chk_dig over the unsigned one.
   strip_tx is the one of Model/Spend.v (input scripts and witnesses cleared), not the
   witness-free transaction of the same name in Proofs/TxId.v. *)
Section Digest.
  Variable verify : bytes -> bytes -> bytes -> bool.             (* pubkey, message, signature *)
  Variable digest : tx -> salgo -> N -> nat -> bytes -> bytes -> bytes.  (* tx, algorithm, hash type, input, script code, amount *)

  Definition chk_dig (t : tx) (k : nat) (amount : bytes) : salgo -> bytes -> bytes -> bytes -> bool :=
    fun a sc pk sg =>
      match unsnoc sg with
      | Some (body, ht) => verify pk (digest t a (n8 ht) k sc amount) body
      | None => false
      end.
End Digest.

(* a key set on which a search for the first occurrence of the key bytes in the raw script would
   misplace key 3: its bytes also occur inside <key 1> <push opcode of key 2>.  key_position
   takes the offset of the key's own push (key_position_multisig; fix a3dd5d3), so the final
   script satisfies (overlapping_keys_satisfied) *)
Definition amb_k3 : bytes := x03 :: repeat x07 31 ++ [x21].
Definition amb_k1 : bytes := x02 :: firstn 32 amb_k3.
Definition amb_k2 : bytes := x02 :: repeat x09 32.
Definition amb_keys : list bytes := [amb_k1; amb_k2; amb_k3].
Definition amb_sgf (k : bytes) : bytes := k ++ [x01].
Definition amb_chk : salgo -> bytes -> bytes -> bytes -> bool := fun _ _ pk sg => bytes_eqb sg (amb_sgf pk).
Definition amb_in : pin :=
  mk_pin None None (ms_pairs amb_sgf [amb_k2; amb_k3]) 1 (Some (multisig_script 2 amb_keys)) None None None.

(* amb_chk accepts exactly the signature amb_sgf makes for a key, which ends in SIGHASH_ALL *)
Lemma amb_sig_typed k : sig_typed 1 (amb_sgf k).
Proof. exists x01. split; [apply last_byte_snoc | reflexivity]. Qed.

Lemma amb_chk_own a s k : amb_chk a s k (amb_sgf k) = true.
Proof. apply bytes_eqb_refl. Qed.

Lemma amb_chk_excl a s k k' : amb_chk a s k (amb_sgf k') = true -> k = k'.
Proof. intro H. apply bytes_eqb_eq, app_inj_tail in H as [H _]. congruence. Qed.

Lemma amb_sgf_pushable k : wf_key k -> pushable (amb_sgf k).
Proof. unfold pushable, amb_sgf. rewrite lenN_app. intros [-> | ->]; cbn; lia. Qed.

Lemma two_of_three_ok keys pks : lenL keys = 3 -> lenL pks = 2 -> Forall wf_key keys ->
  NoDup keys -> NoDup pks -> incl pks keys -> ms_ok 2 keys pks amb_sgf.
Proof.
  intros Hn Hm Hk Hndk Hnd Hincl. constructor; trivial; try lia.
  intros k Hin. apply amb_sgf_pushable. rewrite Forall_forall in Hk. apply Hk, Hincl, Hin.
Qed.

Example overlapping_keys_satisfied :
  exists ss, legacy_sigscript false amb_in = OcOk ss /\
    satisfies amb_chk (fun _ _ _ => true) (p2sh_script (hash160 (multisig_script 2 amb_keys))) ss [] = true.
Proof.
  apply (p2sh_ms_final _ _ false amb_in 2 amb_keys [amb_k2; amb_k3] amb_sgf); try reflexivity.
  - apply two_of_three_ok; try reflexivity.
    + repeat constructor; left; reflexivity.
    + repeat constructor; cbn; intuition discriminate.
    + repeat constructor; cbn; intuition discriminate.
    + intros k [<-|[<-|[]]]; cbn; tauto.
  - vm_compute. discriminate.
  - intros k _. apply amb_sig_typed.
  - intros k _. apply amb_chk_own.
  - intros k k' _ _. apply amb_chk_excl.
Qed.

(* non-vacuity: the hypotheses of the template theorems are satisfiable *)
Definition ex_k1 : bytes := x02 :: repeat x11 32.
Definition ex_k2 : bytes := x03 :: repeat x22 32.
Definition ex_k3 : bytes := x02 :: repeat x33 32.
Definition ex_keys : list bytes := [ex_k1; ex_k2; ex_k3].

Example ex_ms_ok : ms_ok 2 ex_keys [ex_k3; ex_k1] amb_sgf.
Proof.
  apply two_of_three_ok; try reflexivity.
  - repeat constructor; left; reflexivity.
  - repeat constructor; cbn; intuition discriminate.
  - repeat constructor; cbn; intuition discriminate.
  - intros k [<-|[<-|[]]]; cbn; tauto.
Qed.

Example ex_final_satisfies :
  exists ss, legacy_sigscript false
               (mk_pin None None (ms_pairs amb_sgf [ex_k3; ex_k1]) 0 (Some (multisig_script 2 ex_keys)) None None None) = OcOk ss /\
             satisfies amb_chk (fun _ _ _ => true) (p2sh_script (hash160 (multisig_script 2 ex_keys))) ss [] = true.
Proof.
  apply (p2sh_ms_final _ _ false _ 2 ex_keys [ex_k3; ex_k1] amb_sgf ex_ms_ok); try reflexivity.
  - vm_compute. discriminate.
  - intros k _. apply amb_sig_typed.
  - intros k _. apply amb_chk_own.
  - intros k k' _ _. apply amb_chk_excl.
Qed.

(* signature admission: addPartialSignature (v0) folded over a list of (key, signature);
   signing_admitted0 at the end of the file: any sequence of distinct signers is admitted and
   the packet then holds the signatures in signing order *)
Fixpoint add_sigs0 (p : pset0) (k : nat) (ops : list (bytes * bytes)) : pset0 * rstat :=
  match ops with
  | [] => (p, StOk)
  | (pk, sg) :: r => match add_partial_sig0 p k sg pk true with
                     | (p', StOk) => add_sigs0 p' k r
                     | bad => bad
                     end
  end.

Lemma nth_error_lupd {A} (l : list A) k f : forall x, nth_error l k = Some x -> nth_error (lupd l k f) k = Some (f x).
Proof.
  revert k. induction l as [|a l IH]; intros [|k] x H; cbn in *; try discriminate.
  - inversion H; reflexivity.
  - apply IH. exact H.
Qed.

Lemma lupd_lupd {A} (f g h : A -> A) : (forall x, g (f x) = h x) -> forall l k, lupd (lupd l k f) k g = lupd l k h.
Proof.
  intro E. induction l as [|a l IH]; intros [|k]; cbn [lupd]; try reflexivity.
  - rewrite E. reflexivity.
  - rewrite IH. reflexivity.
Qed.

Lemma lupd_id {A} (f : A -> A) : (forall x, f x = x) -> forall l k, lupd l k f = l.
Proof.
  intro E. induction l as [|a l IH]; intros [|k]; cbn [lupd]; try reflexivity.
  - rewrite E. reflexivity.
  - rewrite IH. reflexivity.
Qed.

Lemma forallb_lupd {A} (P : A -> bool) (l : list A) k f :
  forallb P l = true -> (forall x, P x = true -> P (f x) = true) -> forallb P (lupd l k f) = true.
Proof.
  revert k. induction l as [|a l IH]; intros [|k] H Hf; cbn [lupd forallb] in *; try reflexivity;
    apply andb_true_iff in H as [H1 H2]; apply andb_true_iff; split; auto.
Qed.

Lemma sanity0_with_in0 p k f : (forall x, sane_in0 x = true -> sane_in0 (f x) = true) ->
  sanity0 p = true -> sanity0 (with_in0 p k f) = true.
Proof.
  intros Hf H. unfold sanity0, with_in0 in *. cbn [p0_tx p0_ins]. apply andb_true_iff in H as [-> H].
  apply forallb_lupd; assumption.
Qed.

(* pk passes the checks of addPartialSignature (v0) between the duplicate test and the append *)
Definition admitted (p : pset0) (k : nat) (i : pin) (pk : bytes) : Prop :=
  admit_checks i pk (osome (nth_error (t_ins (p0_tx p)) k))
    (match nth_error (t_ins (p0_tx p)) k with Some x => in_hash x | None => [] end)
    (match nth_error (t_ins (p0_tx p)) k with Some x => in_index x | None => 0 end) = OcOk tt.

Lemma add_partial_sig0_ok p k i pk sg :
  nth_error (p0_ins p) k = Some i -> sanity0 p = true -> has_sig_for i pk = false -> admitted p k i pk ->
  let p' := with_in0 p k (fun i => set_sigs (pi_sigs i ++ [(pk, sg)]) i) in
  add_partial_sig0 p k sg pk true = (p', StOk) /\ sanity0 p' = true.
Proof.
  intros Hi Hsan Hnew Hadm p'. assert (Hsan' : sanity0 p' = true).
  { apply sanity0_with_in0; [|exact Hsan]. intros x Hx. exact Hx. }
  split; [|exact Hsan']. unfold add_partial_sig0. cbn [negb]. rewrite Hi, Hnew, Hadm. fold p'.
  rewrite Hsan'. reflexivity.
Qed.

Theorem signing_admitted0 : forall ops p k i,
  nth_error (p0_ins p) k = Some i -> sanity0 p = true ->
  NoDup (map fst ops) ->
  (forall pk, In pk (map fst ops) -> has_sig_for i pk = false) ->
  (forall pk sg, In (pk, sg) ops -> admitted p k i pk) ->
  add_sigs0 p k ops = (with_in0 p k (fun i => set_sigs (pi_sigs i ++ ops) i), StOk).
Proof.
  induction ops as [|[pk sg] r IH]; intros p k i Hi Hsan Hnd Hnew Hadm; cbn [add_sigs0].
  - f_equal. destruct p as [t ins]. unfold with_in0. cbn [p0_tx p0_ins]. f_equal.
    symmetry. apply lupd_id. intro x. rewrite app_nil_r. destruct x; reflexivity.
  - destruct (add_partial_sig0_ok p k i pk sg Hi Hsan) as [-> Hsan'];
      [apply Hnew; left; reflexivity | apply (Hadm pk sg); left; reflexivity |].
    inversion Hnd as [|? ? Hpk Hnd']; subst.
    set (f1 := fun i0 => set_sigs (pi_sigs i0 ++ [(pk, sg)]) i0) in *.
    rewrite (IH (with_in0 p k f1) k (f1 i)); try assumption.
    + f_equal. unfold with_in0. cbn [p0_tx p0_ins]. f_equal.
      apply lupd_lupd. intro x. change ((pk, sg) :: r) with ([(pk, sg)] ++ r). rewrite app_assoc. reflexivity.
    + apply nth_error_lupd, Hi.
    + intros pk' Hin. specialize (Hnew pk' (or_intror Hin)). unfold has_sig_for in *.
      change (pi_sigs (f1 i)) with (pi_sigs i ++ [(pk, sg)]). rewrite existsb_app, Hnew. cbn [existsb fst orb].
      destruct (bytes_eqb pk pk') eqn:E; [|reflexivity]. apply bytes_eqb_eq in E. subst pk'. contradiction.
    + intros pk' sg' Hin. exact (Hadm pk' sg' (or_intror Hin)).
Qed.
