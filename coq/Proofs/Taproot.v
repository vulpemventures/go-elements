(* Proofs/Taproot.v — C16: taproot trees, control blocks and key tweaks.
   AssembleTaprootScriptTree is followed through an invariant on (queue of nodes, proof entries read
   through the hash-keyed index): every leaf below a queued node holds a proof of that node's hash
   (Inv, step); both loops preserve it, so every leaf ends with a proof of the root
   (every_leaf_proves_root).  Then the control-block codec (parse_ser_cb), verification of each
   leaf's block with the parity bit (Section Verify), failure of every altered block under
   injective hashes and an ideal group (Section Negative), the private-key tweak against the
   output key (Section Tweak), and instances showing each set of hypotheses satisfiable. *)
From GE Require Import Model.Taproot.
From Coq Require Import ZifyBool ZifyN ZifyNat Permutation.
Open Scope nat_scope.

Lemma bytes_compare_eq a : forall b, bytes_compare a b = Eq -> a = b.
Proof.
  induction a as [|x a IH]; intros [|y b] H; cbn in H; try discriminate; auto.
  destruct (N.compare_spec (n8 x) (n8 y)) as [E|E|E]; try discriminate.
  apply n8_inj in E. subst y. f_equal. auto.
Qed.

Lemma bytes_compare_antisym a : forall b, bytes_compare b a = CompOpp (bytes_compare a b).
Proof.
  induction a as [|x a IH]; intros [|y b]; cbn; auto.
  rewrite (N.compare_antisym (n8 x) (n8 y)).
  destruct (n8 x ?= n8 y)%N; cbn; auto.
Qed.

Lemma bytes_compare_refl a : bytes_compare a a = Eq.
Proof. induction a as [|x a IH]; cbn; auto. rewrite N.compare_refl. auto. Qed.

Section BranchOrder.
  Variable BHR : bytes -> bytes -> bytes.
  Notation branch := (branch BHR).
  Notation root_from := (root_from BHR).

  (* commutativity of the branch hash is a consequence of the lexicographic ordering *)
  Lemma branch_comm a b : branch a b = branch b a.
  Proof.
    unfold Taproot.branch, bytes_gt. rewrite (bytes_compare_antisym a b).
    destruct (bytes_compare a b) eqn:E; cbn; auto.
    apply bytes_compare_eq in E. subst. auto.
  Qed.

  Lemma root_from_one acc x : length x = 32 -> root_from 1 acc x = branch acc x.
  Proof. intro H. cbn [Taproot.root_from]. rewrite firstn_all2 by lia. reflexivity. Qed.

  (* RootHash over a proof cut at a node boundary *)
  Lemma root_from_split : forall j k p1 rest acc, length p1 = 32 * j ->
    root_from (j + k) acc (p1 ++ rest) = root_from k (root_from j acc p1) rest.
  Proof.
    induction j as [|j IH]; intros k p1 rest acc Hp.
    - destruct p1; [reflexivity|cbn in Hp; lia].
    - cbn [Nat.add Taproot.root_from]. rewrite firstn_app, skipn_app.
      replace (32 - length p1) with 0 by lia. rewrite firstn_O, skipn_O, app_nil_r.
      apply IH. rewrite skipn_length. lia.
  Qed.

  Hypothesis BHR_inj : forall a b c d, BHR a b = BHR c d -> a = c /\ b = d.

  Lemma branch_inj_r a x y : branch a x = branch a y -> x = y.
  Proof.
    unfold Taproot.branch. destruct (bytes_gt a x), (bytes_gt a y); intro H; apply BHR_inj in H; destruct H; congruence.
  Qed.
  Lemma branch_inj_l a x y : branch x a = branch y a -> x = y.
  Proof. rewrite (branch_comm x a), (branch_comm y a). apply branch_inj_r. Qed.
End BranchOrder.

Lemma list_pair_ind {A} (P : list A -> Prop) :
  P [] -> (forall x, P [x]) -> (forall x y r, P r -> P (x :: y :: r)) -> forall l, P l.
Proof.
  intros H0 H1 H2 l. assert (H : P l /\ forall a, P (a :: l)).
  { induction l as [|x l [IHa IHb]]; split; auto. }
  tauto.
Qed.

Lemma tobind_done {A B} (x : toutcome A) (f : A -> toutcome B) b :
  tobind x f = Done b -> exists a, x = Done a /\ f a = Done b.
Proof. destruct x as [a| |]; try discriminate. exists a. auto. Qed.

Lemma upd_spec {A} (f : A -> A) (l : list A) : forall i, i < length l ->
  exists l', tupd i f l = Done l' /\ length l' = length l /\
    nth_error l' i = option_map f (nth_error l i) /\
    forall j, j <> i -> nth_error l' j = nth_error l j.
Proof.
  induction l as [|x l IH]; intros i Hi; cbn in Hi; [lia|].
  destruct i as [|i].
  - exists (f x :: l). cbn. repeat split; auto. intros [|j] Hj; [congruence|reflexivity].
  - destruct (IH i ltac:(lia)) as (l' & E & Hl & Hn & Ho).
    exists (x :: l'). cbn [tupd]. rewrite E. cbn. repeat split; auto.
    intros [|j] Hj; cbn; auto.
Qed.

Lemma split_last_app {A} (l : list A) y : split_last (l ++ [y]) = Some (l, y).
Proof.
  induction l as [|x l IH]; [reflexivity|]. cbn [app split_last]. rewrite IH.
  destruct (l ++ [y]) eqn:E; [destruct l; discriminate|reflexivity].
Qed.

Lemma split_last_spec {A} (l : list A) : l <> [] -> exists i y, split_last l = Some (i, y) /\ l = i ++ [y].
Proof. intro H. destruct (exists_last H) as (i & y & ->). exists i, y. split; [apply split_last_app|reflexivity]. Qed.

Lemma split_last_some {A} (l i : list A) y : split_last l = Some (i, y) -> l = i ++ [y].
Proof.
  intro H. destruct (split_last_spec l) as (i' & y' & E & El); [intros ->; discriminate|congruence].
Qed.

Section Assemble.
  Variable LH : tapleaf -> bytes.
  Variable BHR : bytes -> bytes -> bytes.
  Hypothesis LH_len : forall l, length (LH l) = 32.
  Hypothesis BHR_len : forall a b, length (BHR a b) = 32.

  Notation branch := (branch BHR).
  Notation mk_leaf := (mk_leaf LH).
  Notation mk_branch := (mk_branch BHR).
  Notation bnode := (bnode BHR).
  Notation proof_root := (proof_root BHR).
  Notation root_from := (root_from BHR).
  Notation tap_hash := (tap_hash LH BHR).

  Lemma branch_len a b : length (branch a b) = 32.
  Proof. unfold Taproot.branch. destruct (bytes_gt a b); apply BHR_len. Qed.

  (* the stored hash of every node is the recomputed one *)
  Fixpoint wf_node (n : tnode) : Prop :=
    match n with
    | TLeaf h l => h = LH l
    | TBranch h a b => h = branch (tnode_hash a) (tnode_hash b) /\ wf_node a /\ wf_node b
    end.

  Lemma wf_tap_hash n : wf_node n -> tnode_hash n = tap_hash n.
  Proof.
    induction n as [h l|h a IHa b IHb]; cbn; auto.
    intros (E & Ha & Hb). rewrite E, IHa, IHb; auto.
  Qed.
  Lemma wf_mk_leaf l : wf_node (mk_leaf l). Proof. reflexivity. Qed.
  Lemma wf_mk_branch a b : wf_node a -> wf_node b -> wf_node (mk_branch a b).
  Proof. cbn. auto. Qed.
  Lemma wf_hash_len n : wf_node n -> length (tnode_hash n) = 32.
  Proof. destruct n; cbn. - intros ->. apply LH_len. - intros (-> & _). apply branch_len. Qed.

  (* the leaves below a node *)
  Fixpoint tleaves (n : tnode) : list tapleaf :=
    match n with
    | TLeaf _ l => [l]
    | TBranch _ a b => tleaves a ++ tleaves b
    end.
  Lemma leaves_of_tleaves n : wf_node n -> leaves_of n = map mk_leaf (tleaves n).
  Proof.
    induction n as [h l|h a IHa b IHb]; cbn.
    - intros ->. reflexivity.
    - intros (_ & Ha & Hb). rewrite map_app, IHa, IHb; auto.
  Qed.

  Lemma proof_root_app p h x k : length p = 32 * k -> length h = 32 ->
    proof_root (p ++ h) x = branch (proof_root p x) h.
  Proof.
    intros Hp Hh. unfold Taproot.proof_root. rewrite app_length, Hp, Hh.
    replace (32 * k + 32) with ((k + 1) * 32) by lia. rewrite Nat.div_mul by lia.
    replace (32 * k) with (k * 32) by lia. rewrite Nat.div_mul by lia.
    rewrite root_from_split by lia. apply root_from_one. exact Hh.
  Qed.

  Lemma proof_root_nil x : proof_root [] x = x.
  Proof. reflexivity. Qed.

  Lemma idx_build_notin h : forall ls i ix, ~ In h (map LH ls) ->
    idx_get (build_index LH i ls ix) h = idx_get ix h.
  Proof.
    induction ls as [|l ls IH]; intros i ix Hn; cbn; auto.
    rewrite IH. 2:{ intro. apply Hn. right. auto. }
    cbn. destruct (bytes_eqb (LH l) h) eqn:E; auto.
    apply bytes_eqb_eq in E. exfalso. apply Hn. left. auto.
  Qed.

  Lemma idx_build_pos : forall ls i ix j l, NoDup (map LH ls) -> nth_error ls j = Some l ->
    idx_get (build_index LH i ls ix) (LH l) = i + j.
  Proof.
    induction ls as [|l0 ls IH]; intros i ix j l Hnd Hj; [destruct j; discriminate|].
    cbn in Hnd. inversion Hnd as [|? ? Hni Hnd']; subst.
    destruct j as [|j]; cbn in Hj.
    - injection Hj as ->. cbn. rewrite idx_build_notin by auto. cbn.
      rewrite bytes_eqb_refl. symmetry. apply Nat.add_0_r.
    - cbn. rewrite (IH (S i) _ j l); auto. apply Nat.add_succ_comm.
  Qed.

  Variable ls : list tapleaf.
  Hypothesis ls_nodup : NoDup (map LH ls).
  Let ix := build_index LH 0 ls [].

  (* The state of the algorithm is read through the hash-keyed index, as the code does:
     the entry of leaf l is the one at the position the index gives for its hash. *)
  Definition pos (l : tapleaf) : nat := idx_get ix (LH l).
  Definition entry_of (st : list proof_entry) (l : tapleaf) : option proof_entry := nth_error st (pos l).

  Lemma pos_nth j l : nth_error ls j = Some l -> pos l = j.
  Proof. intro H. unfold pos, ix. rewrite (idx_build_pos ls 0 [] j l); auto. Qed.

  Lemma pos_mid a x b : ls = a ++ x :: b -> pos x = length a.
  Proof. intro E. apply pos_nth. rewrite E, nth_error_app2, Nat.sub_diag; auto. Qed.

  Lemma pos_inj l l' : In l ls -> In l' ls -> pos l = pos l' -> l = l'.
  Proof.
    intros Hl Hl' E. apply In_nth_error in Hl as (j & Hj). apply In_nth_error in Hl' as (j' & Hj').
    rewrite (pos_nth _ _ Hj), (pos_nth _ _ Hj') in E. congruence.
  Qed.

  (* st' is st with f applied to the entries of the leaves xs *)
  Definition upd_at (f : proof_entry -> proof_entry) (xs : list tapleaf) (st st' : list proof_entry) : Prop :=
    length st' = length st /\
    (forall l, In l xs -> entry_of st' l = option_map f (entry_of st l)) /\
    (forall l, In l ls -> ~ In l xs -> entry_of st' l = entry_of st l).

  Lemma upd_key f st x : In x ls -> length st = length ls ->
    exists st', tupd (pos x) f st = Done st' /\ upd_at f [x] st st'.
  Proof.
    intros Hx Hlen. destruct (In_nth_error ls x Hx) as (j & Hj).
    destruct (upd_spec f st (pos x)) as (st' & E & Hl & Hn & Ho).
    { rewrite Hlen, (pos_nth j x Hj). apply nth_error_Some. congruence. }
    exists st'. split; [exact E|]. split; [exact Hl|]. split.
    - intros l [<-|[]]. exact Hn.
    - intros l Hl' Hne. apply Ho. intro Ep. apply Hne. left. apply pos_inj; auto.
  Qed.

  Lemma add_leaves_spec h : forall xs st, incl xs ls -> NoDup xs -> length st = length ls ->
    exists st', add_to_leaves ix (map mk_leaf xs) h st = Done st' /\ upd_at (add_proof h) xs st st'.
  Proof.
    induction xs as [|x xs IH]; intros st Hin Hnd Hlen.
    - exists st. cbn. repeat split; auto. intros l [].
    - inversion Hnd as [|? ? Hx Hnd']; subst. apply incl_cons_inv in Hin as [Hx_ls Hin].
      destruct (upd_key (add_proof h) st x Hx_ls Hlen) as (st1 & E1 & L1 & A1 & B1).
      destruct (IH st1 Hin Hnd' ltac:(congruence)) as (st' & E' & L' & A' & B').
      exists st'. cbn [map add_to_leaves]. change (idx_get ix (tnode_hash (mk_leaf x))) with (pos x).
      rewrite E1. split; [exact E'|]. split; [congruence|]. split.
      + intros l [<-|Hl].
        * rewrite B', A1; cbn; auto.
        * rewrite A', B1; auto. intros [->|[]]. contradiction.
      + intros l Hl Hn. rewrite B', B1; auto.
        * intros [->|[]]. apply Hn. left. auto.
        * intro. apply Hn. right. auto.
  Qed.

  (* e is an inclusion proof of leaf l under the node hash h *)
  Definition proves (e : proof_entry) (l : tapleaf) (h : bytes) : Prop :=
    (exists k, length (pe_proof e) = 32 * k) /\ proof_root (pe_proof e) (LH l) = h.

  Lemma proves_snoc e l h x : length x = 32 -> proves e l h -> proves (mk_pe l (pe_proof e ++ x)) l (branch h x).
  Proof.
    intros Hx ((k & Hk) & Hr). split; cbn [pe_proof].
    - exists (S k). rewrite app_length. lia.
    - rewrite (proof_root_app _ _ _ k), Hr; auto.
  Qed.

  (* the entry of l carries l and proves h *)
  Definition good (oe : option proof_entry) (l : tapleaf) (h : bytes) : Prop :=
    exists e, oe = Some e /\ pe_leaf e = l /\ proves e l h.

  Definition flat (q : list tnode) : list tapleaf := flat_map tleaves q.

  Lemma flat_leaves xs : flat (map mk_leaf xs) = xs.
  Proof. induction xs as [|x xs IH]; [reflexivity|]. cbn. f_equal. exact IH. Qed.

  (* Both loops of the algorithm take two nodes off a queue and put their branch on it.  A leaf
     that the pairing pass has not reached yet stands on the queue as a leaf node: its entry
     is made when it is joined (set_leaf_add); those of the leaves below a branch are extended. *)
  Definition nupd (b : tnode) (x : bytes) (st : list proof_entry) : toutcome (list proof_entry) :=
    match b with
    | TLeaf _ l => tupd (pos l) (set_leaf_add l x) st
    | TBranch _ _ _ => add_to_leaves ix (leaves_of b) x st
    end.
  Definition nfun (b : tnode) (x : bytes) : proof_entry -> proof_entry :=
    match b with TLeaf _ l => set_leaf_add l x | TBranch _ _ _ => add_proof x end.
  Definition ngood (b : tnode) (oe : option proof_entry) (l : tapleaf) : Prop :=
    match b with TLeaf _ _ => oe = Some zero_entry | TBranch h _ _ => good oe l h end.

  Lemma nupd_spec b x st : wf_node b -> incl (tleaves b) ls -> NoDup (tleaves b) -> length st = length ls ->
    exists st', nupd b x st = Done st' /\ upd_at (nfun b x) (tleaves b) st st'.
  Proof.
    intros Hw Hin Hnd Hlen. destruct b as [h l|h a b].
    - apply upd_key; [apply Hin; left; reflexivity|exact Hlen].
    - cbn [nupd]. rewrite (leaves_of_tleaves _ Hw). apply add_leaves_spec; assumption.
  Qed.

  (* joined with a sibling of hash x, the leaves below b prove the branch *)
  Lemma ngood_step b x oe l : wf_node b -> In l (tleaves b) -> length x = 32 ->
    ngood b oe l -> good (option_map (nfun b x) oe) l (branch (tnode_hash b) x).
  Proof.
    destruct b as [h l0|h a b]; cbn.
    - intros -> [<-|[]] Hx ->. eexists. split; [reflexivity|]. split; [reflexivity|].
      apply (proves_snoc zero_entry); [exact Hx|]. split; [exists 0|]; reflexivity.
    - intros _ _ Hx (e & -> & <- & Hp). exists (add_proof x e). split; [reflexivity|]. split; [reflexivity|].
      apply proves_snoc; assumption.
  Qed.

  (* the nodes of the queue q are well formed, their leaves are the leaves ls *)
  Definition Inv (q : list tnode) (st : list proof_entry) : Prop :=
    length st = length ls /\ Forall wf_node q /\ Permutation (flat q) ls /\
    forall b, In b q -> forall l, In l (tleaves b) -> ngood b (entry_of st l) l.

  Lemma Inv_perm q q' st : Permutation q q' -> Inv q st -> Inv q' st.
  Proof.
    intros Hp (Hlen & Hwf & Hperm & Hg). split; [exact Hlen|]. split; [exact (Permutation_Forall Hp Hwf)|]. split.
    - exact (perm_trans (Permutation_flat_map tleaves (Permutation_sym Hp)) Hperm).
    - intros b Hb. apply Hg. apply (Permutation_in b (Permutation_sym Hp) Hb).
  Qed.

  (* Two nodes of the queue each receive the other's hash: their leaves then prove the branch
     of the two, in either order of the children; no other entry changes. *)
  Lemma step A B rest st : Inv (A :: B :: rest) st ->
    exists st1 st2,
      nupd A (tnode_hash B) st = Done st1 /\ nupd B (tnode_hash A) st1 = Done st2 /\
      forall N, N = mk_branch A B \/ N = mk_branch B A -> Inv (N :: rest) st2.
  Proof.
    intros (Hlen & Hwf & Hperm & Hgood).
    inversion Hwf as [|? ? HwA Hwf']; subst. inversion Hwf' as [|? ? HwB HwRest]; subst.
    cbn [flat flat_map] in Hperm. fold (flat rest) in Hperm.
    assert (Hsub : incl (tleaves A ++ tleaves B ++ flat rest) ls).
    { intros l. apply Permutation_in. exact Hperm. }
    apply incl_app_inv in Hsub as [HsA Hsub]. apply incl_app_inv in Hsub as [HsB Hsrest].
    pose proof (Permutation_NoDup (Permutation_sym Hperm) (NoDup_map_inv LH ls ls_nodup)) as Hnd.
    apply NoDup_app_inv in Hnd as (HndA & Hnd & HdA). apply NoDup_app_inv in Hnd as (HndB & _ & HdB).
    assert (HdAB : forall l, In l (tleaves A) -> ~ In l (tleaves B)).
    { intros l Hl Hr. apply (HdA l Hl). apply in_or_app. auto. }
    destruct (nupd_spec A (tnode_hash B) st HwA HsA HndA Hlen) as (st1 & E1 & L1 & A1 & B1).
    destruct (nupd_spec B (tnode_hash A) st1 HwB HsB HndB) as (st2 & E2 & L2 & A2 & B2); [congruence|].
    exists st1, st2. split; [exact E1|]. split; [exact E2|].
    intros N HN. split; [congruence|]. split.
    { constructor; [|exact HwRest]. destruct HN as [->| ->]; apply wf_mk_branch; assumption. }
    split.
    { cbn [flat flat_map]. rewrite <- Hperm, (app_assoc (tleaves A)). apply Permutation_app_tail.
      destruct HN as [->| ->]; [reflexivity|apply Permutation_app_comm]. }
    intros b [<-|Hb] l Hl.
    - assert (G : good (entry_of st2 l) l (branch (tnode_hash A) (tnode_hash B))).
      { assert (Hl' : In l (tleaves A) \/ In l (tleaves B)).
        { destruct HN as [->| ->]; apply in_app_or in Hl; tauto. }
        destruct Hl' as [Hl'|Hl'].
        - rewrite B2, A1 by auto. apply ngood_step; auto using wf_hash_len. apply Hgood; cbn; auto.
        - rewrite A2, B1 by (auto; intro Hx; exact (HdAB l Hx Hl')). rewrite branch_comm.
          apply ngood_step; auto using wf_hash_len. apply Hgood; cbn; auto. }
      destruct HN as [->| ->]; cbn [ngood Taproot.mk_branch]; [|rewrite branch_comm]; exact G.
    - assert (Hr : In l (flat rest)). { apply in_flat_map. eauto. }
      rewrite B2, B1.
      + apply Hgood; cbn; auto.
      + apply Hsrest. exact Hr.
      + intro HA. apply (HdA l HA). apply in_or_app. auto.
      + apply Hsrest. exact Hr.
      + intro HB. exact (HdB l HB Hr).
  Qed.

  Lemma merge_phase_correct : forall fuel brs st,
    length brs <= S fuel -> ls <> [] -> Inv (map bnode brs) st ->
    exists b st', merge_phase BHR ix fuel brs st = Done (Some (bnode b), st') /\ Inv [bnode b] st'.
  Proof.
    induction fuel as [|f IH]; intros brs st Hlen Hne Hinv; destruct brs as [|b [|c r]].
    1,4: destruct Hinv as (_ & _ & Hperm & _); apply Permutation_nil in Hperm; contradiction.
    1,3: exists b, st; split; [reflexivity|exact Hinv].
    - cbn in Hlen. lia.
    - cbn [map] in Hinv. destruct (step _ _ _ _ Hinv) as (st1 & st2 & E1 & E2 & Hinv2).
      destruct (IH (r ++ [(bnode b, bnode c)]) st2) as (root & st' & E & Hroot); [|exact Hne| |].
      { rewrite app_length. cbn in *. lia. }
      { rewrite map_app. apply (Inv_perm (mk_branch (bnode b) (bnode c) :: map bnode r)); auto.
        apply Permutation_cons_append. }
      exists root, st'. cbn [merge_phase]. cbn [nupd Taproot.bnode Taproot.mk_branch] in E1, E2.
      rewrite E1. cbn [tobind]. rewrite E2. auto.
  Qed.

  (* the branches made by the pairing pass have two leaves as children *)
  Definition leafpair (b : tbranch) : Prop := exists x y, b = (mk_leaf x, mk_leaf y).

  Hypothesis ls_not_single : length ls <> 1.

  (* before leaf number |done| is read *)
  Lemma pair_pass_correct : forall todo done q st,
    ls = done ++ todo -> Forall leafpair q -> Inv (map bnode q ++ map mk_leaf todo) st ->
    exists brs st', pair_pass LH BHR ix (length done) todo q st = Done (brs, st') /\ Inv (map bnode brs) st'.
  Proof.
    induction todo as [|x|x y rest IH] using list_pair_ind; intros done q st Hls Hlp Hinv.
    - cbn [map] in Hinv. rewrite app_nil_r in Hinv. exists q, st. split; [reflexivity|exact Hinv].
    - (* odd leaf: joined with the last branch *)
      assert (Hq : q <> []).
      { intros ->. destruct Hinv as (_ & _ & Hperm & _). apply Permutation_length in Hperm.
        apply ls_not_single. rewrite <- Hperm. reflexivity. }
      destruct (split_last_spec q Hq) as (ini & btm & Esl & ->). cbn [pair_pass]. rewrite Esl.
      apply Forall_app in Hlp as [_ Hlp]. inversion Hlp as [|? ? (a & b & ->) _]; subst. cbn [fst snd].
      set (bt := bnode (mk_leaf a, mk_leaf b)).
      apply (Inv_perm _ (mk_leaf x :: bt :: map bnode ini)) in Hinv.
      2:{ rewrite map_app, <- app_assoc. etransitivity; [apply Permutation_app_comm|apply perm_swap]. }
      destruct (step _ _ _ _ Hinv) as (st1 & st3 & E1 & E3 & Hinv3).
      change (tupd (pos x) (set_leaf_add x (tnode_hash bt)) st = Done st1) in E1.
      rewrite (pos_mid done x [] Hls) in E1.
      change (nupd bt) with (add_to_leaves ix [mk_leaf a; mk_leaf b]) in E3. cbn [add_to_leaves] in E3.
      apply tobind_done in E3 as (st2 & E2 & E3). apply tobind_done in E3 as (st3' & E3 & [= ->]).
      rewrite E1. cbn [tobind]. rewrite E2. cbn [tobind]. rewrite E3. cbn [tobind].
      exists (ini ++ [(bt, mk_leaf x)]), st3. split; [reflexivity|].
      rewrite map_app. apply (Inv_perm (bnode (bt, mk_leaf x) :: map bnode ini)); [apply Permutation_cons_append|].
      apply Hinv3. right. reflexivity.
    - (* two more leaves *)
      cbn [pair_pass].
      apply (Inv_perm _ (mk_leaf x :: mk_leaf y :: map bnode q ++ map mk_leaf rest)) in Hinv.
      2:{ symmetry. etransitivity; [apply perm_skip, Permutation_middle|apply Permutation_middle]. }
      destruct (step _ _ _ _ Hinv) as (st1 & st2 & E1 & E2 & Hinv2).
      cbn [nupd Taproot.mk_leaf] in E1, E2. rewrite (pos_mid done x _ Hls) in E1.
      rewrite (pos_mid (done ++ [x]) y rest), app_length, Nat.add_1_r in E2 by (rewrite <- app_assoc; exact Hls).
      rewrite E1. cbn [tobind]. rewrite E2. cbn [tobind].
      specialize (IH (done ++ [x; y]) (q ++ [(mk_leaf x, mk_leaf y)]) st2).
      rewrite app_length, Nat.add_comm in IH. apply IH.
      + rewrite <- app_assoc. exact Hls.
      + apply Forall_app. split; [exact Hlp|]. constructor; auto. exists x, y. reflexivity.
      + rewrite map_app, <- app_assoc. apply (Inv_perm (mk_branch (mk_leaf x) (mk_leaf y) :: map bnode q ++ map mk_leaf rest)).
        * apply Permutation_middle.
        * apply Hinv2. left. reflexivity.
  Qed.
End Assemble.

Section AssembleMain.
  Variable LH : tapleaf -> bytes.
  Variable BHR : bytes -> bytes -> bytes.
  Hypothesis LH_len : forall l, length (LH l) = 32.
  Hypothesis BHR_len : forall a b, length (BHR a b) = 32.

  (* what a caller of AssembleTaprootScriptTree gets for leaves ls *)
  Definition assembled (ls : list tapleaf) (root : tnode) (st : list proof_entry) : Prop :=
    assemble LH BHR ls = Done (Some root, st) /\
    wf_node LH BHR root /\ Permutation (tleaves root) ls /\ length st = length ls /\
    forall i l, nth_error ls i = Some l ->
      exists e, nth_error st i = Some e /\ pe_leaf e = l /\
        (exists k, length (pe_proof e) = 32 * k) /\
        proof_root BHR (pe_proof e) (LH l) = tnode_hash root.

  (* C16: for every list of leaves with distinct leaf hashes the inclusion proof accumulated
     for each leaf recomputes the root; no panic, the fuel of the merge loop suffices *)
  Theorem every_leaf_proves_root ls :
    NoDup (map LH ls) -> ls <> [] -> exists root st, assembled ls root st.
  Proof.
    intros Hnd Hne. destruct ls as [|x [|y r]]; [congruence| |].
    - (* lone leaf *)
      exists (mk_leaf LH x), [mk_pe x []]. split; [reflexivity|]. split; [reflexivity|].
      split; [apply Permutation_refl|]. split; [reflexivity|].
      intros [|i] l Hi; cbn in Hi; [|destruct i; discriminate]. injection Hi as <-.
      exists (mk_pe x []). repeat split; auto. exists 0. reflexivity.
    - set (ls := x :: y :: r) in *.
      assert (Hns : length ls <> 1) by (cbn; lia).
      destruct (pair_pass_correct LH BHR LH_len BHR_len ls Hnd Hns ls [] [] (repeat zero_entry (length ls)))
        as (brs & st1 & E1 & Hinv1); [reflexivity|constructor| |].
      { split; [apply repeat_length|]. split; [|split].
        - apply Forall_forall. intros b Hb. apply in_map_iff in Hb as (l & <- & _). reflexivity.
        - cbn [map app]. rewrite flat_leaves. reflexivity.
        - intros b Hb l Hl. apply in_map_iff in Hb as (l0 & <- & Hl0). destruct Hl as [<-|[]].
          apply In_nth_error in Hl0 as (j & Hj). cbn [ngood Taproot.mk_leaf]. unfold entry_of.
          rewrite (pos_nth LH ls Hnd j l0 Hj). apply nth_error_repeat. apply nth_error_Some. congruence. }
      destruct (merge_phase_correct LH BHR LH_len BHR_len ls Hnd (length brs) brs st1)
        as (b & st & E2 & Hlen & Hwf & Hperm & Hgood); [auto|discriminate|exact Hinv1|].
      cbn [flat flat_map] in Hperm. rewrite app_nil_r in Hperm. inversion Hwf; subst.
      exists (bnode BHR b), st. split.
      { unfold assemble. fold ls. cbn [length] in E1. rewrite E1. exact E2. }
      split; auto. split; auto. split; auto.
      intros i l Hi. rewrite <- (pos_nth LH ls Hnd i l Hi). apply (Hgood (bnode BHR b)); [left; reflexivity|].
      apply (Permutation_in l (Permutation_sym Hperm)). eapply nth_error_In. exact Hi.
  Qed.

End AssembleMain.

(* what ParseControlBlock needs of a block to return it unchanged *)
Definition wf_cb (liftable : bytes -> bool) (c : cblock) : Prop :=
  length (cb_key c) = 32 /\ liftable (cb_key c) = true /\
  N.testbit (n8 (cb_version c)) 0%N = false /\
  exists k, length (cb_proof c) = 32 * k /\ k <= 128.

(* bit 0 of the first byte is the parity flag, the other bits are those of the leaf version *)
Lemma lor_parity_bit (x : N) (o : bool) : (x < 256)%N ->
  let w := N.lor x (if o then 1 else 0)%N in
  (w < 256)%N /\ N.testbit w 0 = N.testbit x 0 || o /\ N.land w 0xfe = N.land x 0xfe.
Proof.
  intro Hx. destruct o.
  - destruct x as [|[p|p|]]; cbn; repeat split; lia.
  - cbv zeta. rewrite N.lor_0_r, orb_false_r. auto.
Qed.

Lemma clear_even_bit0 (x : N) : (x < 256)%N -> N.testbit x 0 = false -> N.land x 0xfe = x.
Proof.
  destruct x as [|[p|p|]]; intros Hx Hb; try discriminate Hb; [reflexivity|].
  change (N.land (N.pos p~0) 0xfe) with (N.double (N.land (N.pos p) (N.ones 7))).
  rewrite N.land_ones, N.mod_small by (cbn; lia). reflexivity.
Qed.

Lemma ser_cb_length c : length (ser_cb c) = S (length (cb_key c) + length (cb_proof c)).
Proof. unfold ser_cb. cbn [length]. rewrite app_length. reflexivity. Qed.

(* what ParseControlBlock makes of ToBytes, whatever the leaf version *)
Lemma parse_ser_cb_gen liftable c :
  length (cb_key c) = 32 -> liftable (cb_key c) = true ->
  (exists k, length (cb_proof c) = 32 * k /\ k <= 128) ->
  parse_cb liftable (ser_cb c) =
  Some (mk_cblock (cb_key c) (N.testbit (n8 (cb_version c)) 0 || cb_odd c)
          (b8 (N.land (n8 (cb_version c)) 0xfe%N)) (cb_proof c)).
Proof.
  intros Hk Hl (k & Hp & Hk128). unfold parse_cb. rewrite ser_cb_length, Hk, Hp.
  unfold cb_base_size, cb_max_size, cb_node_size.
  replace (S (32 + 32 * k) <? 33) with false by (symmetry; apply Nat.ltb_ge; lia).
  replace (33 + 32 * 128 <? S (32 + 32 * k)) with false by (symmetry; apply Nat.ltb_ge; lia).
  replace (S (32 + 32 * k) - 33) with (k * 32) by lia. rewrite Nat.mod_mul by lia. cbn [Nat.eqb negb].
  unfold ser_cb. rewrite (firstn_app_exact _ _ 32 Hk), (skipn_app_exact _ _ 32 Hk), Hl.
  destruct (lor_parity_bit (n8 (cb_version c)) (cb_odd c) (n8_lt _)) as (Hlt & Hb & Hv).
  rewrite n8_b8_small by exact Hlt. rewrite Hb, Hv. reflexivity.
Qed.

Theorem parse_ser_cb liftable c : wf_cb liftable c -> parse_cb liftable (ser_cb c) = Some c.
Proof.
  intros (Hk & Hl & Hv & Hp). rewrite (parse_ser_cb_gen liftable c Hk Hl Hp), Hv.
  rewrite (clear_even_bit0 _ (n8_lt _) Hv), b8_n8. destruct c; reflexivity.
Qed.

Lemma to_cb_root LH BHR e keyx odd :
  cb_root LH BHR (to_cb e keyx odd) (tlf_script (pe_leaf e)) = proof_root BHR (pe_proof e) (LH (pe_leaf e)).
Proof. unfold cb_root, to_cb. cbn. destruct (pe_leaf e); reflexivity. Qed.

(* psetv2 InputTapLeafScript key pair round-trips when the leaf version of the control
   block is the leaf's (NewTapLeafScript) *)
Theorem tapleaf_kv_roundtrip liftable l c :
  wf_cb liftable c -> cb_version c = tlf_version l ->
  parse_tapleaf_kv liftable (fst (tapleaf_kv l c)) (snd (tapleaf_kv l c)) = KvOk l c.
Proof.
  intros Hwf Hv. unfold parse_tapleaf_kv, tapleaf_kv. cbn [fst snd].
  rewrite (parse_ser_cb liftable c Hwf), split_last_app, ser_cb_length.
  destruct Hwf as (Hk & _ & _ & k & Hp & _). rewrite Hk, Hp.
  replace (Z.of_nat (S (32 + 32 * k)) - 1)%Z with ((1 + Z.of_nat k) * 32)%Z by lia.
  rewrite Z.rem_mul by lia. rewrite Hv, beqb_refl. destruct l; reflexivity.
Qed.

(* the precomputed-tag form is the BIP-340 tagged hash *)
Lemma tagged_from_mid_spec tag msg :
  tagged_from_mid (tag_prefix tag) (tag_mid tag) msg = tagged_hash tag msg.
Proof.
  unfold tagged_hash, tagged_from_mid, tag_mid, tag_prefix. cbv zeta.
  assert (Ht : length (sha256 tag ++ sha256 tag) = 64) by (rewrite app_length, sha256_length; reflexivity).
  rewrite (app_assoc (sha256 tag) (sha256 tag) msg). set (pre := sha256 tag ++ sha256 tag) in *.
  clearbody pre. unfold sha256, pad. rewrite <- app_assoc. set (rest := msg ++ _).
  cbn [blocks]. destruct (pre ++ rest) eqn:E.
  { destruct pre; [discriminate Ht|discriminate E]. }
  rewrite <- E, (firstn_app_exact pre rest 64 Ht). reflexivity.
Qed.

Lemma leaf_hash_spec l : leaf_hash l = tagged_hash tag_leaf (tlf_version l :: var_slice (tlf_script l)).
Proof. unfold leaf_hash, leaf_pre, leaf_mid. exact (tagged_from_mid_spec _ _). Qed.
Lemma branch_hash_raw_spec a b : branch_hash_raw a b = tagged_hash tag_branch (a ++ b).
Proof. unfold branch_hash_raw, branch_pre, branch_mid. exact (tagged_from_mid_spec _ _). Qed.
Lemma tweak_hash_spec kx root : tweak_hash kx root = tagged_hash tag_tweak (kx ++ root).
Proof. unfold tweak_hash, tweak_pre, tweak_mid. exact (tagged_from_mid_spec _ _). Qed.

Lemma leaf_hash_length l : length (leaf_hash l) = 32.
Proof. rewrite leaf_hash_spec. apply tagged_hash_length. Qed.
Lemma branch_hash_raw_length a b : length (branch_hash_raw a b) = 32.
Proof. rewrite branch_hash_raw_spec. apply tagged_hash_length. Qed.

(* the executable instance: for every list of leaves with distinct Elements leaf hashes *)
Theorem every_leaf_proves_root_sha ls :
  NoDup (map leaf_hash ls) -> ls <> [] ->
  exists root st, assembled leaf_hash branch_hash_raw ls root st.
Proof. apply every_leaf_proves_root; [apply leaf_hash_length|apply branch_hash_raw_length]. Qed.

Section Verify.
  Variable point : Type.
  Variable padd : point -> point -> point.
  Variable mulG : Z -> point.
  Variable lift_x : bytes -> option point.
  Variable xonly : point -> bytes.
  Variable odd_y : point -> bool.
  Variable TS : bytes -> bytes -> Z.
  Variable LH : tapleaf -> bytes.
  Variable BHR : bytes -> bytes -> bytes.
  Hypothesis LH_len : forall l, length (LH l) = 32.
  Hypothesis BHR_len : forall a b, length (BHR a b) = 32.

  Notation output_key := (output_key point padd mulG lift_x xonly TS).
  Notation verify := (verify_commitment point padd mulG lift_x xonly odd_y TS LH BHR).
  Notation to_control_block := (to_control_block point padd mulG lift_x xonly odd_y TS).

  (* ToControlBlock records the parity of the output key, and the block verifies *)
  Theorem parity_bit_correct e p root q :
    proof_root BHR (pe_proof e) (LH (pe_leaf e)) = root ->
    output_key p root = Some q ->
    exists cb, to_control_block e p root = Some cb /\ cb_odd cb = odd_y q /\ cb_key cb = xonly p /\
      verify cb (xonly q) (tlf_script (pe_leaf e)) = Some true.
  Proof.
    intros Hroot Hq. unfold Taproot.to_control_block. rewrite Hq.
    exists (to_cb e (xonly p) (odd_y q)). split; [reflexivity|]. split; [reflexivity|]. split; [reflexivity|].
    unfold verify_commitment. rewrite to_cb_root, Hroot. cbn [cb_key to_cb].
    unfold Taproot.output_key in Hq. rewrite Hq. cbn [cb_odd].
    rewrite bytes_eqb_refl. destruct (odd_y q); reflexivity.
  Qed.

  (* for every leaf count: each leaf's control block proves the leaf against the one
     output key of the tree, with the right parity bit; the last conjunct repeats
     parse_ser_cb for a block that is well formed *)
  Theorem every_leaf_verifies ls p :
    NoDup (map LH ls) -> ls <> [] ->
    exists root st, assembled LH BHR ls root st /\
      forall q, output_key p (tnode_hash root) = Some q ->
      forall i l, nth_error ls i = Some l ->
        exists e cb, nth_error st i = Some e /\ pe_leaf e = l /\
          to_control_block e p (tnode_hash root) = Some cb /\ cb_odd cb = odd_y q /\
          verify cb (xonly q) (tlf_script l) = Some true /\
          forall liftable, wf_cb liftable cb -> parse_cb liftable (ser_cb cb) = Some cb.
  Proof.
    intros Hnd Hne. destruct (every_leaf_proves_root LH BHR LH_len BHR_len ls Hnd Hne) as (root & st & Hasm).
    exists root, st. split; [exact Hasm|]. intros q Hq i l Hi.
    destruct Hasm as (_ & _ & _ & _ & Hall). destruct (Hall i l Hi) as (e & He & Hl & _ & Hroot).
    subst l. destruct (parity_bit_correct e p _ q Hroot Hq) as (cb & Hcb & Hodd & _ & Hver).
    exists e, cb. repeat split; auto. intros liftable. apply parse_ser_cb.
  Qed.

  (* the control block of a leaf of the tree is well-formed for ParseControlBlock as soon
     as the key is a valid x-only key, the leaf version has bit 0 clear and the proof has
     at most 128 nodes (a tree deeper than 128 cannot be built in memory) *)
  Lemma wf_cb_of_entry liftable e keyx odd k :
    length keyx = 32 -> liftable keyx = true -> N.testbit (n8 (tlf_version (pe_leaf e))) 0%N = false ->
    length (pe_proof e) = 32 * k -> k <= 128 -> wf_cb liftable (to_cb e keyx odd).
  Proof. intros. unfold wf_cb, to_cb. cbn. repeat split; auto. exists k. auto. Qed.
End Verify.

(* anything else fails, for ideal hashes and an ideal group *)
Section Negative.
  Variable point : Type.
  Variable padd : point -> point -> point.
  Variable mulG : Z -> point.
  Variable lift_x : bytes -> option point.
  Variable xonly : point -> bytes.
  Variable odd_y : point -> bool.
  Variable TS : bytes -> bytes -> Z.
  Variable LH : tapleaf -> bytes.
  Variable BHR : bytes -> bytes -> bytes.
  (* ideal hashes *)
  Hypothesis LH_inj : forall a b, LH a = LH b -> a = b.
  Hypothesis BHR_inj : forall a b c d, BHR a b = BHR c d -> a = c /\ b = d.
  (* the tweak commitment root |-> H_tweak(key, root) * G is collision free *)
  Hypothesis tweak_commit_inj : forall k r r', mulG (TS k r) = mulG (TS k r') -> r = r'.
  (* group: cancellation; a point is determined by its x coordinate and y parity *)
  Hypothesis padd_cancel : forall p a b, padd p a = padd p b -> a = b.
  Hypothesis xonly_parity_inj : forall a b, xonly a = xonly b -> odd_y a = odd_y b -> a = b.

  Notation verify := (verify_commitment point padd mulG lift_x xonly odd_y TS LH BHR).
  Notation out_key := (output_key_x point padd mulG lift_x xonly TS).
  Notation branch := (branch BHR).
  Notation root_from := (root_from BHR).

  Lemma root_from_inj_acc k : forall p a a', root_from k a p = root_from k a' p -> a = a'.
  Proof.
    induction k as [|k IH]; intros p a a' H; cbn in H; auto.
    apply IH in H. eapply branch_inj_l; eauto.
  Qed.

  (* a verifying block: its output key has the program as x coordinate and the recorded parity *)
  Lemma verify_inv c prog s : verify c prog s = Some true ->
    exists q, out_key (cb_key c) (cb_root LH BHR c s) = Some q /\ xonly q = prog /\ cb_odd c = odd_y q.
  Proof.
    unfold verify_commitment. destruct (out_key _ _) as [q|]; [|discriminate].
    intro H. injection H as H. apply andb_prop in H as [X P].
    exists q. split; [reflexivity|]. split; [apply bytes_eqb_eq; exact X|apply eqb_prop; exact P].
  Qed.

  Lemma verify_same_root c c' prog s s' :
    cb_key c' = cb_key c -> cb_odd c' = cb_odd c ->
    verify c prog s = Some true -> verify c' prog s' = Some true ->
    cb_root LH BHR c s = cb_root LH BHR c' s'.
  Proof.
    intros Hk Ho H1 H2. apply verify_inv in H1 as (q & Q1 & X1 & P1). apply verify_inv in H2 as (q' & Q2 & X2 & P2).
    assert (q' = q) by (apply xonly_parity_inj; congruence). subst q'.
    unfold output_key_x in Q1, Q2. rewrite Hk in Q2.
    destruct (lift_x (cb_key c)) as [p0|]; [|discriminate].
    apply (tweak_commit_inj (xonly p0)). apply (padd_cancel p0). congruence.
  Qed.

  (* another script or another leaf version *)
  Theorem other_script_or_version_fails c prog s v' s' :
    mk_tapleaf v' s' <> mk_tapleaf (cb_version c) s ->
    verify c prog s = Some true ->
    verify (mk_cblock (cb_key c) (cb_odd c) v' (cb_proof c)) prog s' <> Some true.
  Proof.
    intros Hne H1 H2. apply Hne.
    pose proof (verify_same_root c (mk_cblock (cb_key c) (cb_odd c) v' (cb_proof c)) prog s s' eq_refl eq_refl H1 H2) as Hr.
    unfold cb_root, proof_root in Hr. cbn [cb_proof cb_version] in Hr.
    apply root_from_inj_acc in Hr. apply LH_inj in Hr. congruence.
  Qed.

  (* exactly one 32-byte node of the inclusion proof replaced *)
  Theorem altered_node_fails c prog s p1 x x' p2 j m :
    cb_proof c = p1 ++ x ++ p2 -> length p1 = 32 * j -> length x = 32 -> length x' = 32 ->
    length p2 = 32 * m -> x' <> x ->
    verify c prog s = Some true ->
    verify (mk_cblock (cb_key c) (cb_odd c) (cb_version c) (p1 ++ x' ++ p2)) prog s <> Some true.
  Proof.
    intros Hp H1l Hx Hx' H2l Hne H1 H2. apply Hne.
    pose proof (verify_same_root c (mk_cblock (cb_key c) (cb_odd c) (cb_version c) (p1 ++ x' ++ p2)) prog s s eq_refl eq_refl H1 H2) as Hr.
    unfold cb_root, proof_root in Hr. cbn [cb_proof cb_version] in Hr. rewrite Hp in Hr.
    rewrite !app_length, H1l, H2l, Hx, Hx' in Hr.
    replace ((32 * j + (32 + 32 * m)) / 32) with (j + (1 + m)) in Hr.
    2:{ replace (32 * j + (32 + 32 * m)) with ((j + (1 + m)) * 32) by lia. rewrite Nat.div_mul; lia. }
    rewrite !root_from_split, !root_from_one in Hr by assumption.
    apply root_from_inj_acc in Hr. symmetry. eapply branch_inj_r; eauto.
  Qed.

End Negative.

Section Tweak.
  Variable point : Type.
  Variable padd : point -> point -> point.
  Variable pneg : point -> point.
  Variable mulG : Z -> point.
  Variable lift_x : bytes -> option point.
  Variable xonly : point -> bytes.
  Variable odd_y : point -> bool.
  Variable TS : bytes -> bytes -> Z.
  (* lift_x returns the point with even y; negation keeps x *)
  Hypothesis lift_xonly : forall d,
    lift_x (xonly (mulG d)) = Some (if odd_y (mulG d) then pneg (mulG d) else mulG d).
  Hypothesis xonly_neg : forall d, xonly (pneg (mulG d)) = xonly (mulG d).
  (* scalar multiplication of the generator is a homomorphism from Z/n *)
  Hypothesis mulG_add : forall a b, mulG ((a + b) mod tap_n)%Z = padd (mulG a) (mulG b).
  Hypothesis mulG_negate : forall a, mulG ((tap_n - a) mod tap_n)%Z = pneg (mulG a).

  Notation output_key := (output_key point padd mulG lift_x xonly TS).
  Notation tweak_priv_ec := (tweak_priv_ec point mulG xonly odd_y TS).

  (* both parities of d*G *)
  Theorem tweaked_priv_matches_output_key d root :
    output_key (mulG d) root = Some (mulG (fst (tweak_priv_ec d root))).
  Proof.
    unfold Taproot.output_key, output_key_x, Taproot.tweak_priv_ec, tweak_priv_with.
    rewrite lift_xonly. destruct (odd_y (mulG d)); cbn [fst]; rewrite mulG_add.
    - rewrite mulG_negate, xonly_neg. reflexivity.
    - reflexivity.
  Qed.
End Tweak.

(* tweaking leaves the caller's key unchanged: every tweak function, parity, key, root.  The second
   component of tweak_priv_with is by definition the caller's scalar after the call (the code
   negates and adds on a copy, fix fefe606), so this holds by computation; that the code writes
   to the copy and not to the caller's array is the heap-level statement about tweak_priv_writes
   in Proofs/Alias.v (C18). *)
Theorem tweak_preserves_caller_key TS pk_odd pkx d root :
  snd (tweak_priv_with TS pk_odd pkx d root) = d.
Proof. reflexivity. Qed.

Corollary tweak_priv_preserves_caller_key pk_odd pkx d root :
  snd (tweak_priv pk_odd pkx d root) = d.
Proof. apply tweak_preserves_caller_key. Qed.

(* The hypotheses are satisfiable.  nodupb decides that concrete hashes are distinct. *)
Fixpoint nodupb (l : list bytes) : bool :=
  match l with [] => true | x :: r => negb (existsb (bytes_eqb x) r) && nodupb r end.
Lemma nodupb_sound l : nodupb l = true -> NoDup l.
Proof.
  induction l as [|x r IH]; cbn; intro H; constructor; apply andb_prop in H as [H1 H2]; auto.
  intro Hin. rewrite (proj2 (existsb_exists _ _)) in H1; [discriminate|].
  exists x. split; [exact Hin|apply bytes_eqb_refl].
Qed.

(* the tree theorems: the Elements tagged hashes with three concrete leaves *)
Definition ex_leaves : list tapleaf :=
  [mk_tapleaf base_leaf_version [x51]; mk_tapleaf base_leaf_version [x52]; mk_tapleaf base_leaf_version [x51; x51]].
Example ex_assemble_hyps : NoDup (map leaf_hash ex_leaves) /\ ex_leaves <> [].
Proof. split; [apply nodupb_sound; vm_compute; reflexivity|discriminate]. Qed.
Example ex_assemble : exists root st, assembled leaf_hash branch_hash_raw ex_leaves root st.
Proof. destruct ex_assemble_hyps. apply every_leaf_proves_root_sha; assumption. Qed.

(* the negative theorems: a free term algebra for the hashes, the integers as group *)
Definition toy_LH (l : tapleaf) : bytes := tlf_version l :: tlf_script l.
Fixpoint toy_esc (a : bytes) : bytes := match a with [] => [] | x :: r => x01 :: x :: toy_esc r end.
Definition toy_BHR (a b : bytes) : bytes := toy_esc a ++ x00 :: b.
Fixpoint toy_enc (r : bytes) : Z := match r with [] => 0%Z | b :: r' => (1 + Z.of_N (n8 b) + 256 * toy_enc r')%Z end.
Definition toy_xonly (p : Z) : bytes := repeat x01 (Z.abs_nat p).
Definition toy_odd (p : Z) : bool := (p <? 0)%Z.

Lemma toy_BHR_inj a : forall b c d, toy_BHR a b = toy_BHR c d -> a = c /\ b = d.
Proof.
  unfold toy_BHR. induction a as [|x a IH]; intros b [|y c] d H; cbn in H; try discriminate.
  - injection H as H. auto.
  - injection H as Hx H. destruct (IH b c d H) as [-> ->]. subst. auto.
Qed.
Lemma toy_enc_nonneg r : (0 <= toy_enc r)%Z.
Proof. induction r as [|b r IH]; cbn [toy_enc]; lia. Qed.
Lemma toy_enc_inj r : forall r', toy_enc r = toy_enc r' -> r = r'.
Proof.
  induction r as [|b r IH]; intros [|b' r'] H; cbn [toy_enc] in H; auto.
  - pose proof (toy_enc_nonneg r'). lia.
  - pose proof (toy_enc_nonneg r). lia.
  - pose proof (n8_lt b). pose proof (n8_lt b').
    assert (n8 b = n8 b' /\ toy_enc r = toy_enc r') as [Hb Hr] by lia.
    apply n8_inj in Hb. apply IH in Hr. congruence.
Qed.

Example ex_negative_hyps :
  let point := Z in let padd := Z.add in let mulG := (fun z : Z => z) in
  let TS := (fun (_ r : bytes) => toy_enc r) in
  (forall a b, toy_LH a = toy_LH b -> a = b) /\
  (forall a b c d, toy_BHR a b = toy_BHR c d -> a = c /\ b = d) /\
  (forall (k r r' : bytes), mulG (TS k r) = mulG (TS k r') -> r = r') /\
  (forall p a b : point, padd p a = padd p b -> a = b) /\
  (forall a b : point, toy_xonly a = toy_xonly b -> toy_odd a = toy_odd b -> a = b) /\
  (* and a verifying control block exists in this instance *)
  (let c := mk_cblock [] false x00 [] in
   verify_commitment point padd mulG (fun _ => Some 5%Z) toy_xonly toy_odd TS toy_LH toy_BHR c
     (toy_xonly (5 + toy_enc (toy_LH (mk_tapleaf x00 [x51])))) [x51] = Some true).
Proof.
  cbv zeta. split; [|split; [|split; [|split; [|split]]]].
  - intros [v s] [v' s'] H. unfold toy_LH in H. cbn in H. congruence.
  - intros a b c d H. eapply toy_BHR_inj; eauto.
  - intros _ r r'. apply toy_enc_inj.
  - intros p a b. lia.
  - intros a b Hx Ho. unfold toy_xonly in Hx. apply (f_equal (@length byte)) in Hx.
    rewrite !repeat_length in Hx. unfold toy_odd in Ho. lia.
  - vm_compute. reflexivity.
Qed.

(* the tweak theorem: Z/n with "odd" = upper half, x-only = the smaller of p and -p *)
Definition zn_mulG (d : Z) : Z := (d mod tap_n)%Z.
Definition zn_add (a b : Z) : Z := ((a + b) mod tap_n)%Z.
Definition zn_neg (a : Z) : Z := ((tap_n - a) mod tap_n)%Z.
Definition zn_odd (p : Z) : bool := (zn_neg p <? p)%Z.
Definition zn_xonly (p : Z) : bytes := scalar_to_bytes (Z.min p (zn_neg p)).
Definition zn_lift (b : bytes) : option Z := Some (Z.of_N (be_dec b)).

Lemma secp_n_bound : (0 < tap_n < 2 ^ 256)%Z.
Proof. unfold tap_n. lia. Qed.

Example ex_tweak_hyps :
  (forall d, zn_lift (zn_xonly (zn_mulG d)) = Some (if zn_odd (zn_mulG d) then zn_neg (zn_mulG d) else zn_mulG d)) /\
  (forall d, zn_xonly (zn_neg (zn_mulG d)) = zn_xonly (zn_mulG d)) /\
  (forall a b, zn_mulG ((a + b) mod tap_n)%Z = zn_add (zn_mulG a) (zn_mulG b)) /\
  (forall a, zn_mulG ((tap_n - a) mod tap_n)%Z = zn_neg (zn_mulG a)) /\
  (* both parities occur *)
  zn_odd (zn_mulG 1) = false /\ zn_odd (zn_mulG (-1)) = true.
Proof.
  pose proof secp_n_bound as Hn.
  assert (Hneg : forall p, (0 <= p < tap_n)%Z -> (0 <= zn_neg p < tap_n)%Z /\ zn_neg (zn_neg p) = p /\
                 (zn_neg p = 0 /\ p = 0 \/ zn_neg p = tap_n - p /\ 0 < p)%Z).
  { intros p Hp. unfold zn_neg. destruct (Z.eq_dec p 0) as [->|Hp0].
    - rewrite Z.sub_0_r, Z_mod_same_full, Z.sub_0_r, Z_mod_same_full. lia.
    - rewrite (Z.mod_small (tap_n - p)) by lia. replace (tap_n - (tap_n - p))%Z with p by lia.
      rewrite Z.mod_small by lia. lia. }
  repeat split.
  - intro d. unfold zn_mulG. pose proof (Z.mod_pos_bound d tap_n ltac:(lia)) as Hp.
    set (p := (d mod tap_n)%Z) in *. destruct (Hneg p Hp) as (Hb & _ & _).
    unfold zn_lift, zn_xonly, scalar_to_bytes, zn_odd. f_equal.
    rewrite be_dec_enc. 2:{ change (256 ^ N.of_nat 32)%N with (Z.to_N (2 ^ 256)). lia. }
    destruct (Z.ltb_spec (zn_neg p) p); lia.
  - intro d. unfold zn_mulG. pose proof (Z.mod_pos_bound d tap_n ltac:(lia)) as Hp.
    set (p := (d mod tap_n)%Z) in *. destruct (Hneg p Hp) as (_ & Hinv & _).
    unfold zn_xonly. rewrite Hinv, Z.min_comm. reflexivity.
  - intros a b. unfold zn_mulG, zn_add. rewrite Z.mod_mod by lia. apply Zplus_mod.
  - intro a. unfold zn_mulG, zn_neg. rewrite Z.mod_mod by lia.
    rewrite (Zminus_mod tap_n a), (Zminus_mod tap_n (a mod tap_n)), Z.mod_mod by lia. reflexivity.
Qed.

(* a sample evaluated inside Coq: the root the implementation reports for ex_leaves
   (taproot.AssembleTaprootScriptTree, 2026-09-25) *)
Example ex_root_vector :
  match assemble_c ex_leaves with
  | Done (Some root, st) => to_hex (tnode_hash root) = to_hex (map b8
      [0x01;0x61;0xc5;0x2c;0x48;0x05;0x06;0x0c;0x6b;0xb1;0x7f;0x35;0x31;0x48;0x21;0x58;
       0x58;0xf0;0x8b;0x88;0x16;0xd6;0x76;0x9b;0x6c;0x2a;0xed;0x91;0x9e;0x16;0xf1;0xee]%N)
      /\ length st = 3
  | _ => False
  end.
Proof. vm_compute. split; reflexivity. Qed.
