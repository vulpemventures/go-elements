(* Proofs/TxCodec.v — the transaction wire format is read back exactly (C01).  For each parser of
   Model/Tx.v (value, asset, nonce, issuance, input, output, the two witness records) the pair p_app /
   p_inv of Lib/Bytes.v; the outpoint index word taken apart into index and the two flag bits
   (raw_fields, raw_rebuild); the boolean well-formedness predicates as conjunctions (wf_in_iff,
   wf_out_iff, wf_tx_iff).  Inputs and outputs are parsed without their witness fields (strip_in,
   strip_out) and receive them from the witness section afterwards (set_in_wit, set_out_wit).
   Results: tx_parse_ser, parse_tx_sound (what is accepted is well formed and is the serialization
   up to the flag byte), tx_ser_parse, parse_tx_any_flag. *)
From GE Require Import Lib.Bytes Lib.Varint Model.Tx.
Open Scope N_scope.

(* a prefix byte followed by a fixed number of bytes, as p_value, p_asset and p_nonce read them *)
Lemma take_cons_app k v x r : (length x =? k)%nat = true ->
  match take k (x ++ r) with Some (y, r') => Some (v :: y, r') | None => None end = Some (v :: x, r).
Proof. intro H. apply Nat.eqb_eq in H. rewrite (take_app_n k) by exact H. reflexivity. Qed.

Lemma take_cons_inv k (v : byte) bs y r :
  match take k bs with Some (x, r') => Some (v :: x, r') | None => None end = Some (y, r) ->
  exists x, y = v :: x /\ bs = x ++ r /\ (length x =? k)%nat = true.
Proof.
  destruct (take k bs) as [[x r']|] eqn:T; [|discriminate]. intro H. injection H as <- <-.
  apply take_inv in T as [-> L]. exists x. rewrite L, Nat.eqb_refl. auto.
Qed.

Lemma p_value_app x r : is_value x = true -> p_value (x ++ r) = Some (x, r).
Proof.
  destruct x as [|v x]; [discriminate|]. cbn [is_value app p_value].
  destruct (n8 v =? 0).
  { intro H. destruct x; [reflexivity|discriminate]. }
  destruct (n8 v =? 1); [apply take_cons_app|].
  destruct ((n8 v =? 8) || (n8 v =? 9)); [apply take_cons_app | discriminate].
Qed.

Lemma p_value_inv bs x r : p_value bs = Some (x, r) -> bs = x ++ r /\ is_value x = true.
Proof.
  destruct bs as [|v bs]; [discriminate|]. cbn [p_value].
  destruct (n8 v =? 0) eqn:E0.
  { intro H. injection H as <- <-. cbn. rewrite E0. auto. }
  destruct (n8 v =? 1) eqn:E1.
  { intro H. apply take_cons_inv in H as (y & -> & -> & L). cbn [is_value]. rewrite E0, E1. auto. }
  destruct ((n8 v =? 8) || (n8 v =? 9)) eqn:E8; [|discriminate].
  intro H. apply take_cons_inv in H as (y & -> & -> & L). cbn [is_value]. rewrite E0, E1, E8. auto.
Qed.

Lemma p_asset_app x r : is_asset x = true -> p_asset (x ++ r) = Some (x, r).
Proof.
  destruct x as [|v x]; [discriminate|]. cbn [is_asset app p_asset].
  intro H. apply andb_true_iff in H as [H L]. rewrite H. apply take_cons_app, L.
Qed.

Lemma p_asset_inv bs x r : p_asset bs = Some (x, r) -> bs = x ++ r /\ is_asset x = true.
Proof.
  destruct bs as [|v bs]; [discriminate|]. cbn [p_asset].
  destruct ((n8 v =? 1) || (n8 v =? 10) || (n8 v =? 11)) eqn:E; [|discriminate].
  intro H. apply take_cons_inv in H as (y & -> & -> & L). cbn [is_asset]. rewrite E, L. auto.
Qed.

Lemma p_nonce_app x r : is_nonce x = true -> p_nonce (x ++ r) = Some (x, r).
Proof.
  destruct x as [|v x]; [discriminate|]. cbn [is_nonce app p_nonce].
  destruct ((1 <=? n8 v) && (n8 v <=? 3)); [apply take_cons_app|].
  intro H. destruct x; [reflexivity|discriminate].
Qed.

Lemma p_nonce_inv bs x r : p_nonce bs = Some (x, r) -> bs = x ++ r /\ is_nonce x = true.
Proof.
  destruct bs as [|v bs]; [discriminate|]. cbn [p_nonce].
  destruct ((1 <=? n8 v) && (n8 v <=? 3)) eqn:E.
  - intro H. apply take_cons_inv in H as (y & -> & -> & L). cbn [is_nonce]. rewrite E. auto.
  - intro H. injection H as <- <-. cbn [is_nonce app]. rewrite E. auto.
Qed.

Lemma is_value_nonempty x : is_value x = true -> x <> [].
Proof. destruct x; discriminate. Qed.
Lemma is_asset_nonempty x : is_asset x = true -> x <> [].
Proof. destruct x; discriminate. Qed.

(* the outpoint index word: 30 bits of index under the peg-in flag (bit 30) and the
   issuance flag (bit 31) *)
Lemma raw_index_alt i :
  raw_index i = N.lor (N.lor (in_index i) (flag_of (match in_iss i with Some _ => true | None => false end) OutpointIssuanceFlag))
                      (flag_of (in_pegin i) OutpointPeginFlag).
Proof.
  unfold raw_index, flag_of. destruct (in_iss i), (in_pegin i); rewrite ?N.lor_0_r; reflexivity.
Qed.

Lemma raw_fields idx bi bp : idx <= OutpointIndexMask ->
  let raw := N.lor (N.lor idx (flag_of bi OutpointIssuanceFlag)) (flag_of bp OutpointPeginFlag) in
  raw < two32 /\ N.testbit raw 31 = bi /\ N.testbit raw 30 = bp /\ N.land raw OutpointIndexMask = idx.
Proof.
  intros H raw. assert (H30 : idx < 2 ^ 30) by (unfold OutpointIndexMask in H; lia).
  destruct (join_bit idx 30 bp H30) as (B30 & M30 & L30).
  destruct (join_bit _ 31 bi L30) as (B31 & M31 & L31).
  assert (E : N.lor (N.lor idx (flag_of bp (2 ^ 30))) (flag_of bi (2 ^ 31)) = raw).
  { unfold raw. rewrite <- !N.lor_assoc. f_equal. apply N.lor_comm. }
  rewrite E in B31, M31, L31. repeat split.
  - exact L31.
  - exact B31.
  - rewrite <- B30, <- M31, N.land_spec, N.ones_spec_low by lia. symmetry. apply andb_true_r.
  - transitivity (N.land (N.land raw (N.ones 31)) (N.ones 30)).
    + rewrite <- N.land_assoc. reflexivity.
    + rewrite M31. exact M30.
Qed.

Lemma raw_rebuild w : w < two32 ->
  N.lor (N.lor (N.land w OutpointIndexMask) (flag_of (N.testbit w 31) OutpointIssuanceFlag))
        (flag_of (N.testbit w 30) OutpointPeginFlag) = w /\
  N.land w OutpointIndexMask <= OutpointIndexMask.
Proof.
  intro H. destruct (split_bit w 31 H) as [E31 L31]. destruct (split_bit _ 30 L31) as [E30 L30].
  rewrite <- N.land_assoc in E30, L30.
  change (N.land (N.ones 31) (N.ones 30)) with OutpointIndexMask in E30, L30.
  rewrite N.land_spec, N.ones_spec_low, andb_true_r in E30 by lia.
  split; [|unfold OutpointIndexMask in *; lia].
  rewrite <- !N.lor_assoc, (N.lor_comm (flag_of _ OutpointIssuanceFlag)), N.lor_assoc.
  change OutpointPeginFlag with (2 ^ 30). rewrite E30. exact E31.
Qed.

Definition strip_in (i : txin) : txin :=
  mk_in (in_hash i) (in_index i) (in_seq i) (in_script i) [] (in_pegin i) [] (in_iss i) [] [].

Lemma p_issuance_app s r : wf_iss s = true -> p_issuance (ser_iss s ++ r) = Some (s, r).
Proof.
  intro H. unfold wf_iss in H. rewrite !andb_true_iff, !Nat.eqb_eq in H. destruct H as [[[A B] C] D].
  unfold p_issuance, ser_iss, bind. rewrite <- !app_assoc.
  rewrite (take_app_n 32) by exact A. rewrite (take_app_n 32) by exact B.
  rewrite p_value_app by exact C. rewrite p_value_app by exact D.
  destruct s; reflexivity.
Qed.

Lemma p_issuance_inv bs s r : p_issuance bs = Some (s, r) -> bs = ser_iss s ++ r /\ wf_iss s = true.
Proof.
  unfold p_issuance. intro H.
  apply (bind_inv (take_inv 32)) in H as (a & r1 & -> & La & H).
  apply (bind_inv (take_inv 32)) in H as (b & r2 & -> & Lb & H).
  apply (bind_inv p_value_inv) in H as (c & r3 & -> & Vc & H).
  apply (bind_inv p_value_inv) in H as (d & r4 & -> & Vd & H).
  apply ret_inv in H as [<- <-].
  unfold ser_iss, wf_iss; cbn. rewrite <- !app_assoc, La, Lb, Vc, Vd. auto.
Qed.

(* the issuance a set bit 31 announces *)
Lemma p_iss_opt_inv (b : bool) bs o r :
  (if b then (s <- p_issuance ;; ret (Some s)) else ret None) bs = Some (o, r) ->
  bs = match o with Some s => ser_iss s | None => [] end ++ r /\
  (b = match o with Some _ => true | None => false end /\ match o with Some s => wf_iss s | None => true end = true).
Proof.
  destruct b; intro H.
  - apply (bind_inv p_issuance_inv) in H as (s & r1 & -> & Ws & H). apply ret_inv in H as [<- <-]. auto.
  - apply ret_inv in H as [<- <-]. auto.
Qed.

Lemma wf_slice_iff x : wf_slice x = true <-> lenN x < two64.
Proof. apply N.ltb_lt. Qed.

Lemma wf_vec_iff v : wf_vec v = true <-> wf_vector v.
Proof.
  unfold wf_vec, wf_vector. rewrite andb_true_iff, N.ltb_lt, forallb_forall, Forall_forall.
  split; intros [A B]; (split; [exact A|]); intros x Hx; apply wf_slice_iff, B, Hx.
Qed.

(* An input with index 0xffffffff is written and read without flag bits (the parser compares the
   whole word first), so it can carry neither flag; an input whose index is the mask 0x3fffffff with
   both flags set would be written as that same word 0xffffffff, so it is excluded too. *)
Lemma wf_in_iff i : wf_in i = true <->
  length (in_hash i) = 32%nat /\ in_seq i < two32 /\ lenN (in_script i) < two64 /\
  (if in_index i =? MinusOne
   then negb (in_pegin i) && match in_iss i with None => true | Some _ => false end
   else (in_index i <=? OutpointIndexMask) &&
        negb ((in_index i =? OutpointIndexMask) && in_pegin i && match in_iss i with Some _ => true | None => false end) &&
        match in_iss i with Some s => wf_iss s | None => true end) = true /\
  lenN (in_irp i) < two64 /\ lenN (in_inrp i) < two64 /\ wf_vec (in_witness i) = true /\ wf_vec (in_pegwit i) = true.
Proof. unfold wf_in, wf_slice. rewrite !andb_true_iff, Nat.eqb_eq, !N.ltb_lt. tauto. Qed.

Definition wf_in_parts i := proj1 (wf_in_iff i).

Lemma wf_in_hash_len i : wf_in i = true -> length (in_hash i) = 32%nat.
Proof. intro W. apply wf_in_parts in W as (L & _). exact L. Qed.
Lemma wf_in_seq_lt i : wf_in i = true -> in_seq i < two32.
Proof. intro W. apply wf_in_parts in W as (_ & L & _). exact L. Qed.
Lemma wf_in_index_lt i : wf_in i = true -> in_index i < two32.
Proof.
  intro W. apply wf_in_parts in W as (_ & _ & _ & C & _).
  destruct (N.eqb_spec (in_index i) MinusOne) as [->|_]; [reflexivity|].
  rewrite !andb_true_iff in C. destruct C as [[C _] _]. clear -C. unfold OutpointIndexMask, two32 in *. lia.
Qed.

Lemma p_in_app i r : wf_in i = true -> p_in (ser_in i ++ r) = Some (strip_in i, r).
Proof.
  intro H. apply wf_in_parts in H as (Hh & Hq & Hs & Hc & _).
  unfold p_in, ser_in, bind. rewrite <- !app_assoc.
  rewrite (take_app_n 32) by exact Hh.
  destruct (N.eqb_spec (in_index i) MinusOne) as [E|E].
  - apply andb_true_iff in Hc as [Hc1 Hc2].
    destruct (in_iss i) eqn:EI; [discriminate|]. destruct (in_pegin i) eqn:EP; [discriminate|].
    assert (R : raw_index i = MinusOne) by (unfold raw_index; rewrite EI, EP; exact E).
    rewrite R. rewrite p_le4_app by reflexivity.
    rewrite p_var_slice_app by exact Hs. rewrite p_le4_app by exact Hq.
    cbn [N.eqb MinusOne Pos.eqb]. unfold ret, strip_in. cbn [app]. rewrite EI, EP, E. reflexivity.
  - rewrite !andb_true_iff in Hc. destruct Hc as [[Hc1 Hc2] Hc3]. apply negb_true_iff in Hc2.
    apply N.leb_le in Hc1. rewrite raw_index_alt.
    set (bi := match in_iss i with Some _ => true | None => false end) in *.
    destruct (raw_fields (in_index i) bi (in_pegin i) Hc1) as (RL & R31 & R30 & RM).
    rewrite p_le4_app by exact RL.
    rewrite p_var_slice_app by exact Hs. rewrite p_le4_app by exact Hq.
    destruct (N.eqb_spec (N.lor (N.lor (in_index i) (flag_of bi OutpointIssuanceFlag)) (flag_of (in_pegin i) OutpointPeginFlag)) MinusOne) as [EM|EM].
    { rewrite EM in R31, R30, RM. rewrite <- RM, <- R30, <- R31 in Hc2. discriminate Hc2. }
    rewrite R31, R30, RM.
    unfold bi. destruct (in_iss i) as [s|] eqn:EI.
    + rewrite p_issuance_app by exact Hc3. unfold ret, strip_in. rewrite EI. reflexivity.
    + unfold ret, strip_in. rewrite EI. reflexivity.
Qed.

Ltac proj_in := cbn [in_hash in_index in_seq in_script in_witness in_pegin in_pegwit in_iss in_irp in_inrp].

(* what p_in returns: well formed, witness fields still empty (for outputs the same conjunction is
   written out where it is used) *)
Definition wf_in_parsed (i : txin) : Prop := wf_in i = true /\ strip_in i = i.

Lemma strip_in_wf i : wf_in i = true -> wf_in (strip_in i) = true.
Proof.
  intro H. apply wf_in_iff in H as (A & B & C & D & _). apply wf_in_iff.
  unfold strip_in. proj_in. repeat split; assumption || reflexivity.
Qed.

Lemma ser_in_strip i : ser_in (strip_in i) = ser_in i.
Proof. reflexivity. Qed.

Lemma p_in_inv bs i r : p_in bs = Some (i, r) -> bs = ser_in i ++ r /\ wf_in_parsed i.
Proof.
  unfold p_in. intro H.
  apply (bind_inv (take_inv 32)) in H as (h & r1 & -> & Lh & H).
  apply (bind_inv p_le4_inv) in H as (w & r2 & -> & Hw & H).
  apply (bind_inv p_var_slice_inv) in H as (scr & r3 & -> & Hs & H).
  apply (bind_inv p_le4_inv) in H as (sq & r4 & -> & Hq & H).
  destruct (N.eqb_spec w MinusOne) as [E|E].
  - apply ret_inv in H as [<- <-]. split.
    + unfold ser_in, raw_index. proj_in. rewrite <- !app_assoc. reflexivity.
    + split; [|reflexivity]. apply wf_in_iff. proj_in. rewrite E. repeat split; assumption || reflexivity.
  - apply (bind_inv (p_iss_opt_inv _)) in H as (iss & r5 & -> & [B31 Wi] & H).
    apply ret_inv in H as [<- <-]. destruct (raw_rebuild w Hw) as [RW LM]. split.
    + unfold ser_in. rewrite raw_index_alt. proj_in. rewrite <- B31, RW, <- !app_assoc. reflexivity.
    + split; [|reflexivity]. apply wf_in_iff. proj_in. repeat split; try assumption; try reflexivity.
      destruct (N.eqb_spec (N.land w OutpointIndexMask) MinusOne) as [X|X]; [unfold MinusOne, OutpointIndexMask in *; lia|].
      apply N.leb_le in LM. rewrite LM, Wi, andb_true_r. cbn [andb]. apply negb_true_iff.
      destruct (N.eqb_spec (N.land w OutpointIndexMask) OutpointIndexMask) as [Y|Y]; [|reflexivity].
      destruct (N.testbit w 30) eqn:B30; [|reflexivity]. rewrite <- B31.
      destruct (N.testbit w 31) eqn:T31; [|reflexivity]. destruct E. rewrite <- RW, Y. reflexivity.
Qed.

Lemma ser_in_nonempty i : wf_in i = true -> ser_in i <> [].
Proof.
  intro H. apply wf_in_parts in H as (Hh & _). unfold ser_in.
  destruct (in_hash i); [discriminate Hh | discriminate].
Qed.

Definition strip_out (o : txout) : txout :=
  mk_out (o_asset o) (o_value o) (o_script o) (o_nonce o) [] [].

Ltac proj_out := cbn [o_asset o_value o_script o_nonce o_rp o_sp].

Lemma wf_out_iff o : wf_out o = true <->
  is_asset (o_asset o) = true /\ is_value (o_value o) = true /\ is_nonce (o_nonce o) = true /\
  lenN (o_script o) < two64 /\ lenN (o_rp o) < two64 /\ lenN (o_sp o) < two64.
Proof. unfold wf_out, wf_slice. rewrite !andb_true_iff, !N.ltb_lt. tauto. Qed.

Definition wf_out_parts o := proj1 (wf_out_iff o).

Lemma wf_out_slices o : wf_out o = true -> lenN (o_rp o) < two64 /\ lenN (o_sp o) < two64.
Proof. intro W. apply wf_out_parts in W as (_ & _ & _ & _ & Hr & Hs). split; assumption. Qed.

Lemma strip_out_wf o : wf_out o = true -> wf_out (strip_out o) = true.
Proof.
  intro H. apply wf_out_iff in H as (A & B & C & D & _). apply wf_out_iff.
  unfold strip_out. proj_out. repeat split; assumption || reflexivity.
Qed.

Lemma p_out_app o r : wf_out o = true -> p_out (ser_out false false o ++ r) = Some (strip_out o, r).
Proof.
  intro H. apply wf_out_parts in H as (Ha & Hv & Hn & Hs & _).
  unfold p_out, ser_out, bind. cbn [app]. rewrite <- !app_assoc.
  rewrite p_asset_app by exact Ha. rewrite p_value_app by exact Hv. rewrite p_nonce_app by exact Hn.
  rewrite p_var_slice_app by exact Hs. reflexivity.
Qed.

Lemma p_out_inv bs o r : p_out bs = Some (o, r) ->
  bs = ser_out false false o ++ r /\ wf_out o = true /\ strip_out o = o.
Proof.
  unfold p_out. intro H.
  apply (bind_inv p_asset_inv) in H as (a & r1 & -> & Wa & H).
  apply (bind_inv p_value_inv) in H as (v & r2 & -> & Wv & H).
  apply (bind_inv p_nonce_inv) in H as (n & r3 & -> & Wn & H).
  apply (bind_inv p_var_slice_inv) in H as (s & r4 & -> & Ws & H).
  apply ret_inv in H as [<- <-]. split; [|split; [|reflexivity]].
  - unfold ser_out. proj_out. cbn [app]. rewrite <- !app_assoc. reflexivity.
  - apply wf_out_iff. proj_out. repeat split; assumption || reflexivity.
Qed.

Lemma ser_out_nonempty a b o : wf_out o = true -> ser_out a b o <> [].
Proof.
  intro H. apply wf_out_parts in H as (Ha & _). unfold ser_out.
  destruct (o_asset o); [discriminate Ha | discriminate].
Qed.

Definition in_wit_of (i : txin) : in_wit := mk_inw (in_irp i) (in_inrp i) (in_witness i) (in_pegwit i).
Definition out_wit_of (o : txout) : bytes * bytes := (o_sp o, o_rp o).

Lemma p_in_wit_app i r : wf_in i = true -> p_in_wit (ser_in_wit i ++ r) = Some (in_wit_of i, r).
Proof.
  intro H. apply wf_in_parts in H as (_ & _ & _ & _ & H1 & H2 & H3 & H4).
  unfold p_in_wit, ser_in_wit, bind. rewrite <- !app_assoc.
  rewrite p_var_slice_app by exact H1. rewrite p_var_slice_app by exact H2.
  rewrite p_vector_app by (apply wf_vec_iff, H3).
  rewrite p_vector_app by (apply wf_vec_iff, H4). reflexivity.
Qed.

Definition enc_in_wit (w : in_wit) : bytes :=
  var_slice (w_irp w) ++ var_slice (w_inrp w) ++ vector (w_wit w) ++ vector (w_peg w).
Definition wf_in_wit (w : in_wit) : Prop :=
  lenN (w_irp w) < two64 /\ lenN (w_inrp w) < two64 /\ wf_vector (w_wit w) /\ wf_vector (w_peg w).

Lemma p_in_wit_inv bs w r : p_in_wit bs = Some (w, r) -> bs = enc_in_wit w ++ r /\ wf_in_wit w.
Proof.
  unfold p_in_wit. intro H.
  apply (bind_inv p_var_slice_inv) in H as (a & r1 & -> & Wa & H).
  apply (bind_inv p_var_slice_inv) in H as (b & r2 & -> & Wb & H).
  apply (bind_inv p_vector_inv) in H as (c & r3 & -> & Wc & H).
  apply (bind_inv p_vector_inv) in H as (d & r4 & -> & Wd & H).
  apply ret_inv in H as [<- <-]. unfold enc_in_wit, wf_in_wit; cbn. rewrite <- !app_assoc. auto.
Qed.

Lemma p_out_wit_app o r : wf_out o = true -> p_out_wit (ser_out_wit o ++ r) = Some (out_wit_of o, r).
Proof.
  intro H. apply wf_out_slices in H as [H1 H2].
  unfold p_out_wit, ser_out_wit, bind. rewrite <- !app_assoc.
  rewrite p_var_slice_app by exact H2. rewrite p_var_slice_app by exact H1. reflexivity.
Qed.

Definition enc_out_wit (w : bytes * bytes) : bytes := var_slice (fst w) ++ var_slice (snd w).

Lemma p_out_wit_inv bs w r : p_out_wit bs = Some (w, r) ->
  bs = enc_out_wit w ++ r /\ (lenN (fst w) < two64 /\ lenN (snd w) < two64).
Proof.
  unfold p_out_wit. intro H.
  apply (bind_inv p_var_slice_inv) in H as (a & r1 & -> & Wa & H).
  apply (bind_inv p_var_slice_inv) in H as (b & r2 & -> & Wb & H).
  apply ret_inv in H as [<- <-]. unfold enc_out_wit; cbn. rewrite <- !app_assoc. auto.
Qed.

Lemma ser_in_wit_nonempty i : ser_in_wit i <> [].
Proof.
  unfold ser_in_wit. pose proof (var_slice_nonempty (in_irp i)).
  destruct (var_slice (in_irp i)); [congruence|discriminate].
Qed.
Lemma ser_out_wit_nonempty o : ser_out_wit o <> [].
Proof.
  unfold ser_out_wit. pose proof (var_slice_nonempty (o_sp o)).
  destruct (var_slice (o_sp o)); [congruence|discriminate].
Qed.

(* the witness section put back on the stripped values *)
Lemma wf_set_in_wit i w : wf_in_parsed i -> wf_in_wit w -> wf_in (set_in_wit i w) = true.
Proof.
  intros [Wi _] (A & B & C & D). apply wf_in_iff in Wi as (P1 & P2 & P3 & P4 & _).
  apply wf_in_iff. unfold set_in_wit. proj_in. cbn [w_irp w_inrp w_wit w_peg].
  repeat split; try assumption; apply wf_vec_iff; assumption.
Qed.

Lemma wf_set_out_wit o w : wf_out o = true /\ strip_out o = o -> lenN (fst w) < two64 /\ lenN (snd w) < two64 ->
  wf_out (set_out_wit o w) = true.
Proof.
  intros [Wo _] [A B]. apply wf_out_iff in Wo as (P1 & P2 & P3 & P4 & _).
  apply wf_out_iff. unfold set_out_wit. proj_out. repeat split; assumption.
Qed.

Lemma zip_in_wit l : zip_with set_in_wit (map strip_in l) (map in_wit_of l) = l.
Proof.
  induction l as [|i l IH]; [reflexivity|]. cbn [map zip_with]. rewrite IH.
  f_equal. destruct i; reflexivity.
Qed.

Lemma zip_out_wit l : zip_with set_out_wit (map strip_out l) (map out_wit_of l) = l.
Proof.
  induction l as [|o l IH]; [reflexivity|]. cbn [map zip_with]. rewrite IH.
  f_equal. destruct o; reflexivity.
Qed.

Lemma Forall_zip_with {A B C} (f : A -> B -> C) (P : A -> Prop) (Q : B -> Prop) (R : C -> Prop) la lb :
  (forall a b, P a -> Q b -> R (f a b)) -> Forall P la -> Forall Q lb -> Forall R (zip_with f la lb).
Proof.
  intros Hf Ha. revert lb. induction Ha as [|a la Pa _ IH]; intros lb Hb; [constructor|].
  destruct Hb as [|b lb Qb Hb]; constructor; auto.
Qed.

(* zipping a second list in, where one encoding ignores it and another reads only it *)
Lemma zip_with_enc {A B} (f : A -> B -> A) (e e1 : A -> bytes) (e2 : B -> bytes) la lb :
  (forall a b, e (f a b) = e a) -> (forall a b, e1 (f a b) = e2 b) -> lenL lb = lenL la ->
  enc_list e (zip_with f la lb) = enc_list e la /\ enc_list e1 (zip_with f la lb) = enc_list e2 lb /\
  lenL (zip_with f la lb) = lenL la.
Proof.
  intros H1 H2 L. assert (L' : length la = length lb) by (unfold lenL in L; lia). clear L.
  revert lb L'. induction la as [|a la IH]; intros [|b lb] L; try discriminate L; [repeat split|].
  injection L as L. destruct (IH lb L) as (E & E1 & E2).
  cbn [zip_with]. rewrite !enc_list_cons, !lenL_cons, H1, H2, E, E1, E2. repeat split.
Qed.

Lemma wf_tx_iff t : wf_tx t = true <->
  t_version t < two32 /\ t_locktime t < two32 /\ lenL (t_ins t) < two64 /\ lenL (t_outs t) < two64 /\
  (forall i, In i (t_ins t) -> wf_in i = true) /\ (forall o, In o (t_outs t) -> wf_out o = true).
Proof. unfold wf_tx. rewrite !andb_true_iff, !N.ltb_lt, !forallb_forall. tauto. Qed.

Lemma wf_tx_Forall t : wf_tx t = true ->
  t_version t < two32 /\ t_locktime t < two32 /\ lenL (t_ins t) < two64 /\ lenL (t_outs t) < two64 /\
  Forall (fun i => wf_in i = true) (t_ins t) /\ Forall (fun o => wf_out o = true) (t_outs t).
Proof.
  intro W. apply wf_tx_iff in W as (A & B & C & D & E & F).
  apply Forall_forall in E, F. repeat split; assumption.
Qed.

Lemma existsb_false {A} (f : A -> bool) l : existsb f l = false -> forall x, In x l -> f x = false.
Proof.
  induction l as [|a l IH]; intros H x Hx; [destruct Hx|]. cbn [existsb] in H.
  apply orb_false_iff in H as [H1 H2]. destruct Hx as [<-|Hx]; [exact H1 | apply IH; assumption].
Qed.

Lemma has_witness_false_no_wit t :
  has_witness t = false ->
  map strip_in (t_ins t) = t_ins t /\ map strip_out (t_outs t) = t_outs t.
Proof.
  intro H. unfold has_witness in H. apply orb_false_iff in H as [H G2]. apply orb_false_iff in H as [_ G1].
  unfold any_witness_input in G1. unfold any_conf_output in G2.
  split; apply map_id_on.
  - intros i Hi.
    pose proof (existsb_false _ _ G1 i Hi) as Hi'. cbn beta in Hi'.
    destruct i as [h ix sq sc w pg pw iss irp inrp]; cbn in *.
    destruct w, pw, irp, inrp; try discriminate. reflexivity.
  - intros o Ho.
    pose proof (existsb_false _ _ G2 o Ho) as Ho'. cbn beta in Ho'.
    destruct o as [a v s n rp sp]; cbn in *. destruct rp, sp; try discriminate. reflexivity.
Qed.

Theorem tx_parse_ser t rest :
  wf_tx t = true -> parse_tx (ser_full t ++ rest) = Some (norm_tx t, rest).
Proof.
  intro W. apply wf_tx_iff in W as (Hv & Hl & Hni & Hno & H1 & H2).
  unfold parse_tx, ser_full, ser_tx, bind. cbn [andb negb]. rewrite <- !app_assoc.
  rewrite p_le4_app by exact Hv.
  cbn [app]. rewrite andb_true_r, p_u8_if.
  rewrite p_varint_app by exact Hni.
  rewrite (p_list_app_map ser_in strip_in p_in);
    [| intros; apply p_in_app; apply H1; assumption | intros; apply ser_in_nonempty; apply H1; assumption].
  rewrite p_varint_app by exact Hno.
  rewrite (p_list_app_map (ser_out false false) strip_out p_out);
    [| intros; apply p_out_app; apply H2; assumption | intros; apply ser_out_nonempty; apply H2; assumption].
  rewrite p_le4_app by exact Hl.
  unfold ret, norm_tx. destruct (has_witness t) eqn:HW.
  - cbn [N.eqb Pos.eqb]. rewrite <- !app_assoc. rewrite !lenL_map.
    rewrite (p_list_app_map ser_in_wit in_wit_of p_in_wit);
      [| intros; apply p_in_wit_app; apply H1; assumption | intros; apply ser_in_wit_nonempty].
    rewrite (p_list_app_map ser_out_wit out_wit_of p_out_wit);
      [| intros; apply p_out_wit_app; apply H2; assumption | intros; apply ser_out_wit_nonempty].
    rewrite zip_in_wit, zip_out_wit. reflexivity.
  - cbn [N.eqb app]. destruct (has_witness_false_no_wit t HW) as [-> ->]. reflexivity.
Qed.

Lemma stripped_no_witness ins outs :
  Forall wf_in_parsed ins -> Forall (fun o => wf_out o = true /\ strip_out o = o) outs ->
  forall v f l, has_witness (mk_tx v f l ins outs) = (f =? 1).
Proof.
  intros Hi Ho v f l. unfold has_witness, any_witness_input, any_conf_output. cbn [t_flag t_ins t_outs].
  assert (A : existsb (fun i => nonempty (in_witness i) || nonempty (in_pegwit i) || nonempty (in_irp i) || nonempty (in_inrp i)) ins = false).
  { induction Hi as [|i ins [_ S] _ IH]; [reflexivity|]. cbn [existsb]. rewrite IH, <- S. reflexivity. }
  assert (B : existsb (fun o => nonempty (o_rp o) || nonempty (o_sp o)) outs = false).
  { induction Ho as [|o outs [_ S] _ IH]; [reflexivity|]. cbn [existsb]. rewrite IH, <- S. reflexivity. }
  rewrite A, B, !orb_false_r. reflexivity.
Qed.

(* What parse_tx accepts is well formed, and its serialization is the input that was read, except
   that a flag byte other than 0 and 1 is kept in the value and written back as 0. *)
Lemma parse_tx_sound bs t rest : parse_tx bs = Some (t, rest) ->
  wf_tx t = true /\
  exists tail, ser_full t = le_enc 4 (t_version t) ++ b8 (if t_flag t =? 1 then 1 else 0) :: tail /\
               bs = le_enc 4 (t_version t) ++ b8 (t_flag t) :: tail ++ rest.
Proof.
  unfold parse_tx. intro H.
  apply (bind_inv p_le4_inv) in H as (ver & r1 & -> & Hver & H).
  apply (bind_inv (e := fun v => [b8 v]) p_u8_inv) in H as (flag & r2 & -> & _ & H).
  apply (bind_inv p_varint_inv) in H as (nin & r3 & -> & Hnin & H).
  apply (bind_inv (p_list_inv ser_in p_in wf_in_parsed p_in_inv nin)) in H as (ins & r4 & -> & [Lin Fin] & H).
  apply (bind_inv p_varint_inv) in H as (nout & r5 & -> & Hnout & H).
  apply (bind_inv (p_list_inv (ser_out false false) p_out _ p_out_inv nout)) in H as (outs & r6 & -> & [Lout Fout] & H).
  apply (bind_inv p_le4_inv) in H as (lt & r7 & -> & Hlt & H).
  subst nin nout. unfold ser_full, ser_tx.
  destruct (N.eqb_spec flag 1) as [->|F1].
  - apply (bind_inv (p_list_inv enc_in_wit p_in_wit wf_in_wit p_in_wit_inv _)) in H as (iw & r8 & -> & [Liw Fiw] & H).
    apply (bind_inv (p_list_inv enc_out_wit p_out_wit _ p_out_wit_inv _)) in H as (ow & r9 & -> & [Low Fow] & H).
    apply ret_inv in H as [<- <-].
    destruct (zip_with_enc set_in_wit ser_in ser_in_wit enc_in_wit ins iw (fun _ _ => eq_refl) (fun _ _ => eq_refl) Liw)
      as (A1 & A2 & A3).
    destruct (zip_with_enc set_out_wit (ser_out false false) ser_out_wit enc_out_wit outs ow (fun _ _ => eq_refl) (fun _ _ => eq_refl) Low)
      as (B1 & B2 & B3).
    split.
    + apply wf_tx_iff. cbn [t_version t_locktime t_ins t_outs]. rewrite A3, B3.
      repeat split; try assumption; apply Forall_forall.
      * exact (Forall_zip_with _ _ _ _ _ _ wf_set_in_wit Fin Fiw).
      * exact (Forall_zip_with _ _ _ _ _ _ wf_set_out_wit Fout Fow).
    + cbn [t_version t_flag t_locktime t_ins t_outs andb negb has_witness N.eqb Pos.eqb orb app].
      rewrite A1, A2, A3, B1, B2, B3. eexists. split; [reflexivity|].
      rewrite <- !app_assoc. reflexivity.
  - apply ret_inv in H as [<- <-]. split.
    + apply wf_tx_iff. cbn [t_version t_locktime t_ins t_outs]. rewrite Forall_forall in Fin, Fout.
      repeat split; try assumption; intros x Hx; [apply Fin in Hx | apply Fout in Hx]; apply Hx.
    + rewrite (stripped_no_witness ins outs Fin Fout).
      cbn [t_version t_flag t_locktime t_ins t_outs andb negb app].
      apply N.eqb_neq in F1. rewrite F1. cbn [andb]. eexists. split; [reflexivity|].
      rewrite <- !app_assoc. reflexivity.
Qed.

Theorem tx_ser_parse bs t rest :
  parse_tx bs = Some (t, rest) -> canonical_flag t = true -> ser_full t ++ rest = bs.
Proof.
  intros H C. destruct (parse_tx_sound bs t rest H) as (_ & tail & -> & ->).
  unfold canonical_flag in C. rewrite <- app_assoc.
  destruct (N.eqb_spec (t_flag t) 1) as [->|_]; [reflexivity|].
  destruct (N.eqb_spec (t_flag t) 0) as [->|_]; [reflexivity | discriminate C].
Qed.

(* whatever the flag byte: the accepted value is well formed, takes as many bytes as were read,
   and its own serialization parses back to it *)
Theorem parse_tx_any_flag bs t r : parse_tx bs = Some (t, r) ->
  wf_tx t = true /\ lenN (ser_full t) + lenN r = lenN bs /\
  forall r', parse_tx (ser_full t ++ r') = Some (norm_tx t, r').
Proof.
  intro H. destruct (parse_tx_sound bs t r H) as (W & tail & E & ->). repeat split.
  - exact W.
  - rewrite E, !lenN_app, !lenN_cons, lenN_app. lia.
  - intro r'. apply tx_parse_ser, W.
Qed.

Lemma has_witness_norm t : has_witness (norm_tx t) = has_witness t.
Proof.
  unfold norm_tx. destruct (has_witness t) eqn:E; [reflexivity|].
  unfold has_witness in E. apply orb_false_iff in E as [E1 E2]. apply orb_false_iff in E1 as [_ E1].
  unfold has_witness. cbn [t_flag N.eqb orb].
  change (any_witness_input t || any_conf_output t = false). rewrite E1, E2. reflexivity.
Qed.

Lemma canonical_flag_norm t : canonical_flag (norm_tx t) = true.
Proof. unfold norm_tx, canonical_flag. cbn [t_flag]. destruct (has_witness t); reflexivity. Qed.
