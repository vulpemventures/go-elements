(* Proofs/TxId.v — what the transaction id and the witness hash cover (C04). *)
From GE Require Import Lib.Bytes Lib.Varint Lib.Sha256 Model.Tx Model.TxHash Proofs.TxCodec.
Open Scope N_scope.

(* the witness-free part of a transaction *)
Definition strip_tx (t : tx) : tx :=
  mk_tx (t_version t) 0 (t_locktime t) (map strip_in (t_ins t)) (map strip_out (t_outs t)).

Definition same_base (t t' : tx) : Prop :=
  t_version t = t_version t' /\ t_locktime t = t_locktime t' /\
  map strip_in (t_ins t) = map strip_in (t_ins t') /\ map strip_out (t_outs t) = map strip_out (t_outs t').

Lemma ser_out_strip a o : ser_out a false (strip_out o) = ser_out a false o.
Proof. reflexivity. Qed.

Lemma ser_txid_strip t : ser_txid (strip_tx t) = ser_txid t.
Proof.
  unfold ser_txid, ser_tx, strip_tx. cbn [andb t_version t_ins t_outs t_locktime].
  rewrite !lenL_map, !enc_list_map. reflexivity.
Qed.

Lemma has_witness_strip t : has_witness (strip_tx t) = false.
Proof.
  unfold strip_tx, has_witness, any_witness_input, any_conf_output. cbn [t_flag t_ins t_outs N.eqb orb].
  apply orb_false_iff. split; apply not_true_is_false; rewrite existsb_exists;
    intros [x [Hx Hb]]; apply in_map_iff in Hx as [y [<- _]]; discriminate Hb.
Qed.

Lemma ser_txid_eq_full_strip t : ser_full (strip_tx t) = ser_txid t.
Proof.
  rewrite <- ser_txid_strip. unfold ser_full, ser_txid, ser_tx. cbn [andb negb].
  rewrite has_witness_strip. reflexivity.
Qed.

(* the id does not depend on witness fields, whatever the transactions *)
Theorem txid_frame t t' : same_base t t' -> ser_txid t = ser_txid t'.
Proof.
  intros (Hv & Hl & Hi & Ho). rewrite <- (ser_txid_strip t), <- (ser_txid_strip t').
  unfold strip_tx. rewrite Hv, Hl, Hi, Ho. reflexivity.
Qed.

Corollary txid_frame_digest t t' : same_base t t' -> txid t = txid t'.
Proof. intro H. unfold txid. rewrite (txid_frame t t' H). reflexivity. Qed.

Lemma wf_strip_tx t : wf_tx t = true -> wf_tx (strip_tx t) = true.
Proof.
  intro W. apply wf_tx_iff in W as (Hv & Hl & Hni & Hno & H1 & H2).
  apply wf_tx_iff. unfold strip_tx. cbn [t_version t_locktime t_ins t_outs]. rewrite !lenL_map.
  repeat split; try assumption; intros x Hx; apply in_map_iff in Hx as [y [<- Hy]].
  - apply strip_in_wf, H1, Hy.
  - apply strip_out_wf, H2, Hy.
Qed.

Lemma norm_strip t : norm_tx (strip_tx t) = strip_tx t.
Proof.
  unfold norm_tx. pose proof (has_witness_strip t) as H.
  rewrite H. reflexivity.
Qed.

Lemma parse_ser_txid t rest : wf_tx t = true ->
  parse_tx (ser_txid t ++ rest) = Some (strip_tx t, rest).
Proof.
  intro W. rewrite <- ser_txid_eq_full_strip.
  rewrite (tx_parse_ser (strip_tx t) rest (wf_strip_tx t W)). rewrite norm_strip. reflexivity.
Qed.

Theorem txid_sensitive t t' : wf_tx t = true -> wf_tx t' = true ->
  ser_txid t = ser_txid t' -> same_base t t'.
Proof.
  intros W W' E.
  pose proof (parse_ser_txid t [] W) as P. pose proof (parse_ser_txid t' [] W') as P'.
  rewrite E in P. rewrite P in P'. unfold strip_tx in P'. injection P' as A B C D. repeat split; assumption.
Qed.

Definition wit_section (t : tx) : bytes := enc_list ser_in_wit (t_ins t) ++ enc_list ser_out_wit (t_outs t).

Lemma ser_wtxid_with_witness t : has_witness t = true -> ser_wtxid t = ser_txid t ++ wit_section t.
Proof.
  intro H. unfold ser_wtxid, ser_txid, ser_tx, wit_section. rewrite H. cbn [andb negb].
  repeat (rewrite <- ?app_assoc; cbn [app]). reflexivity.
Qed.

Theorem wtxid_eq_txid_without_witness t : has_witness t = false -> wtxid t = txid t.
Proof. intro H. unfold wtxid, txid, ser_wtxid. rewrite H. reflexivity. Qed.

Lemma parse_ser_wtxid t : wf_tx t = true ->
  parse_tx (ser_wtxid t) = Some (strip_tx t, if has_witness t then wit_section t else []).
Proof.
  intro W. destruct (has_witness t) eqn:H.
  - rewrite ser_wtxid_with_witness by exact H. apply parse_ser_txid; exact W.
  - unfold ser_wtxid. rewrite H. rewrite <- (app_nil_r (ser_txid t)). apply parse_ser_txid; exact W.
Qed.

(* an empty witness section belongs to a transaction without inputs and outputs *)
Lemma no_section_no_items t t' :
  map strip_in (t_ins t) = map strip_in (t_ins t') -> map strip_out (t_outs t) = map strip_out (t_outs t') ->
  wit_section t = [] -> t_ins t = t_ins t' /\ t_outs t = t_outs t'.
Proof.
  intros C D E. apply app_eq_nil in E as [PI PO].
  apply (enc_list_nil_inv ser_in_wit _ ser_in_wit_nonempty) in PI.
  apply (enc_list_nil_inv ser_out_wit _ ser_out_wit_nonempty) in PO.
  rewrite PI in C |- *. rewrite PO in D |- *. symmetry in C, D. apply map_eq_nil in C, D. auto.
Qed.

Definition same_all_but_flag (t t' : tx) : Prop :=
  t_version t = t_version t' /\ t_locktime t = t_locktime t' /\ t_ins t = t_ins t' /\ t_outs t = t_outs t'.

(* with witness data, what Serialize() writes and what WitnessHash() hashes differ in the flag byte
   (offset 4, after the version) only *)
Lemma full_of_wtxid t : has_witness t = true ->
  ser_full t = le_enc 4 (t_version t) ++ b8 1 :: skipn 5 (ser_wtxid t) /\
  ser_wtxid t = le_enc 4 (t_version t) ++ b8 0 :: skipn 5 (ser_wtxid t).
Proof.
  intro H. unfold ser_full, ser_wtxid, ser_tx. rewrite H. cbn [andb negb].
  assert (L : length (le_enc 4 (t_version t)) = 4%nat) by apply le_enc_length.
  set (v := le_enc 4 (t_version t)) in *.
  do 5 (destruct v as [|? v]; try discriminate L). cbn [app skipn]. split; reflexivity.
Qed.

Theorem wtxid_sensitive t t' : wf_tx t = true -> wf_tx t' = true ->
  ser_wtxid t = ser_wtxid t' -> same_all_but_flag t t'.
Proof.
  intros W W' E.
  pose proof (parse_ser_wtxid t W) as P. pose proof (parse_ser_wtxid t' W') as P'.
  rewrite E in P. rewrite P in P'. unfold strip_tx in P'. injection P' as A B C D PW.
  destruct (has_witness t) eqn:H, (has_witness t') eqn:H'.
  - (* both carry witness data: the full serializations coincide, hence the values *)
    destruct (full_of_wtxid t H) as [F1 F2]. destruct (full_of_wtxid t' H') as [F1' F2'].
    assert (EF : ser_full t = ser_full t') by (rewrite F1, F1', A, E; reflexivity).
    pose proof (tx_parse_ser t [] W) as Q. pose proof (tx_parse_ser t' [] W') as Q'.
    rewrite EF in Q. rewrite Q in Q'. unfold norm_tx in Q'. injection Q' as _ _ _ QI QO. repeat split; assumption.
  - destruct (no_section_no_items t t' C D PW). repeat split; assumption.
  - destruct (no_section_no_items t' t (eq_sym C) (eq_sym D) (eq_sym PW)). repeat split; auto.
  - destruct (has_witness_false_no_wit t H) as [I1 O1]. destruct (has_witness_false_no_wit t' H') as [I2 O2].
    repeat split; congruence.
Qed.

(* the ids over a function H in place of SHA-256: where H is injective, ids differ as soon as the
   hashed serializations do (stated in Props/C04.v: C04_txid_digest_sensitive, C04_wtxid_digest_sensitive) *)
Section IdealHash.
  Variable H : bytes -> bytes.
  Definition txid_H (t : tx) := H (H (ser_txid t)).
  Definition wtxid_H (t : tx) := H (H (ser_wtxid t)).
End IdealHash.

(* non-vacuity: an injective H exists, and two wf transactions differing in one covered field exist *)
Example ideal_hash_exists : exists H : bytes -> bytes, forall a b, H a = H b -> a = b.
Proof. exists (fun x => x). auto. Qed.

Example txid_sensitive_applies :
  let t  := mk_tx 2 0 0 [] [] in
  let t' := mk_tx 2 0 1 [] [] in
  wf_tx t = true /\ wf_tx t' = true /\ ~ same_base t t'.
Proof. cbn. repeat split. intros (_ & A & _). discriminate A. Qed.
