(* Proofs/TxIdFields.v — C04 field by field: which single fields of which input / output the id and the
   witness hash cover, stated on positions of the input and output lists (corollaries of Proofs/TxId.v).
   The same for version, locktime, the two counts, the output fields and the output proofs is derived
   in Props/C04.v directly from txid_sensitive and wtxid_covers_output. *)
From GE Require Import Lib.Bytes Model.Tx Model.TxHash Proofs.TxCodec Proofs.TxId.
Open Scope N_scope.

(* replace the element at position n (no effect past the end) *)
Fixpoint upd_nth {A} (l : list A) (n : nat) (f : A -> A) : list A :=
  match l, n with
  | [], _ => []
  | x :: r, O => f x :: r
  | x :: r, S m => x :: upd_nth r m f
  end.

Lemma map_upd_nth_fix {A B} (g : A -> B) (f : A -> A) l n :
  (forall x, g (f x) = g x) -> map g (upd_nth l n f) = map g l.
Proof.
  intro H. revert n. induction l as [|x r IH]; intros [|m]; cbn [upd_nth map]; try reflexivity.
  - rewrite H. reflexivity.
  - rewrite IH. reflexivity.
Qed.

(* the four witness fields of an input, and the two proofs of an output, set to arbitrary values *)
Definition set_in_witness_fields (w pw : list bytes) (irp inrp : bytes) (i : txin) : txin :=
  mk_in (in_hash i) (in_index i) (in_seq i) (in_script i) w (in_pegin i) pw (in_iss i) irp inrp.
Definition set_out_proofs (rp sp : bytes) (o : txout) : txout :=
  mk_out (o_asset o) (o_value o) (o_script o) (o_nonce o) rp sp.

(* exactly which fields the witness-free part keeps *)
Lemma strip_in_eq_iff i i' : strip_in i = strip_in i' <->
  in_hash i = in_hash i' /\ in_index i = in_index i' /\ in_seq i = in_seq i' /\ in_script i = in_script i' /\
  in_pegin i = in_pegin i' /\ in_iss i = in_iss i'.
Proof.
  unfold strip_in. split.
  - intro E. injection E as A B C D F G. repeat split; assumption.
  - intros (A & B & C & D & F & G). rewrite A, B, C, D, F, G. reflexivity.
Qed.

Lemma strip_out_eq_iff o o' : strip_out o = strip_out o' <->
  o_asset o = o_asset o' /\ o_value o = o_value o' /\ o_script o = o_script o' /\ o_nonce o = o_nonce o'.
Proof.
  unfold strip_out. split.
  - intro E. injection E as A B C D. repeat split; assumption.
  - intros (A & B & C & D). rewrite A, B, C, D. reflexivity.
Qed.

(* rewriting the script witness, peg-in witness and both issuance range proofs of any
   input, the range and surjection proof of any output, and the flag, leaves the id unchanged (no hypothesis) *)
Theorem txid_ignores_input_witness t n w pw irp inrp flag :
  txid (mk_tx (t_version t) flag (t_locktime t) (upd_nth (t_ins t) n (set_in_witness_fields w pw irp inrp)) (t_outs t))
  = txid t.
Proof.
  apply txid_frame_digest. unfold same_base. cbn [t_version t_locktime t_ins t_outs].
  repeat split. apply map_upd_nth_fix. intro x. reflexivity.
Qed.

Theorem txid_ignores_output_proofs t n rp sp flag :
  txid (mk_tx (t_version t) flag (t_locktime t) (t_ins t) (upd_nth (t_outs t) n (set_out_proofs rp sp)))
  = txid t.
Proof.
  apply txid_frame_digest. unfold same_base. cbn [t_version t_locktime t_ins t_outs].
  repeat split. apply map_upd_nth_fix. intro x. reflexivity.
Qed.

Lemma map_eq_nth_error {A B} (g : A -> B) l l' n x x' :
  map g l = map g l' -> nth_error l n = Some x -> nth_error l' n = Some x' -> g x = g x'.
Proof.
  intros E Hx Hx'. apply (map_nth_error g) in Hx. apply (map_nth_error g) in Hx'.
  rewrite E in Hx. rewrite Hx in Hx'. injection Hx' as E'. exact E'.
Qed.

Theorem txid_iff t t' : wf_tx t = true -> wf_tx t' = true ->
  (ser_txid t = ser_txid t' <-> same_base t t').
Proof. intros W W'. split; [apply txid_sensitive; assumption | apply txid_frame]. Qed.

Theorem txid_covers_input_field t t' n i i' : wf_tx t = true -> wf_tx t' = true ->
  nth_error (t_ins t) n = Some i -> nth_error (t_ins t') n = Some i' ->
  (in_hash i <> in_hash i' \/ in_index i <> in_index i' \/ in_seq i <> in_seq i' \/ in_script i <> in_script i' \/
   in_pegin i <> in_pegin i' \/ in_iss i <> in_iss i') ->
  ser_txid t <> ser_txid t'.
Proof.
  intros W W' Hi Hi' D E. destruct (txid_sensitive t t' W W' E) as (_ & _ & A & _).
  pose proof (map_eq_nth_error strip_in _ _ n i i' A Hi Hi') as S.
  apply strip_in_eq_iff in S as (S1 & S2 & S3 & S4 & S5 & S6).
  destruct D as [D|[D|[D|[D|[D|D]]]]]; contradiction.
Qed.

(* the witness hash covers every field of every input and output, witness fields included *)
Theorem wtxid_covers_input t t' n i i' : wf_tx t = true -> wf_tx t' = true ->
  nth_error (t_ins t) n = Some i -> nth_error (t_ins t') n = Some i' -> i <> i' -> ser_wtxid t <> ser_wtxid t'.
Proof.
  intros W W' Hi Hi' D E. destruct (wtxid_sensitive t t' W W' E) as (_ & _ & A & _).
  rewrite A in Hi. rewrite Hi in Hi'. injection Hi' as X. contradiction.
Qed.

Theorem wtxid_covers_output t t' n o o' : wf_tx t = true -> wf_tx t' = true ->
  nth_error (t_outs t) n = Some o -> nth_error (t_outs t') n = Some o' -> o <> o' -> ser_wtxid t <> ser_wtxid t'.
Proof.
  intros W W' Ho Ho' D E. destruct (wtxid_sensitive t t' W W' E) as (_ & _ & _ & A).
  rewrite A in Ho. rewrite Ho in Ho'. injection Ho' as X. contradiction.
Qed.

Theorem wtxid_covers_witness_field t t' n i i' : wf_tx t = true -> wf_tx t' = true ->
  nth_error (t_ins t) n = Some i -> nth_error (t_ins t') n = Some i' ->
  (in_witness i <> in_witness i' \/ in_pegwit i <> in_pegwit i' \/ in_irp i <> in_irp i' \/ in_inrp i <> in_inrp i') ->
  ser_wtxid t <> ser_wtxid t'.
Proof.
  intros W W' Hi Hi' D. apply (wtxid_covers_input t t' n i i' W W' Hi Hi').
  intro X. rewrite X in D. destruct D as [D|[D|[D|D]]]; apply D; reflexivity.
Qed.

(* non-vacuity: a well-formed transaction with one input, and the same with another sequence number / witness *)
Definition ex_in (sq : N) (w : list bytes) : txin :=
  mk_in (repeat (b8 7) 32) 1 sq [] w false [] None [] [].
Example covers_input_field_applies :
  let t  := mk_tx 2 0 0 [ex_in 5 []] [] in
  let t' := mk_tx 2 0 0 [ex_in 6 []] [] in
  wf_tx t = true /\ wf_tx t' = true /\ ser_txid t <> ser_txid t'.
Proof.
  cbv zeta. split; [vm_compute; reflexivity|]. split; [vm_compute; reflexivity|].
  apply (txid_covers_input_field _ _ 0%nat (ex_in 5 []) (ex_in 6 [])); try reflexivity.
  right. right. left. discriminate.
Qed.

Example covers_witness_field_applies :
  let t  := mk_tx 2 1 0 [ex_in 5 [[b8 1]]] [] in
  let t' := mk_tx 2 1 0 [ex_in 5 [[b8 2]]] [] in
  wf_tx t = true /\ wf_tx t' = true /\ txid t = txid t' /\ ser_wtxid t <> ser_wtxid t'.
Proof.
  cbv zeta. split; [vm_compute; reflexivity|]. split; [vm_compute; reflexivity|]. split.
  - apply txid_frame_digest. repeat split.
  - apply (wtxid_covers_witness_field _ _ 0%nat (ex_in 5 [[b8 1]]) (ex_in 5 [[b8 2]])); try reflexivity.
    left. discriminate.
Qed.
