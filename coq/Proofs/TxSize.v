(* Proofs/TxSize.v — reported sizes equal the lengths of the serializations; weight, virtual size
   and the discount for confidential outputs (C19). *)
From GE Require Import Lib.Bytes Lib.Varint Model.Tx.
Open Scope N_scope.

(* the widths the size formulas hard-code *)
Definition fixed_in (i : txin) : bool :=
  (length (in_hash i) =? 32)%nat &&
  match in_iss i with
  | Some s => (length (iss_nonce s) =? 32)%nat && (length (iss_entropy s) =? 32)%nat
  | None => true end.
Definition fixed_widths (t : tx) : bool := forallb fixed_in (t_ins t).

Lemma size_in_ok i : fixed_in i = true -> lenN (ser_in i) = size_in i.
Proof.
  unfold fixed_in, ser_in, size_in. intro H. apply andb_true_iff in H as [H1 H2].
  apply Nat.eqb_eq in H1. rewrite !lenN_app, !lenN_le_enc, var_slice_length.
  unfold lenN at 1. rewrite H1.
  destruct (in_iss i) as [s|].
  - apply andb_true_iff in H2 as [H2 H3]. apply Nat.eqb_eq in H2, H3.
    unfold ser_iss. rewrite !lenN_app. unfold lenN at 1 2. rewrite H2, H3. lia.
  - rewrite lenN_nil. lia.
Qed.

Lemma size_out_ok o : lenN (ser_out false false o) = size_out o.
Proof.
  unfold ser_out, size_out. rewrite !lenN_app, var_slice_length, !lenN_nil. lia.
Qed.

Lemma size_in_wit_ok i : lenN (ser_in_wit i) = size_in_wit i.
Proof. unfold ser_in_wit, size_in_wit. rewrite !lenN_app, !var_slice_length, !vector_length. lia. Qed.

Lemma size_out_wit_ok o : lenN (ser_out_wit o) = size_out_wit o.
Proof. unfold ser_out_wit, size_out_wit. rewrite !lenN_app, !var_slice_length. lia. Qed.

(* SerializeSize(allowWitness, forSignature) = len(serialize(allowWitness, zeroFlag, forSignature, false))
   in every case but the signature form of a transaction serialized with its witness (which blanks values) *)
Lemma size_tx_length aw zf fs t : fixed_widths t = true -> fs && (aw && has_witness t) = false ->
  size_tx aw fs t = lenN (ser_tx aw zf fs false t).
Proof.
  intros F C. unfold fixed_widths in F. rewrite forallb_forall in F.
  unfold size_tx, base_size, ser_tx, sumN. rewrite C.
  rewrite !lenN_app, !varint_length, !lenN_le_enc.
  rewrite (enc_list_length ser_in size_in) by (intros; apply size_in_ok, F; assumption).
  rewrite (enc_list_length (ser_out false false) size_out) by (intros; apply size_out_ok).
  destruct fs; cbn [andb negb] in *.
  - rewrite C, !lenN_nil. lia.
  - destruct (aw && has_witness t).
    + rewrite !lenN_app.
      rewrite (enc_list_length ser_in_wit size_in_wit) by (intros; apply size_in_wit_ok).
      rewrite (enc_list_length ser_out_wit size_out_wit) by (intros; apply size_out_wit_ok).
      rewrite lenN_cons, lenN_nil. lia.
    + rewrite lenN_cons, !lenN_nil. lia.
Qed.

Theorem size_eq_length aw zf t :
  fixed_widths t = true -> size_tx aw false t = lenN (ser_tx aw zf false false t).
Proof. intro F. apply size_tx_length; [exact F | reflexivity]. Qed.

Theorem weight_def t : weight t = 3 * size_tx false false t + size_tx true false t.
Proof. unfold weight, WitnessScaleFactor. lia. Qed.

Theorem vsize_ceil t : 4 * vsize t >= weight t /\ 4 * vsize t < weight t + 4.
Proof. unfold vsize, WitnessScaleFactor. split; lia. Qed.

Lemma var_slice_size_pos x : 1 <= var_slice_size x.
Proof. unfold var_slice_size, varint_size. destruct (_ <? _); [lia|]. destruct (_ <=? _); [lia|]. destruct (_ <=? _); lia. Qed.

Lemma discount_out_nonneg o : (0 <= discount_out o)%Z.
Proof. unfold discount_out. destruct (is_conf_out o); [|lia]. destruct (_ <? _)%Z; lia. Qed.

Theorem discount_le t : (discount_weight t <= Z.of_N (weight t))%Z.
Proof.
  unfold discount_weight.
  assert (0 <= fold_right (fun o acc => discount_out o + acc) 0 (t_outs t))%Z.
  { induction (t_outs t) as [|o l IH]; cbn [fold_right]; [lia|]. pose proof (discount_out_nonneg o). lia. }
  lia.
Qed.

Theorem discount_eq_when_no_confidential t :
  forallb (fun o => negb (is_conf_out o)) (t_outs t) = true -> discount_weight t = Z.of_N (weight t).
Proof.
  intro H. unfold discount_weight.
  assert (fold_right (fun o acc => discount_out o + acc) 0 (t_outs t) = 0)%Z.
  { induction (t_outs t) as [|o l IH]; cbn [fold_right forallb] in *; [reflexivity|].
    apply andb_true_iff in H as [H1 H2]. rewrite (IH H2). unfold discount_out.
    apply negb_true_iff in H1. rewrite H1. reflexivity. }
  lia.
Qed.

Lemma vsize_Z t : Z.of_N (vsize t) = ((Z.of_N (weight t) + 4 - 1) / 4)%Z.
Proof.
  unfold vsize, WitnessScaleFactor. rewrite N2Z.inj_div, N2Z.inj_sub by lia. rewrite N2Z.inj_add. reflexivity.
Qed.

(* the discount rule: each confidential output is charged like an explicit one *)
Definition explicit_out (o : txout) : txout :=
  if is_conf_out o
  then mk_out (o_asset o) (b8 1 :: repeat x00 8) (o_script o) [x00] [] []
  else o.
Definition explicitise (t : tx) : tx :=
  mk_tx (t_version t) (t_flag t) (t_locktime t) (t_ins t) (map explicit_out (t_outs t)).

(* confidential outputs have the 33-byte value and nonce the constants (33-9), (33-1) assume *)
Definition conf_shape (o : txout) : bool :=
  negb (is_conf_out o) || ((length (o_value o) =? 33)%nat && (length (o_nonce o) =? 33)%nat).

Lemma sumN_map {A B} (f : B -> N) (g : A -> B) l : sumN f (map g l) = sumN (fun a => f (g a)) l.
Proof. induction l as [|a l IH]; cbn; [reflexivity | unfold sumN in *; cbn; rewrite IH; reflexivity]. Qed.

Lemma explicit_out_not_conf o : is_conf_out (explicit_out o) = false.
Proof. unfold explicit_out. destruct (is_conf_out o) eqn:E; [reflexivity | exact E]. Qed.

Lemma size_out_explicit o : conf_shape o = true ->
  Z.of_N (size_out o) = (Z.of_N (size_out (explicit_out o)) + (if is_conf_out o then 24 + 32 else 0))%Z.
Proof.
  unfold conf_shape, explicit_out, size_out. destruct (is_conf_out o) eqn:E; cbn [negb orb].
  - intro H. apply andb_true_iff in H as [H1 H2]. apply Nat.eqb_eq in H1, H2.
    cbn [o_asset o_value o_nonce o_script]. unfold lenN. rewrite H1, H2. cbn [length repeat]. lia.
  - intros _. lia.
Qed.

Lemma size_out_wit_explicit o :
  Z.of_N (size_out_wit o) = (Z.of_N (size_out_wit (explicit_out o)) +
     (if is_conf_out o then Z.of_N (var_slice_size (o_rp o)) + Z.of_N (var_slice_size (o_sp o)) - 2 else 0))%Z.
Proof.
  unfold explicit_out, size_out_wit. destruct (is_conf_out o); cbn [o_rp o_sp]; [|lia].
  change (var_slice_size []) with 1. lia.
Qed.

Lemma discount_out_explicit o : conf_shape o = true ->
  (Z.of_N (size_out o) * 4 + Z.of_N (size_out_wit o) - discount_out o =
   Z.of_N (size_out (explicit_out o)) * 4 + Z.of_N (size_out_wit (explicit_out o)))%Z.
Proof.
  intro F1.
  pose proof (size_out_explicit o F1) as A. pose proof (size_out_wit_explicit o) as B.
  pose proof (var_slice_size_pos (o_rp o)). pose proof (var_slice_size_pos (o_sp o)).
  unfold discount_out. destruct (is_conf_out o).
  - destruct (Z.ltb_spec 0 (-2 + Z.of_N (var_slice_size (o_rp o)) + Z.of_N (var_slice_size (o_sp o)))); lia.
  - lia.
Qed.

(* The sizes count a witness section only when has_witness holds.  explicitise empties the proofs
   of the confidential outputs, so a transaction with no other witness data (and a Flag other than 1)
   would lose the whole section: the rule is stated where both transactions carry one. *)
Theorem discount_rule t :
  forallb conf_shape (t_outs t) = true ->
  has_witness t = true -> has_witness (explicitise t) = true ->
  discount_weight t = Z.of_N (weight (explicitise t)).
Proof.
  intros Hs HW HW'. unfold discount_weight, weight, size_tx, base_size, WitnessScaleFactor.
  rewrite HW, HW'. unfold explicitise. cbn [andb t_ins t_outs].
  unfold lenL. rewrite map_length.
  set (ni := varint_size (N.of_nat (length (t_ins t)))). set (no := varint_size (N.of_nat (length (t_outs t)))).
  set (si := sumN size_in (t_ins t)). set (swi := sumN size_in_wit (t_ins t)).
  assert (G : forall l, forallb conf_shape l = true ->
     (Z.of_N (sumN size_out l) * 4 + Z.of_N (sumN size_out_wit l) - fold_right (fun o acc => discount_out o + acc) 0 l =
      Z.of_N (sumN size_out (map explicit_out l)) * 4 + Z.of_N (sumN size_out_wit (map explicit_out l)))%Z).
  { induction l as [|o l IH]; intro F; [reflexivity|].
    cbn [forallb] in F. apply andb_true_iff in F as [F1 F2]. specialize (IH F2).
    unfold sumN in *. cbn [map fold_right].
    pose proof (discount_out_explicit o F1). lia. }
  specialize (G (t_outs t) Hs). lia.
Qed.

(* non-vacuity: a transaction with a confidential output meets the hypotheses *)
Example discount_rule_applies :
  let o := mk_out (b8 10 :: repeat x00 32) (b8 9 :: repeat x00 32) [] (b8 2 :: repeat x00 32) [x01; x02] [x03] in
  let t := mk_tx 2 1 0 [] [o] in
  forallb conf_shape (t_outs t) = true /\ has_witness t = true /\ has_witness (explicitise t) = true /\
  discount_weight t = Z.of_N (weight (explicitise t)).
Proof. vm_compute. repeat split. Qed.

(* Go divides with truncation towards zero; that is the rounding-up quotient whenever the
   discounted weight is not below -3, in particular where discount_rule applies (there it is a weight,
   hence not negative: C19_discount_vsize_go_rule in Props/C19.v) *)
Theorem discount_vsize_go_eq t : (-3 <= discount_weight t)%Z -> discount_vsize_go t = discount_vsize t.
Proof.
  intro H. unfold discount_vsize_go, discount_vsize. apply Z.quot_div_nonneg; lia.
Qed.
