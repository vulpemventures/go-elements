(* Proofs/Unblind.v — C06: unblinding returns exactly what was blinded, only to the right key.
   The theorems are about the wrappers of Model/Unblind.v for ANY primitives [P] that satisfy
   the laws stated below (ECDH symmetry, canonical generator / commitment serialisation,
   H(a)+0*G = H(a), range-proof rewind completeness and exclusiveness, Pedersen binding).
   After them: an instance of the laws, and of the theorems' hypotheses (non-vacuity). *)
From Coq Require Import ZifyBool ZifyN ZifyNat.
From GE Require Import Lib.Bytes Lib.Varint Lib.Sha256 Model.Tx Model.Unblind.
Open Scope N_scope.

Lemma fit_length n bs : length (ub_fit n bs) = n.
Proof. unfold ub_fit. rewrite firstn_length, app_length, repeat_length. lia. Qed.

Lemma fit_id n bs : length bs = n -> ub_fit n bs = bs.
Proof. apply firstn_app_exact. Qed.

Lemma zero32_length : length ub_zero32 = 32%nat.
Proof. reflexivity. Qed.

Lemma calc_asset_hash_length {i s a} : calc_asset_hash i s = Some a -> length a = 32%nat.
Proof.
  unfold calc_asset_hash, ub_obind, ub_compute_asset.
  destruct (issuance_entropy i s) as [e|]; [|discriminate].
  destruct (length e =? 32)%nat; [|discriminate].
  intros [= <-]. apply midstate256_length.
Qed.

Lemma calc_token_hash_length {i s a} : calc_token_hash i s = Some a -> length a = 32%nat.
Proof.
  unfold calc_token_hash, ub_obind, ub_compute_token.
  destruct (issuance_entropy i s) as [e|]; [|discriminate].
  destruct (length e =? 32)%nat; [|discriminate].
  intros [= <-]. apply midstate256_length.
Qed.

(* the issuance ids are a function of the outpoint, the blinding nonce and the entropy field *)
Lemma calc_hashes_ext i s i' s' :
  in_hash i = in_hash i' -> in_index i = in_index i' ->
  iss_nonce s = iss_nonce s' -> iss_entropy s = iss_entropy s' ->
  calc_asset_hash i s = calc_asset_hash i' s' /\ calc_token_hash i s = calc_token_hash i' s'.
Proof.
  unfold calc_asset_hash, calc_token_hash, issuance_entropy, ub_is_reissuance.
  intros -> -> -> ->. split; reflexivity.
Qed.

(* generator keys under which the recipient's key is the one that is reached *)
Definition reaches (gk : gen_keys) (scr key : bytes) : Prop :=
  match gk with
  | GKeys ks => exists pre post, ks = pre ++ key :: post /\ ~ In key pre
  | GMaster d => d scr = key
  end.

(* laws of the primitives (idealised cryptography; a hypothesis of every theorem, never
   an axiom).  [pk] is the public key of a private key (btcec PubKey().SerializeCompressed();
   not a function of the library under study). *)
Record laws {G C : Type} (P : prims G C) (pk : bytes -> option bytes) : Prop := mk_laws {
  law_hash_len : forall x, length (p_hash P x) = 32%nat;
  law_pk_conf : forall a A, pk a = Some A -> (1 < length A)%nat;
  (* ECDH symmetry *)
  law_ecdh_sym : forall a b A B,
    pk a = Some A -> pk b = Some B -> p_ecdh P A b = p_ecdh P B a;
  (* distinct private keys give distinct nonces (prime-order group + ideal hash) *)
  law_nonce_inj : forall A a b s s',
    p_ecdh P A a = Some s -> p_ecdh P A b = Some s' -> p_hash P s = p_hash P s' -> a = b;
  (* generators and commitments have a canonical 33-byte serialisation *)
  law_gen_ser_len : forall g, length (p_gen_ser P g) = 33%nat;
  law_gen_parse_ser : forall g, p_gen_parse P (p_gen_ser P g) = Some g;
  law_gen_ser_parse : forall b g, p_gen_parse P b = Some g -> p_gen_ser P g = b;
  (* H(a) + 0*G = H(a) *)
  law_gen_blinded_zero : forall a, p_gen_blinded P a ub_zero32 = p_gen_generate P a;
  law_commit_ser_len : forall c, length (p_commit_ser P c) = 33%nat;
  law_commit_parse_ser : forall c, p_commit_parse P (p_commit_ser P c) = Some c;
  law_commit_ser_parse : forall b c, p_commit_parse P b = Some c -> p_commit_ser P c = b;
  law_sign_nonempty : forall mn c vbf n e mb v msg s g,
    p_sign P mn c vbf n e mb v msg s g <> Some [];
  (* rewinding a proof signed for a commitment to (value, blind) with what it was signed
     with returns what was signed (the binding hands back the first 64 bytes of the
     zero-padded message) ... *)
  law_rewind_sign : forall mn c vbf n e mb v msg s g p,
    p_commit P vbf v g = Some c ->
    p_sign P mn c vbf n e mb v msg s g = Some p ->
    p_rewind P c p n s g = Some (vbf, v, ub_fit 64 msg);
  (* ... and with any other commitment, nonce, extra commitment or generator it fails *)
  law_rewind_only : forall mn c vbf n e mb v msg s g p c' n' s' g' r,
    p_sign P mn c vbf n e mb v msg s g = Some p ->
    p_rewind P c' p n' s' g' = Some r -> c' = c /\ n' = n /\ s' = s /\ g' = g;
  law_verify_sign : forall mn c vbf n e mb v msg s g p,
    p_commit P vbf v g = Some c ->
    p_sign P mn c vbf n e mb v msg s g = Some p -> p_verify P c p s g = true;
  (* a successful rewind (of any byte string) re-creates the commitment; Pedersen binding *)
  law_rewind_binds : forall c p n s g vbf v m,
    p_rewind P c p n s g = Some (vbf, v, m) -> p_commit P vbf v g = Some c;
  law_commit_inj : forall vbf v vbf' v' g c,
    p_commit P vbf v g = Some c -> p_commit P vbf' v' g = Some c -> vbf = vbf' /\ v = v'
}.


Section Laws.
Context {G C : Type} (P : prims G C).
Variable pk : bytes -> option bytes.
Hypothesis L : laws P pk.

Let hash_len := law_hash_len P pk L.
Let pk_conf := law_pk_conf P pk L.
Let ecdh_sym := law_ecdh_sym P pk L.
Let nonce_inj := law_nonce_inj P pk L.
Let gen_ser_len := law_gen_ser_len P pk L.
Let gen_parse_ser := law_gen_parse_ser P pk L.
Let gen_ser_parse := law_gen_ser_parse P pk L.
Let gen_blinded_zero := law_gen_blinded_zero P pk L.
Let commit_ser_len := law_commit_ser_len P pk L.
Let commit_parse_ser := law_commit_parse_ser P pk L.
Let commit_ser_parse := law_commit_ser_parse P pk L.
Let sign_nonempty := law_sign_nonempty P pk L.
Let rewind_sign := law_rewind_sign P pk L.
Let rewind_only := law_rewind_only P pk L.
Let verify_sign := law_verify_sign P pk L.
Let rewind_binds := law_rewind_binds P pk L.
Let commit_inj := law_commit_inj P pk L.

(* unblindOutput fails, or went through these steps *)
Lemma unblind_output_cases o nonce :
  unblind_output P o nonce = UErr \/
  exists c g vbf v m,
    o_rp o <> [] /\
    p_commit_parse P (o_value o) = Some c /\
    (if (length (o_asset o) =? 33)%nat then p_gen_parse P (o_asset o)
     else p_gen_generate P (o_asset o)) = Some g /\
    p_rewind P c (o_rp o) nonce (o_script o) g = Some (vbf, v, m) /\
    unblind_output P o nonce =
      (if (length m <? 32)%nat then UPanic
       else UOk (mk_unb v (firstn 32 m) vbf (skipn 32 m))).
Proof.
  unfold unblind_output.
  destruct (o_rp o) as [|x p]; [left; reflexivity|]. cbn [length Nat.eqb].
  destruct (p_commit_parse P (o_value o)) as [c|]; [|left; reflexivity].
  destruct (if (length (o_asset o) =? 33)%nat then _ else _) as [g|]; [|left; reflexivity].
  destruct (p_rewind P c (x :: p) nonce (o_script o) g) as [[[vbf v] m]|] eqn:Erw; [|left; reflexivity].
  right. exists c, g, vbf, v, m. repeat split; [discriminate | exact Erw].
Qed.

Lemma unblind_with_key_conf o k :
  is_conf_out o = true ->
  unblind_with_key P o k =
    match nonce_hash P (o_nonce o) k with Some n => unblind_output P o n | None => UErr end.
Proof. unfold unblind_with_key. intros ->. reflexivity. Qed.

Lemma unblind_with_nonce_conf o n :
  is_conf_out o = true -> unblind_with_nonce P o n = unblind_output P o (ub_fit 32 n).
Proof. unfold unblind_with_nonce. intros ->. reflexivity. Qed.

(* a confidential output that unblinds under no nonce is opened by no key and no nonce *)
Lemma conf_fails o :
  is_conf_out o = true -> (forall n, unblind_output P o n = UErr) ->
  forall k n, unblind_with_key P o k = UErr /\ unblind_with_nonce P o n = UErr.
Proof.
  intros Hc Hall k n. rewrite unblind_with_key_conf, unblind_with_nonce_conf by exact Hc.
  split; [|apply Hall]. destruct (nonce_hash P (o_nonce o) k); [apply Hall | reflexivity].
Qed.

Lemma out_conf esk E a v s r p : pk esk = Some E -> is_conf_out (mk_out a v s E r p) = true.
Proof. intro HE. apply Nat.ltb_lt. exact (pk_conf _ _ HE). Qed.

(* [signed_amount value asset abf vbf script nonce bl]: bl's commitments are the
   library's commitments to (asset, abf) and (value, vbf) and bl's proof was signed over
   exactly message = asset || abf, extra commitment = script, that nonce and the blinded
   generator, whatever minimum value / exponent / bit count were chosen *)
Definition signed_amount (value : N) (asset abf vbf script nonce : bytes) (bl : ub_blinded) : Prop :=
  exists g c mn e mb,
    p_gen_blinded P asset abf = Some g /\ bl_asset bl = p_gen_ser P g /\
    p_commit P vbf value g = Some c /\ bl_value bl = p_commit_ser P c /\
    bl_nonce bl = nonce /\
    p_sign P mn c vbf nonce e mb value (asset ++ abf) script g = Some (bl_proof bl).

(* AssetCommitment, ValueCommitment, RangeProof in sequence, as both blinders call them *)
Lemma pieces_signed {value asset abf vbf script nonce e m ac vc p} :
  asset_commitment P asset abf = Some ac ->
  value_commitment P value ac vbf = Some vc ->
  range_proof P (mk_rpa value nonce asset abf vbf vc script e m) = Some p ->
  signed_amount value asset abf vbf script nonce (mk_bl ac vc nonce p).
Proof.
  unfold asset_commitment, value_commitment, range_proof, ub_obind, option_map.
  cbn [ra_asset ra_abf ra_vcommit ra_vbf ra_nonce ra_value ra_script].
  destruct (p_gen_blinded P asset abf) as [g|] eqn:Eg; [|discriminate]. intros [= <-].
  rewrite gen_parse_ser.
  destruct (p_commit P vbf value g) as [c|] eqn:Ec; [|discriminate]. intros [= <-].
  rewrite commit_parse_ser. intro Es.
  eexists g, c, _, _, _. repeat split; eassumption.
Qed.

Lemma blind_output_signed {value asset abf vbf script bpub epriv exp mb bl} :
  length vbf = 32%nat ->
  blind_output P value asset abf vbf script bpub epriv exp mb = Some bl ->
  nonce_hash P bpub epriv = Some (bl_nonce bl) /\
  signed_amount value asset abf vbf script (bl_nonce bl) bl.
Proof.
  unfold blind_output, ub_obind. intro Hlv. rewrite (fit_id 32 vbf Hlv).
  destruct (asset_commitment P asset abf) as [ac|] eqn:Ea; [|discriminate].
  destruct (value_commitment P value ac vbf) as [vc|] eqn:Ev; [|discriminate].
  destruct (nonce_hash P bpub epriv) as [n|]; [|discriminate].
  destruct (range_proof P _) as [p|] eqn:Ep; [|discriminate].
  intros [= <-]. split; [reflexivity|]. exact (pieces_signed Ea Ev Ep).
Qed.

Lemma blind_issuance_amount_signed {value asset vbf key bl} :
  length vbf = 32%nat ->
  blind_issuance_amount P value asset vbf key = Some bl ->
  signed_amount value asset ub_zero32 vbf [] (ub_fit 32 key) bl.
Proof.
  unfold blind_issuance_amount, ub_obind. intro Hlv. rewrite (fit_id 32 vbf Hlv).
  destruct (asset_commitment P asset ub_zero32) as [ac|] eqn:Ea; [|discriminate].
  destruct (value_commitment P value ac vbf) as [vc|] eqn:Ev; [|discriminate].
  destruct (range_proof P _) as [p|] eqn:Ep; [|discriminate].
  intros [= <-]. exact (pieces_signed Ea Ev Ep).
Qed.

Lemma signed_proof_nonempty {value asset abf vbf script nonce bl} :
  signed_amount value asset abf vbf script nonce bl -> (length (bl_proof bl) =? 0)%nat = false.
Proof.
  intros (g & c & mn & e & mb & _ & _ & _ & _ & _ & Esig).
  destruct (bl_proof bl); [|reflexivity]. now apply sign_nonempty in Esig.
Qed.

(* unblindOutput on an output carrying a signed amount *)
Section Signed.
Context {value : N} {asset abf vbf script nonce : bytes} {bl : ub_blinded}.
Hypothesis Hasset : length asset = 32%nat.
Hypothesis Habf : length abf = 32%nat.
Hypothesis Hsigned : signed_amount value asset abf vbf script nonce bl.

Let u0 := mk_unb value asset vbf abf.

Lemma msg_facts :
  ub_fit 64 (asset ++ abf) = asset ++ abf /\ (length (asset ++ abf) <? 32)%nat = false /\
  firstn 32 (asset ++ abf) = asset /\ skipn 32 (asset ++ abf) = abf.
Proof.
  repeat split.
  - apply fit_id. rewrite app_length. lia.
  - rewrite app_length. apply Nat.ltb_ge. lia.
  - apply firstn_app_exact. exact Hasset.
  - apply skipn_app_exact. exact Hasset.
Qed.

(* whichever way the output's asset field leads to the generator of the signed amount *)
Lemma unblind_output_signed_gen o :
  (if (length (o_asset o) =? 33)%nat then p_gen_parse P (o_asset o)
   else p_gen_generate P (o_asset o)) = p_gen_blinded P asset abf ->
  o_value o = bl_value bl -> o_script o = script -> o_rp o = bl_proof bl ->
  unblind_output P o nonce = UOk u0.
Proof.
  intros Hg Hv Hs Hp. pose proof (signed_proof_nonempty Hsigned) as Hne.
  destruct Hsigned as (g & c & mn & e & mb & Eg & Eba & Ec & Ebv & En & Esig).
  unfold unblind_output.
  rewrite Hg, Eg, Hp, Hv, Hs, Ebv, Hne, commit_parse_ser. erewrite rewind_sign by eassumption.
  destruct msg_facts as (-> & -> & -> & ->). reflexivity.
Qed.

(* the output as the blinder writes it: 33-byte asset commitment *)
Lemma unblind_output_signed o :
  o_asset o = bl_asset bl -> o_value o = bl_value bl -> o_script o = script ->
  o_rp o = bl_proof bl ->
  unblind_output P o nonce = UOk u0.
Proof.
  intro Ha. apply unblind_output_signed_gen.
  destruct Hsigned as (g & c & mn & e & mb & Eg & Eba & _).
  rewrite Ha, Eba, gen_ser_len, Eg. apply gen_parse_ser.
Qed.

(* the same amount presented with the raw 32-byte asset id (issuances: zero asset blinder) *)
Lemma unblind_output_signed_raw o :
  abf = ub_zero32 ->
  o_asset o = asset -> o_value o = bl_value bl -> o_script o = script ->
  o_rp o = bl_proof bl ->
  unblind_output P o nonce = UOk u0.
Proof.
  intros Hz Ha. apply unblind_output_signed_gen.
  rewrite Ha, Hasset, Hz. symmetry. apply gen_blinded_zero.
Qed.

(* any output carrying this proof fails, or was presented with the original nonce, script,
   value commitment and generator and yields exactly the original amounts; the rewind
   returns the padded message, so there is no slice panic *)
Lemma carrier_cases o nonce' :
  o_rp o = bl_proof bl ->
  unblind_output P o nonce' = UErr \/
  (unblind_output P o nonce' = UOk u0 /\ nonce' = nonce /\ o_script o = script /\
   o_value o = bl_value bl /\ ((length (o_asset o) = 33)%nat -> o_asset o = bl_asset bl)).
Proof.
  intro Hp.
  destruct (unblind_output_cases o nonce') as [He | (c' & g' & vbf' & v' & m' & _ & Ecp & Egp & Erw & Hres)];
    [left; exact He | right].
  destruct Hsigned as (g & c & mn & e & mb & Eg & Eba & Ec & Ebv & En & Esig).
  rewrite Hp in Erw.
  destruct (rewind_only _ _ _ _ _ _ _ _ _ _ _ _ _ _ _ _ Esig Erw) as (-> & -> & Hs & ->).
  rewrite Hs in Erw. erewrite rewind_sign in Erw by eassumption.
  injection Erw as <- <- <-.
  destruct msg_facts as (F1 & F2 & F3 & F4). rewrite F1, F2, F3, F4 in Hres.
  repeat split; try assumption.
  - rewrite Ebv. symmetry. apply commit_ser_parse. exact Ecp.
  - intro H33. rewrite H33 in Egp. rewrite Eba. symmetry. apply gen_ser_parse. exact Egp.
Qed.

(* whatever byte string is put in place of the proof: if the output (with the original
   commitments) still unblinds, the value and its blinding factor are the original ones *)
Lemma any_proof_same_value o nonce' u :
  o_asset o = bl_asset bl -> o_value o = bl_value bl ->
  unblind_output P o nonce' = UOk u -> u_value u = value /\ u_vbf u = vbf.
Proof.
  intros Ha Hv Hr.
  destruct Hsigned as (g & c & mn & e & mb & Eg & Eba & Ec & Ebv & En & Esig).
  destruct (unblind_output_cases o nonce') as [He | (c' & g' & vbf' & v' & m' & _ & Ecp & Egp & Erw & Hres)];
    [congruence|].
  rewrite Hv, Ebv, commit_parse_ser in Ecp. injection Ecp as <-.
  rewrite Ha, Eba, gen_ser_len, gen_parse_ser in Egp. injection Egp as <-.
  apply rewind_binds in Erw.
  destruct (commit_inj _ _ _ _ _ _ Erw Ec) as (-> & ->).
  rewrite Hr in Hres. destruct (length m' <? 32)%nat; [discriminate|].
  injection Hres as ->. split; reflexivity.
Qed.

Lemma signed_recreates :
  asset_commitment P (u_asset u0) (u_abf u0) = Some (bl_asset bl) /\
  value_commitment P (u_value u0) (bl_asset bl) (u_vbf u0) = Some (bl_value bl).
Proof.
  destruct Hsigned as (g & c & mn & e & mb & Eg & Eba & Ec & Ebv & En & Esig).
  unfold asset_commitment, value_commitment, ub_obind, option_map, u0. cbn [u_asset u_abf u_value u_vbf].
  rewrite Eg, Eba, gen_parse_ser, Ec, Ebv. split; reflexivity.
Qed.

Lemma signed_verifies :
  verify_range_proof P (bl_value bl) (bl_asset bl) script (bl_proof bl) = true.
Proof.
  destruct Hsigned as (g & c & mn & e & mb & Eg & Eba & Ec & Ebv & En & Esig).
  unfold verify_range_proof. rewrite Ebv, Eba, commit_parse_ser, gen_parse_ser.
  eapply verify_sign; eassumption.
Qed.

End Signed.

(* zkpGenerator.UnblindInputs over a history of calls on one generator instance.
   A generator has no memory: the k-th answer is the pure function of the k-th packet *)
Theorem gen_run_pointwise : forall st h,
  gen_run P st h = (st, map (fun p => unblind_inputs P st (fst p) (snd p)) h).
Proof.
  intros st h. induction h as [|p r IH]; cbn [gen_run map]; [reflexivity|].
  unfold gen_step. rewrite IH. reflexivity.
Qed.

Theorem gen_after_history : forall st h p,
  snd (gen_step P (fst (gen_run P st h)) p) = unblind_inputs P st (fst p) (snd p).
Proof. intros st h p. rewrite gen_run_pointwise. reflexivity. Qed.

Lemma try_keys_all_fail : forall ks o,
  (forall k, unblind_with_key P o k = UErr) -> try_keys P ks o = UErr.
Proof.
  intros ks o Hall. induction ks as [|k r IH]; cbn [try_keys]; [reflexivity|].
  rewrite Hall. exact IH.
Qed.

Lemma try_keys_first_ok : forall pre k post o u,
  (forall k', In k' pre -> unblind_with_key P o k' = UErr) ->
  unblind_with_key P o k = UOk u -> try_keys P (pre ++ k :: post) o = UOk u.
Proof.
  intros pre k post o u Hpre Hk. induction pre as [|k' r IH]; cbn [try_keys app].
  - rewrite Hk. reflexivity.
  - rewrite (Hpre k' (or_introl eq_refl)). apply IH. intros k2 Hin. apply Hpre. right. exact Hin.
Qed.

Lemma one_input_packet : forall gk o idxs,
  idxs = [] \/ idxs = [0] ->
  unblind_inputs P gk [o] idxs =
    match gen_unblind_output P gk o with
    | UOk u => UOk [mk_owned 0 (u_value u) (u_asset u) (u_vbf u) (u_abf u)]
    | UErr => UErr
    | UPanic => UPanic
    end.
Proof.
  intros gk o idxs [Hi|Hi]; subst idxs; unfold unblind_inputs; cbn;
    destruct (gen_unblind_output P gk o); reflexivity.
Qed.

(* after any history, a packet of one confidential prevout is answered by the key loop *)
Lemma history_one_conf gk h o idxs :
  is_conf_out o = true -> idxs = [] \/ idxs = [0] ->
  snd (gen_step P (fst (gen_run P gk h)) ([o], idxs)) =
    match try_keys P (keys_for gk o) o with
    | UOk u => UOk [mk_owned 0 (u_value u) (u_asset u) (u_vbf u) (u_abf u)]
    | UErr => UErr
    | UPanic => UPanic
    end.
Proof.
  intros Hc Hi. rewrite gen_after_history. cbn [fst snd]. rewrite (one_input_packet gk o idxs Hi).
  unfold gen_unblind_output. rewrite Hc. reflexivity.
Qed.

Lemma history_fails gk h o idxs :
  is_conf_out o = true -> idxs = [] \/ idxs = [0] ->
  (forall k, unblind_with_key P o k = UErr) ->
  snd (gen_step P (fst (gen_run P gk h)) ([o], idxs)) = UErr.
Proof.
  intros Hc Hi Hall. rewrite (history_one_conf gk h o idxs Hc Hi), try_keys_all_fail by exact Hall.
  reflexivity.
Qed.

(* Outputs: BlindOutputs then UnblindOutputWithKey / UnblindOutputWithNonce.
   An output blinded by the library for recipient key pair (rsk, R) with ephemeral pair (esk, E) *)
Definition blinded_for (value : N) (asset abf vbf script rsk esk R E : bytes) (exp mb : Z) (bl : ub_blinded) : Prop :=
  length asset = 32%nat /\ length abf = 32%nat /\ length vbf = 32%nat /\
  pk rsk = Some R /\ pk esk = Some E /\
  blind_output P value asset abf vbf script R esk exp mb = Some bl.

Section Blinded.
Context {value : N} {asset abf vbf script rsk esk R E : bytes} {exp mb : Z} {bl : ub_blinded}.
Hypothesis B : blinded_for value asset abf vbf script rsk esk R E exp mb bl.

Let u0 := mk_unb value asset vbf abf.

Lemma blinded_asset_length : length asset = 32%nat.
Proof. apply B. Qed.

Lemma blinded_abf_length : length abf = 32%nat.
Proof. apply B. Qed.

Lemma blinded_conf a v s r p : is_conf_out (mk_out a v s E r p) = true.
Proof. apply (out_conf esk). apply B. Qed.

Lemma blinded_signed : signed_amount value asset abf vbf script (bl_nonce bl) bl.
Proof.
  destruct B as (_ & _ & Hvbf & _ & _ & Hblind).
  apply (blind_output_signed Hvbf Hblind).
Qed.

Lemma recipient_nonce : nonce_hash P E rsk = Some (bl_nonce bl).
Proof.
  destruct B as (_ & _ & Hvbf & HR & HE & Hblind).
  unfold nonce_hash. rewrite <- (ecdh_sym _ _ _ _ HR HE).
  apply (blind_output_signed Hvbf Hblind).
Qed.

Lemma bl_nonce_length : length (bl_nonce bl) = 32%nat.
Proof.
  pose proof recipient_nonce as Hn. unfold nonce_hash, option_map in Hn.
  destruct (p_ecdh P E rsk); [|discriminate]. injection Hn as <-. apply hash_len.
Qed.

Let carrier := carrier_cases blinded_asset_length blinded_abf_length blinded_signed.

Theorem unblind_blind_key : forall sp,
  unblind_with_key P (out_of_blinded bl script E sp) rsk = UOk u0.
Proof.
  intro sp. rewrite unblind_with_key_conf by apply blinded_conf.
  unfold out_of_blinded at 1. cbn [o_nonce]. rewrite recipient_nonce.
  apply (unblind_output_signed blinded_asset_length blinded_abf_length blinded_signed);
    reflexivity.
Qed.

Theorem unblind_blind_nonce : forall sp,
  unblind_with_nonce P (out_of_blinded bl script E sp) (bl_nonce bl) = UOk u0.
Proof.
  intro sp. rewrite unblind_with_nonce_conf by apply blinded_conf.
  rewrite fit_id by apply bl_nonce_length.
  apply (unblind_output_signed blinded_asset_length blinded_abf_length blinded_signed);
    reflexivity.
Qed.

Theorem revealed_recreates : forall sp u,
  unblind_with_key P (out_of_blinded bl script E sp) rsk = UOk u ->
  u = u0 /\
  asset_commitment P (u_asset u) (u_abf u) = Some (bl_asset bl) /\
  value_commitment P (u_value u) (bl_asset bl) (u_vbf u) = Some (bl_value bl).
Proof.
  intros sp u Hu. rewrite unblind_blind_key in Hu. injection Hu as <-.
  split; [reflexivity|]. exact (signed_recreates blinded_signed).
Qed.

(* a key whose ECDH nonce is not the blinder's nonce fails (never other amounts, never a panic) *)
Theorem wrong_nonce_fails : forall sp k,
  nonce_hash P E k <> Some (bl_nonce bl) ->
  unblind_with_key P (out_of_blinded bl script E sp) k = UErr.
Proof.
  intros sp k Hk. rewrite unblind_with_key_conf by apply blinded_conf.
  unfold out_of_blinded at 1. cbn [o_nonce].
  destruct (nonce_hash P E k) as [n'|]; [|reflexivity].
  destruct (carrier (out_of_blinded bl script E sp) n' eq_refl) as [He | (_ & -> & _)];
    [exact He | destruct (Hk eq_refl)].
Qed.

(* ... in particular every private key other than the recipient's *)
Theorem other_key_fails : forall sp k,
  k <> rsk -> unblind_with_key P (out_of_blinded bl script E sp) k = UErr.
Proof.
  intros sp k Hk. apply wrong_nonce_fails. intro Hn.
  pose proof recipient_nonce as Hr. rewrite <- Hn in Hr.
  unfold nonce_hash, option_map in Hn, Hr.
  destruct (p_ecdh P E k) as [s|] eqn:Es; [|discriminate].
  destruct (p_ecdh P E rsk) as [s'|] eqn:Es'; [|discriminate].
  injection Hr as Hh. exact (Hk (nonce_inj _ _ _ _ _ Es Es' (eq_sym Hh))).
Qed.

Theorem wrong_nonce_fails_with_nonce : forall sp n,
  ub_fit 32 n <> bl_nonce bl -> unblind_with_nonce P (out_of_blinded bl script E sp) n = UErr.
Proof.
  intros sp n Hn. rewrite unblind_with_nonce_conf by apply blinded_conf.
  destruct (carrier (out_of_blinded bl script E sp) (ub_fit 32 n) eq_refl) as [He | (_ & Hn' & _)];
    [exact He | destruct (Hn Hn')].
Qed.

(* altered script / value commitment / asset commitment: every key and every nonce fails *)
Theorem tampered_script_fails : forall script' sp k n,
  script' <> script ->
  let o' := mk_out (bl_asset bl) (bl_value bl) script' E (bl_proof bl) sp in
  unblind_with_key P o' k = UErr /\ unblind_with_nonce P o' n = UErr.
Proof.
  intros script' sp k n Hne o'. apply conf_fails; [apply blinded_conf|]. intro n'.
  destruct (carrier o' n' eq_refl) as [He | (_ & _ & Hs & _)]; [exact He | destruct (Hne Hs)].
Qed.

Theorem tampered_value_commitment_fails : forall vc' sp k n,
  vc' <> bl_value bl ->
  let o' := mk_out (bl_asset bl) vc' script E (bl_proof bl) sp in
  unblind_with_key P o' k = UErr /\ unblind_with_nonce P o' n = UErr.
Proof.
  intros vc' sp k n Hne o'. apply conf_fails; [apply blinded_conf|]. intro n'.
  destruct (carrier o' n' eq_refl) as [He | (_ & _ & _ & Hv & _)]; [exact He | destruct (Hne Hv)].
Qed.

Theorem tampered_asset_commitment_fails : forall ac' sp k n,
  length ac' = 33%nat -> ac' <> bl_asset bl ->
  let o' := mk_out ac' (bl_value bl) script E (bl_proof bl) sp in
  unblind_with_key P o' k = UErr /\ unblind_with_nonce P o' n = UErr.
Proof.
  intros ac' sp k n Hl Hne o'. apply conf_fails; [apply blinded_conf|]. intro n'.
  destruct (carrier o' n' eq_refl) as [He | (_ & _ & _ & _ & Ha)]; [exact He | destruct (Hne (Ha Hl))].
Qed.

(* the general form: ANY output that carries this range proof (every other field arbitrary)
   and is confidential either fails or returns exactly the original amounts *)
Theorem never_other_amounts : forall o' k u,
  o_rp o' = bl_proof bl -> is_conf_out o' = true ->
  unblind_with_key P o' k = UOk u -> u = u0.
Proof.
  intros o' k u Hp Hc. rewrite (unblind_with_key_conf o' k Hc).
  destruct (nonce_hash P (o_nonce o') k) as [n'|]; [|discriminate].
  destruct (carrier o' n' Hp) as [-> | (-> & _)]; [discriminate|]. intros [= <-]. reflexivity.
Qed.

(* and whatever replaces the proof itself, a result still carries the committed value *)
Theorem tampered_proof_never_other_value : forall p' sp k u,
  unblind_with_key P (mk_out (bl_asset bl) (bl_value bl) script E p' sp) k = UOk u ->
  u_value u = value /\ u_vbf u = vbf.
Proof.
  intros p' sp k u. rewrite unblind_with_key_conf by apply blinded_conf. cbn [o_nonce].
  destruct (nonce_hash P E k) as [n'|]; [|discriminate].
  apply (any_proof_same_value blinded_signed); reflexivity.
Qed.

(* after ANY history of calls, a packet whose prevout is the honestly blinded output is
   unblinded to exactly what was blinded *)
Theorem history_then_honest : forall gk h sp idxs,
  reaches gk script rsk -> idxs = [] \/ idxs = [0] ->
  snd (gen_step P (fst (gen_run P gk h)) ([out_of_blinded bl script E sp], idxs)) =
    UOk [mk_owned 0 value asset vbf abf].
Proof.
  intros gk h sp idxs Hr Hi. rewrite history_one_conf by (apply blinded_conf || exact Hi).
  enough (Hok : try_keys P (keys_for gk (out_of_blinded bl script E sp)) (out_of_blinded bl script E sp)
                = UOk u0) by (rewrite Hok; reflexivity).
  destruct gk as [ks|d]; cbn [keys_for reaches] in *.
  - destruct Hr as (pre & post & -> & Hnin). apply try_keys_first_ok; [|apply unblind_blind_key].
    intros k' Hin. apply other_key_fails. intros ->. exact (Hnin Hin).
  - unfold out_of_blinded at 1. cbn [o_script]. rewrite Hr. cbn [try_keys].
    rewrite unblind_blind_key. reflexivity.
Qed.

(* after ANY history (in particular after the honest prevout was unblinded for the same
   outpoint), a packet whose prevout has an altered script / value commitment fails, for every
   kind of generator keys *)
Theorem history_then_tampered_script : forall gk h script' sp idxs,
  script' <> script -> idxs = [] \/ idxs = [0] ->
  snd (gen_step P (fst (gen_run P gk h))
         ([mk_out (bl_asset bl) (bl_value bl) script' E (bl_proof bl) sp], idxs)) = UErr.
Proof.
  intros gk h script' sp idxs Hne Hi. apply history_fails; [apply blinded_conf | exact Hi |].
  intro k. apply (tampered_script_fails script' sp k [] Hne).
Qed.

Theorem history_then_tampered_value_commitment : forall gk h vc' sp idxs,
  vc' <> bl_value bl -> idxs = [] \/ idxs = [0] ->
  snd (gen_step P (fst (gen_run P gk h))
         ([mk_out (bl_asset bl) vc' script E (bl_proof bl) sp], idxs)) = UErr.
Proof.
  intros gk h vc' sp idxs Hne Hi. apply history_fails; [apply blinded_conf | exact Hi |].
  intro k. apply (tampered_value_commitment_fails vc' sp k [] Hne).
Qed.

End Blinded.

(* revealed_recreates and other_key_fails once more, with the hypotheses of [blinded_for] spelled out *)
Section Outputs.
Variables (value : N) (asset abf vbf script rsk esk R E sp : bytes) (exp mb : Z) (bl : ub_blinded).
Hypothesis Hasset : length asset = 32%nat.
Hypothesis Habf : length abf = 32%nat.
Hypothesis Hvbf : length vbf = 32%nat.
Hypothesis HR : pk rsk = Some R.       (* recipient's blinding key pair *)
Hypothesis HE : pk esk = Some E.       (* sender's ephemeral key pair *)
Hypothesis Hblind : blind_output P value asset abf vbf script R esk exp mb = Some bl.

Let out := out_of_blinded bl script E sp.
Let u0 := mk_unb value asset vbf abf.

Lemma outputs_blinded : blinded_for value asset abf vbf script rsk esk R E exp mb bl.
Proof. repeat split; assumption. Qed.

Theorem revealed_recreates_commitments : forall u,
  unblind_with_key P out rsk = UOk u ->
  u = u0 /\
  asset_commitment P (u_asset u) (u_abf u) = Some (o_asset out) /\
  value_commitment P (u_value u) (o_asset out) (u_vbf u) = Some (o_value out).
Proof. exact (revealed_recreates outputs_blinded sp). Qed.

Theorem wrong_key_fails : forall k, k <> rsk -> unblind_with_key P out k = UErr.
Proof. exact (other_key_fails outputs_blinded sp). Qed.

End Outputs.

(* Issuances: BlindIssuances then UnblindIssuance.
   One amount: the loop body of unblindIssuance on an output carrying the proof of [b] *)
Lemma issuance_amount_roundtrip : forall asset value vbf key b o,
  length asset = 32%nat -> length vbf = 32%nat ->
  blind_issuance_amount P value asset vbf key = Some b ->
  o_asset o = asset -> o_value o = bl_value b -> o_script o = [] -> o_rp o = bl_proof b ->
  unblind_issuance_amount P o key = UOk (mk_unb value asset vbf ub_zero32).
Proof.
  intros asset value vbf key b o Hla Hlv Hb Ha Hv Hs Hp.
  apply (blind_issuance_amount_signed Hlv) in Hb.
  unfold unblind_issuance_amount.
  rewrite (unblind_output_signed_raw Hla zero32_length Hb o eq_refl Ha Hv Hs Hp).
  cbn [u_value u_vbf]. rewrite Ha. reflexivity.
Qed.

Lemma issuance_amount_cases : forall asset value vbf key b o key',
  length asset = 32%nat -> length vbf = 32%nat ->
  blind_issuance_amount P value asset vbf key = Some b ->
  o_rp o = bl_proof b ->
  unblind_issuance_amount P o key' = UErr \/
  (unblind_issuance_amount P o key' = UOk (mk_unb value (o_asset o) vbf ub_zero32) /\
   ub_fit 32 key' = ub_fit 32 key /\ o_value o = bl_value b).
Proof.
  intros asset value vbf key b o key' Hla Hlv Hb Hp.
  apply (blind_issuance_amount_signed Hlv) in Hb.
  unfold unblind_issuance_amount.
  destruct (carrier_cases Hla zero32_length Hb o (ub_fit 32 key') Hp)
    as [-> | (-> & Hk & _ & Hv & _)]; [left; reflexivity | right].
  repeat split; assumption.
Qed.

(* unblindIssuance fails when the asset amount (first key) fails ... *)
Lemma unblind_issuance_first_err i s k0 keys :
  in_iss i = Some s ->
  (forall aid, calc_asset_hash i s = Some aid ->
     unblind_issuance_amount P (mk_out aid (iss_amount s) [] [] (in_irp i) []) k0 = UErr) ->
  unblind_issuance P i (k0 :: keys) = UErr.
Proof.
  intros Hi Hall. unfold unblind_issuance. destruct keys as [|k1 rest]; [reflexivity|].
  rewrite Hi.
  destruct (length (in_irp i) =? 0)%nat; [reflexivity|].
  destruct (has_token_amount s && (length (in_inrp i) =? 0)%nat); [reflexivity|].
  destruct (calc_asset_hash i s) as [aid|]; [|reflexivity].
  rewrite (Hall aid eq_refl).
  destruct (has_token_amount s); [|reflexivity].
  destruct (calc_token_hash i s); reflexivity.
Qed.

(* ... and its first result is that of the asset amount *)
Lemma unblind_issuance_first_ok i keys ua ut :
  unblind_issuance P i keys = UOk (ua, ut) ->
  exists s aid k0,
    unblind_issuance_amount P (mk_out aid (iss_amount s) [] [] (in_irp i) []) k0 = UOk ua.
Proof.
  unfold unblind_issuance.
  destruct keys as [|k0 [|k1 rest]]; try discriminate.
  destruct (in_iss i) as [s|]; [|discriminate].
  destruct (length (in_irp i) =? 0)%nat; [discriminate|].
  destruct (has_token_amount s && (length (in_inrp i) =? 0)%nat); [discriminate|].
  destruct (calc_asset_hash i s) as [aid|]; [|discriminate].
  intro Hu. exists s, aid, k0.
  destruct (unblind_issuance_amount P _ k0) as [u| |].
  2, 3: destruct (has_token_amount s); [destruct (calc_token_hash i s)|]; discriminate.
  f_equal. destruct (has_token_amount s); [|congruence].
  destruct (calc_token_hash i s); [|discriminate].
  destruct (unblind_issuance_amount P _ k1); congruence.
Qed.

Section Issuances.
Variables (i : txin) (s : issuance).
Variables (aid : bytes) (va : N) (vbfa ka : bytes) (ba : ub_blinded).
Hypothesis Hiss : in_iss i = Some s.
Hypothesis Haid : calc_asset_hash i s = Some aid.
Hypothesis Hvbfa : length vbfa = 32%nat.
Hypothesis Hba : blind_issuance_amount P va aid vbfa ka = Some ba.
Hypothesis Hamount : iss_amount s = bl_value ba.
Hypothesis Hirp : in_irp i = bl_proof ba.

Let ua := mk_unb va aid vbfa ub_zero32.

Lemma aid_len : length aid = 32%nat.
Proof. exact (calc_asset_hash_length Haid). Qed.

Lemma irp_nonempty : (length (in_irp i) =? 0)%nat = false.
Proof.
  rewrite Hirp. exact (signed_proof_nonempty (blind_issuance_amount_signed Hvbfa Hba)).
Qed.

Lemma asset_amount_roundtrip :
  unblind_issuance_amount P (mk_out aid (iss_amount s) [] [] (in_irp i) []) ka = UOk ua.
Proof.
  exact (issuance_amount_roundtrip _ _ _ _ _ (mk_out aid (iss_amount s) [] [] (in_irp i) [])
           aid_len Hvbfa Hba eq_refl Hamount eq_refl Hirp).
Qed.

(* asset amount only (no token amount): any second key *)
Theorem unblind_issuance_blind_asset_only : forall k1 rest,
  has_token_amount s = false ->
  unblind_issuance P i (ka :: k1 :: rest) = UOk (ua, None).
Proof.
  intros k1 rest Hnt. unfold unblind_issuance.
  rewrite Hiss, irp_nonempty, Hnt, Haid, asset_amount_roundtrip. reflexivity.
Qed.

Section WithToken.
Variables (tid : bytes) (vt : N) (vbft kt : bytes) (bt : ub_blinded).
Hypothesis Htid : calc_token_hash i s = Some tid.
Hypothesis Hvbft : length vbft = 32%nat.
Hypothesis Hbt : blind_issuance_amount P vt tid vbft kt = Some bt.
Hypothesis Htoken : iss_token s = bl_value bt.
Hypothesis Hinrp : in_inrp i = bl_proof bt.

Let ut := mk_unb vt tid vbft ub_zero32.

(* up to the token amount's unblinding *)
Lemma unblind_issuance_token k1 rest :
  unblind_issuance P i (ka :: k1 :: rest) =
    match unblind_issuance_amount P (mk_out tid (iss_token s) [] [] (in_inrp i) []) k1 with
    | UOk u => UOk (ua, Some u)
    | UErr => UErr
    | UPanic => UPanic
    end.
Proof.
  pose proof (blind_issuance_amount_signed Hvbft Hbt) as Hs.
  assert (Ht : has_token_amount s = true).
  { destruct Hs as (g & c & mn & e & mb & _ & _ & _ & Ebv & _).
    unfold has_token_amount. rewrite Htoken, Ebv, commit_ser_len. reflexivity. }
  unfold unblind_issuance.
  rewrite Hiss, irp_nonempty, Ht, Hinrp, (signed_proof_nonempty Hs), Haid, Htid.
  cbn [andb]. rewrite <- Hinrp, asset_amount_roundtrip. reflexivity.
Qed.

Theorem unblind_issuance_blind : forall rest,
  unblind_issuance P i (ka :: kt :: rest) = UOk (ua, Some ut).
Proof.
  intro rest. rewrite unblind_issuance_token.
  rewrite (issuance_amount_roundtrip _ _ _ _ _ (mk_out tid (iss_token s) [] [] (in_inrp i) [])
             (calc_token_hash_length Htid) Hvbft Hbt eq_refl Htoken eq_refl Hinrp).
  reflexivity.
Qed.

Theorem issuance_wrong_token_key_fails : forall k1 rest,
  ub_fit 32 k1 <> ub_fit 32 kt -> unblind_issuance P i (ka :: k1 :: rest) = UErr.
Proof.
  intros k1 rest Hk. rewrite unblind_issuance_token.
  destruct (issuance_amount_cases _ _ _ _ _ (mk_out tid (iss_token s) [] [] (in_inrp i) []) k1
              (calc_token_hash_length Htid) Hvbft Hbt Hinrp) as [-> | (_ & Hk' & _)];
    [reflexivity | destruct (Hk Hk')].
Qed.

End WithToken.

(* wrong asset key: fails whatever the token part is *)
Theorem issuance_wrong_asset_key_fails : forall k0 keys,
  ub_fit 32 k0 <> ub_fit 32 ka -> unblind_issuance P i (k0 :: keys) = UErr.
Proof.
  intros k0 keys Hk. apply (unblind_issuance_first_err i s k0 keys Hiss). intros aid' _.
  destruct (issuance_amount_cases _ _ _ _ _ (mk_out aid' (iss_amount s) [] [] (in_irp i) []) k0
              aid_len Hvbfa Hba Hirp) as [He | (_ & Hk' & _)]; [exact He | destruct (Hk Hk')].
Qed.

(* altered amount commitment: fails for every key list *)
Theorem issuance_tampered_amount_fails : forall i' s' keys,
  in_iss i' = Some s' -> in_irp i' = bl_proof ba -> iss_amount s' <> bl_value ba ->
  unblind_issuance P i' keys = UErr.
Proof.
  intros i' s' keys Hi' Hp Hne. destruct keys as [|k0 keys]; [reflexivity|].
  apply (unblind_issuance_first_err i' s' k0 keys Hi'). intros aid' _.
  destruct (issuance_amount_cases _ _ _ _ _ (mk_out aid' (iss_amount s') [] [] (in_irp i') []) k0
              aid_len Hvbfa Hba Hp) as [He | (_ & _ & Hv)]; [exact He | destruct (Hne Hv)].
Qed.

End Issuances.

(* an input whose issuance differs arbitrarily (other prevout, entropy, amount commitment,
   token part) but still carries this issuance range proof: failure or the original value *)
Theorem issuance_never_other_amount : forall aid va vbfa ka ba i' keys ua' ut',
  length aid = 32%nat -> length vbfa = 32%nat ->
  blind_issuance_amount P va aid vbfa ka = Some ba ->
  in_irp i' = bl_proof ba ->
  unblind_issuance P i' keys = UOk (ua', ut') -> u_value ua' = va /\ u_vbf ua' = vbfa.
Proof.
  intros aid va vbfa ka ba i' keys ua' ut' Hla Hlv Hba Hp Hu.
  destruct (unblind_issuance_first_ok _ _ _ _ Hu) as (s' & aid' & k0 & Hua).
  destruct (issuance_amount_cases _ _ _ _ _ _ k0 Hla Hlv Hba (Hp : o_rp (mk_out aid' (iss_amount s') [] [] (in_irp i') []) = _))
    as [He | (Hok & _)]; rewrite Hua in *; [discriminate|].
  injection Hok as ->. split; reflexivity.
Qed.

(* the explicit-output shortcut: no key needed, zero blinders *)
Theorem unblind_explicit_output : forall a s n sp k value,
  (length n <= 1)%nat -> (value < two64) ->
  let o := mk_out (b8 1 :: a) (b8 1 :: be_enc 8 value) s n [] sp in
  unblind_with_key P o k = UOk (mk_unb value a ub_zero32 ub_zero32) /\
  unblind_with_nonce P o k = UOk (mk_unb value a ub_zero32 ub_zero32).
Proof.
  intros a s n sp k value Hn Hv o.
  assert (Hc : is_conf_out o = false) by (apply Nat.ltb_ge; exact Hn).
  assert (Hval : value_from_bytes (o_value o) = Some value).
  { unfold value_from_bytes, o, o_value.
    cbn [length]. rewrite be_enc_length, n8_b8_small by reflexivity.
    cbn [Nat.eqb N.eqb Pos.eqb andb]. f_equal. apply be_dec_enc. exact Hv. }
  unfold unblind_with_key, unblind_with_nonce, unblind_explicit. rewrite Hc, Hval.
  split; reflexivity.
Qed.

End Laws.

(* Non-vacuity: a (cryptographically worthless, functionally correct) instance of the
   primitives that satisfies every law.  Generators and commitments are 32-byte strings
   behind a one-byte prefix, a range proof is the record of what was signed, rewind
   compares.  Pedersen binding holds on the instance's domain because it only commits
   with blinding factors whose last 8 bytes are zero (24 + 8 bytes fit in 32). *)
Definition b32 : Type := { b : bytes | (length b =? 32)%nat = true }.

Lemma b32_eq (x y : b32) : proj1_sig x = proj1_sig y -> x = y.
Proof.
  destruct x as [x px], y as [y py]; cbn [proj1_sig]; intro Hxy; subst y. f_equal.
  apply (Eqdep_dec.UIP_dec Bool.bool_dec).
Qed.

Lemma fit32_ok b : (length (ub_fit 32 b) =? 32)%nat = true.
Proof. rewrite fit_length. reflexivity. Qed.

Definition mk_b32 (b : bytes) : b32 := exist _ (ub_fit 32 b) (fit32_ok b).

Definition parse_b32 (p q : N) (b : bytes) : option b32 :=
  match b with
  | x :: r =>
      if (n8 x =? p) || (n8 x =? q) then
        match Bool.bool_dec (length r =? 32)%nat true with
        | left H => Some (exist _ r H)
        | right _ => None
        end
      else None
  | [] => None
  end.
Definition ser_b32 (p : N) (g : b32) : bytes := b8 p :: proj1_sig g.

Lemma ser_b32_len p g : length (ser_b32 p g) = 33%nat.
Proof.
  destruct g as [b Hb]. unfold ser_b32. cbn [proj1_sig length]. apply Nat.eqb_eq in Hb. lia.
Qed.

Lemma parse_ser_b32 p q g : p < 256 -> parse_b32 p q (ser_b32 p g) = Some g.
Proof.
  intro Hp. destruct g as [b Hb]. unfold parse_b32, ser_b32. cbn [proj1_sig].
  rewrite n8_b8_small, N.eqb_refl by exact Hp. cbn [orb].
  destruct (Bool.bool_dec (length b =? 32)%nat true) as [H|H]; [|contradiction].
  apply f_equal, b32_eq. reflexivity.
Qed.

(* ser_b32 writes the prefix p; parsing gives exactly that string back only when p is the one prefix
   parse_b32 accepts, hence p = q here (the instance uses 10 10 and 8 8) *)
Lemma ser_parse_b32 p b g : parse_b32 p p b = Some g -> ser_b32 p g = b.
Proof.
  unfold parse_b32, ser_b32. destruct b as [|x r]; [discriminate|].
  destruct ((n8 x =? p) || (n8 x =? p)) eqn:Ex; [|discriminate].
  destruct (Bool.bool_dec (length r =? 32)%nat true) as [H|H]; [|discriminate].
  intros [= <-]. cbn [proj1_sig].
  assert (Hx : n8 x = p) by lia. rewrite <- Hx, b8_n8. reflexivity.
Qed.

Definition toy_pk (a : bytes) : option bytes :=
  if (length a =? 16)%nat then Some (b8 2 :: a) else None.

Definition toy_ecdh (pub priv : bytes) : option bytes :=
  match pub with
  | x :: a => if (n8 x =? 2) && (length a =? 16)%nat && (length priv =? 16)%nat
              then Some (le_enc 32 (le_dec a + le_dec priv)) else None
  | [] => None
  end.

Definition toy_gen_blinded (a b : bytes) : option b32 :=
  if bytes_eqb b ub_zero32 then Some (mk_b32 a) else Some (mk_b32 (b ++ a)).

Definition zero8 : bytes := repeat x00 8.
Definition toy_commit (vbf : bytes) (v : N) (g : b32) : option b32 :=
  if (length vbf =? 32)%nat && bytes_eqb (skipn 24 vbf) zero8 && (v <? two64)
  then Some (mk_b32 (firstn 24 vbf ++ le_enc 8 v)) else None.

Definition toy_commit_is (vbf : bytes) (v : N) (g c : b32) : bool :=
  match toy_commit vbf v g with
  | Some c1 => bytes_eqb (proj1_sig c1) (proj1_sig c)
  | None => false
  end.

Definition toy_fields (c : b32) (vbf n : bytes) (v : N) (msg s : bytes) (g : b32) : list bytes :=
  [ser_b32 8 c; n; ser_b32 10 g; vbf; le_enc 8 v; msg; s].

Definition toy_sign (mn : N) (c : b32) (vbf n : bytes) (e mb : Z) (v : N) (msg s : bytes) (g : b32) : option bytes :=
  let f := toy_fields c vbf n v msg s g in
  if forallb (fun x => lenN x <? two64) f && (v <? two64) then Some (vector f) else None.

Definition toy_parse_proof (p : bytes) : option (bytes * bytes * bytes * bytes * bytes * bytes * bytes) :=
  match p_vector p with
  | Some ([c0; n0; g0; vbf; vb; msg; s0], []) => Some (c0, n0, g0, vbf, vb, msg, s0)
  | _ => None
  end.

Definition toy_rewind (c : b32) (p n s : bytes) (g : b32) : option (bytes * N * bytes) :=
  match toy_parse_proof p with
  | Some (c0, n0, g0, vbf, vb, msg, s0) =>
      if bytes_eqb c0 (ser_b32 8 c) && bytes_eqb n0 n && bytes_eqb g0 (ser_b32 10 g) &&
         bytes_eqb s0 s && toy_commit_is vbf (le_dec vb) g c
      then Some (vbf, le_dec vb, ub_fit 64 msg) else None
  | None => None
  end.

Definition toy_verify (c : b32) (p s : bytes) (g : b32) : bool :=
  match toy_parse_proof p with
  | Some (c0, n0, g0, vbf, vb, msg, s0) =>
      bytes_eqb c0 (ser_b32 8 c) && bytes_eqb g0 (ser_b32 10 g) && bytes_eqb s0 s &&
      toy_commit_is vbf (le_dec vb) g c
  | None => false
  end.

Definition toy : prims b32 b32 :=
  mk_prims b32 b32
    (ub_fit 32) toy_ecdh
    (parse_b32 10 10) (ser_b32 10) (fun a => Some (mk_b32 a)) toy_gen_blinded
    (parse_b32 8 8) (ser_b32 8) toy_commit
    toy_sign toy_rewind toy_verify.

Lemma toy_pk_inv a A : toy_pk a = Some A -> length a = 16%nat /\ A = b8 2 :: a.
Proof.
  unfold toy_pk. destruct (length a =? 16)%nat eqn:El; [|discriminate].
  intros [= <-]. split; [apply Nat.eqb_eq; exact El | reflexivity].
Qed.

(* sums of two 16-byte numbers fit in 32 bytes, so distinct private keys give distinct secrets *)
Lemma toy_nonce_inj A a b s s' :
  toy_ecdh A a = Some s -> toy_ecdh A b = Some s' -> ub_fit 32 s = ub_fit 32 s' -> a = b.
Proof.
  unfold toy_ecdh. destruct A as [|x a0]; [discriminate|].
  destruct (n8 x =? 2); [|discriminate].
  destruct (length a0 =? 16)%nat eqn:E0; [|discriminate].
  destruct (length a =? 16)%nat eqn:Ea; [|discriminate].
  destruct (length b =? 16)%nat eqn:Eb; [|discriminate].
  cbn [andb]. intros Hs Hs'.
  replace s with (le_enc 32 (le_dec a0 + le_dec a)) by congruence.
  replace s' with (le_enc 32 (le_dec a0 + le_dec b)) by congruence.
  rewrite !fit_id by apply le_enc_length. intro Hh.
  apply Nat.eqb_eq in E0, Ea, Eb.
  pose proof (le_dec_bound a0) as B0. pose proof (le_dec_bound a) as Ba.
  pose proof (le_dec_bound b) as Bb. rewrite E0 in B0. rewrite Ea in Ba. rewrite Eb in Bb.
  apply le_enc_inj in Hh; [|lia|lia].
  rewrite <- (le_enc_dec a), <- (le_enc_dec b), Ea, Eb. f_equal. lia.
Qed.

Lemma toy_commit_inv vbf v g c :
  toy_commit vbf v g = Some c ->
  length vbf = 32%nat /\ skipn 24 vbf = zero8 /\ v < two64 /\
  proj1_sig c = firstn 24 vbf ++ le_enc 8 v.
Proof.
  unfold toy_commit. destruct (_ && _ && _) eqn:E; [|discriminate]. intros [= <-].
  rewrite !andb_true_iff in E. destruct E as ((Hl & Hz) & Hv).
  apply Nat.eqb_eq in Hl. apply bytes_eqb_eq in Hz.
  repeat split; [exact Hl | exact Hz | lia |]. apply fit_id.
  rewrite app_length, firstn_length, le_enc_length. lia.
Qed.

Lemma toy_commit_inj vbf v vbf' v' g c :
  toy_commit vbf v g = Some c -> toy_commit vbf' v' g = Some c -> vbf = vbf' /\ v = v'.
Proof.
  intros H H'. apply toy_commit_inv in H as (Hl & Hz & Hv & Hc), H' as (Hl' & Hz' & Hv' & Hc').
  rewrite Hc in Hc'. apply app_eq_len in Hc' as [Hf He]; [|rewrite !firstn_length; lia].
  split.
  - rewrite <- (firstn_skipn 24 vbf), <- (firstn_skipn 24 vbf'), Hf, Hz, Hz'. reflexivity.
  - exact (le_enc_inj 8 _ _ Hv Hv' He).
Qed.

Lemma toy_commit_is_spec vbf v g c : toy_commit_is vbf v g c = true <-> toy_commit vbf v g = Some c.
Proof.
  unfold toy_commit_is. destruct (toy_commit vbf v g) as [c1|]; split; intro H; try discriminate.
  - apply bytes_eqb_eq in H. f_equal. apply b32_eq. exact H.
  - injection H as ->. apply bytes_eqb_refl.
Qed.

Lemma toy_parse_sign {mn c vbf n e mb v msg s g p} :
  toy_sign mn c vbf n e mb v msg s g = Some p ->
  toy_parse_proof p = Some (ser_b32 8 c, n, ser_b32 10 g, vbf, le_enc 8 v, msg, s) /\ v < two64.
Proof.
  unfold toy_sign. destruct (forallb _ _ && (v <? two64)) eqn:Ew; [|discriminate].
  intros [= <-]. apply andb_true_iff in Ew as [Hf Hv].
  unfold toy_parse_proof. rewrite <- (app_nil_r (vector _)), p_vector_app.
  - split; [reflexivity | lia].
  - split; [unfold toy_fields, lenL; cbn [length]; unfold two64; lia|]. apply Forall_forall. intros x Hx.
    rewrite forallb_forall in Hf. specialize (Hf x Hx). lia.
Qed.

(* what a successful rewind compared *)
Lemma toy_rewind_inv c p n s g vbf v m :
  toy_rewind c p n s g = Some (vbf, v, m) ->
  exists vb msg,
    toy_parse_proof p = Some (ser_b32 8 c, n, ser_b32 10 g, vbf, vb, msg, s) /\
    toy_commit vbf v g = Some c.
Proof.
  unfold toy_rewind.
  destruct (toy_parse_proof p) as [[[[[[[c0 n0] g0] vbf0] vb] msg] s0]|]; [|discriminate].
  destruct (_ && _ && _ && _ && _) eqn:Eb; [|discriminate]. intros [= <- <- <-].
  rewrite !andb_true_iff, !bytes_eqb_eq, toy_commit_is_spec in Eb.
  destruct Eb as ((((-> & ->) & ->) & ->) & Hc). exists vb, msg. split; [reflexivity | exact Hc].
Qed.

Lemma toy_laws : laws toy toy_pk.
Proof.
  constructor; cbn [toy p_hash p_ecdh p_gen_parse p_gen_ser p_gen_generate p_gen_blinded
                    p_commit_parse p_commit_ser p_commit p_sign p_rewind p_verify].
  - intro x. apply fit_length.
  - intros a A H. apply toy_pk_inv in H as [Hl ->]. cbn [length]. lia.
  - intros a b A B HA HB. apply toy_pk_inv in HA as [Ha ->], HB as [Hb ->].
    unfold toy_ecdh. rewrite Ha, Hb, (N.add_comm (le_dec b)). reflexivity.
  - exact toy_nonce_inj.
  - intro g. apply ser_b32_len.
  - intro g. apply parse_ser_b32. lia.
  - intros b g. apply ser_parse_b32.
  - intro a. unfold toy_gen_blinded. rewrite bytes_eqb_refl. reflexivity.
  - intro c. apply ser_b32_len.
  - intro c. apply parse_ser_b32. lia.
  - intros b c. apply ser_parse_b32.
  - intros mn c vbf n e mb v msg s g. unfold toy_sign.
    destruct (forallb _ _ && (v <? two64)); [|discriminate].
    discriminate.
  - intros mn c vbf n e mb v msg s g p Hc Hs.
    destruct (toy_parse_sign Hs) as (Hp & Hv).
    apply toy_commit_is_spec in Hc.
    unfold toy_rewind. rewrite Hp, !bytes_eqb_refl, (le_dec_enc 8), Hc by exact Hv. reflexivity.
  - intros mn c vbf n e mb v msg s g p c' n' s' g' [[vbf' v'] m'] Hs Hr.
    destruct (toy_parse_sign Hs) as (Hp & _).
    apply toy_rewind_inv in Hr as (vb & msg' & Hp' & _). rewrite Hp in Hp'.
    injection Hp' as Hc Hn Hg _ _ _ Hs'.
    repeat split; try apply b32_eq; congruence.
  - intros mn c vbf n e mb v msg s g p Hc Hs.
    destruct (toy_parse_sign Hs) as (Hp & Hv).
    apply toy_commit_is_spec in Hc.
    unfold toy_verify. rewrite Hp, !bytes_eqb_refl, (le_dec_enc 8), Hc by exact Hv. reflexivity.
  - intros c p n s g vbf v m Hr. apply toy_rewind_inv in Hr as (_ & _ & _ & Hc). exact Hc.
  - exact toy_commit_inj.
Qed.

(* The ex_* definitions below are `match o with Some a => a | None => d end`; this lemma gives
   o = Some (that) from the head constructor of o alone: the hypothesis evaluates to True, and the value
   inside o (a digest, a proof) is never written out or compared *)
Lemma some_get {A} (o : option A) d :
  (if o then True else False) -> o = Some (match o with Some a => a | None => d end).
Proof. destruct o; [reflexivity | contradiction]. Qed.

(* the hypotheses of the main theorems are satisfiable (concrete instances) *)
Definition ex_asset : bytes := repeat x11 32.
Definition ex_abf : bytes := repeat x22 32.
Definition ex_vbf : bytes := repeat x33 24 ++ zero8.
Definition ex_script : bytes := [x00; x14; xaa].
Definition ex_rsk : bytes := repeat x07 16.
Definition ex_esk : bytes := repeat x09 16.
Definition ex_R : bytes := b8 2 :: ex_rsk.
Definition ex_E : bytes := b8 2 :: ex_esk.
Definition dummy_bl : ub_blinded := mk_bl [] [] [] [].
Definition ex_bl : ub_blinded :=
  match blind_output toy 1000 ex_asset ex_abf ex_vbf ex_script ex_R ex_esk 0 52 with
  | Some b => b | None => dummy_bl end.

Example ex_output_hypotheses :
  length ex_asset = 32%nat /\ length ex_abf = 32%nat /\ length ex_vbf = 32%nat /\
  toy_pk ex_rsk = Some ex_R /\ toy_pk ex_esk = Some ex_E /\
  blind_output toy 1000 ex_asset ex_abf ex_vbf ex_script ex_R ex_esk 0 52 = Some ex_bl /\
  unblind_with_key toy (out_of_blinded ex_bl ex_script ex_E []) ex_rsk =
    UOk (mk_unb 1000 ex_asset ex_vbf ex_abf) /\
  unblind_with_key toy (out_of_blinded ex_bl ex_script ex_E []) ex_esk = UErr /\
  unblind_with_key toy (out_of_blinded ex_bl [x00; x14; xab] ex_E []) ex_rsk = UErr.
Proof. vm_compute. repeat split. Qed.

Definition ex_ka : bytes := repeat x41 32.
Definition ex_kt : bytes := repeat x42 32.
Definition ex_iss0 : issuance := mk_iss ub_zero32 (repeat x05 32) [x00] [x00].
Definition ex_in0 : txin := mk_in (repeat x01 32) 3 0 [] [] false [] (Some ex_iss0) [] [].
Definition ex_aid : bytes := match calc_asset_hash ex_in0 ex_iss0 with Some a => a | None => [] end.
Definition ex_tid : bytes := match calc_token_hash ex_in0 ex_iss0 with Some a => a | None => [] end.
Definition ex_ba : ub_blinded :=
  match blind_issuance_amount toy 7 ex_aid ex_vbf ex_ka with Some b => b | None => dummy_bl end.
Definition ex_bt : ub_blinded :=
  match blind_issuance_amount toy 1 ex_tid ex_vbf ex_kt with Some b => b | None => dummy_bl end.
Definition ex_iss : issuance := mk_iss ub_zero32 (repeat x05 32) (bl_value ex_ba) (bl_value ex_bt).
Definition ex_in : txin :=
  mk_in (repeat x01 32) 3 0 [] [] false [] (Some ex_iss) (bl_proof ex_ba) (bl_proof ex_bt).

Example ex_issuance_hypotheses :
  in_iss ex_in = Some ex_iss /\ calc_asset_hash ex_in ex_iss = Some ex_aid /\
  calc_token_hash ex_in ex_iss = Some ex_tid /\
  blind_issuance_amount toy 7 ex_aid ex_vbf ex_ka = Some ex_ba /\
  blind_issuance_amount toy 1 ex_tid ex_vbf ex_kt = Some ex_bt /\
  iss_amount ex_iss = bl_value ex_ba /\ in_irp ex_in = bl_proof ex_ba /\
  iss_token ex_iss = bl_value ex_bt /\ in_inrp ex_in = bl_proof ex_bt /\
  unblind_issuance toy ex_in [ex_ka; ex_kt] =
    UOk (mk_unb 7 ex_aid ex_vbf ub_zero32, Some (mk_unb 1 ex_tid ex_vbf ub_zero32)) /\
  unblind_issuance toy ex_in [ex_kt; ex_kt] = UErr.
Proof.
  destruct (calc_hashes_ext ex_in ex_iss ex_in0 ex_iss0) as [Ea Et]; try reflexivity.
  assert (Ha : calc_asset_hash ex_in ex_iss = Some ex_aid)
    by (rewrite Ea; apply some_get; vm_compute; exact I).
  assert (Ht : calc_token_hash ex_in ex_iss = Some ex_tid)
    by (rewrite Et; apply some_get; vm_compute; exact I).
  assert (Hba : blind_issuance_amount toy 7 ex_aid ex_vbf ex_ka = Some ex_ba)
    by (apply some_get; vm_compute; exact I).
  assert (Hbt : blind_issuance_amount toy 1 ex_tid ex_vbf ex_kt = Some ex_bt)
    by (apply some_get; vm_compute; exact I).
  assert (Hi : in_iss ex_in = Some ex_iss) by reflexivity.
  assert (Hv : length ex_vbf = 32%nat) by reflexivity.
  assert (H6 : iss_amount ex_iss = bl_value ex_ba) by reflexivity.
  assert (H7 : in_irp ex_in = bl_proof ex_ba) by reflexivity.
  assert (H8 : iss_token ex_iss = bl_value ex_bt) by reflexivity.
  assert (H9 : in_inrp ex_in = bl_proof ex_bt) by reflexivity.
  pose proof (unblind_issuance_blind toy toy_pk toy_laws ex_in ex_iss ex_aid 7 ex_vbf ex_ka ex_ba
                Hi Ha Hv Hba H6 H7 ex_tid 1 ex_vbf ex_kt ex_bt Ht Hv Hbt H8 H9 []) as H10.
  assert (H11 : unblind_issuance toy ex_in [ex_kt; ex_kt] = UErr).
  { apply (issuance_wrong_asset_key_fails toy toy_pk toy_laws ex_in ex_iss ex_aid 7 ex_vbf ex_ka ex_ba
             Hi Ha Hv Hba H7).
    intro H. vm_compute in H. discriminate H. }
  exact (conj Hi (conj Ha (conj Ht (conj Hba (conj Hbt (conj H6 (conj H7 (conj H8 (conj H9
          (conj H10 H11)))))))))).
Qed.

Example ex_theorem_applies :
  unblind_with_key toy (out_of_blinded ex_bl ex_script ex_E []) ex_rsk =
    UOk (mk_unb 1000 ex_asset ex_vbf ex_abf).
Proof.
  destruct ex_output_hypotheses as (H1 & H2 & H3 & H4 & H5 & H6 & _).
  exact (unblind_blind_key toy toy_pk toy_laws (conj H1 (conj H2 (conj H3 (conj H4 (conj H5 H6))))) []).
Qed.
