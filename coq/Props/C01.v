(* Props/C01.v — C01: the wire encoding of transactions, block headers and blocks is read back exactly,
   and what the parsers accept is written back as the bytes consumed. *)
From GE Require Import Lib.Bytes Lib.Varint Model.Tx Model.Block Proofs.TxCodec Proofs.BlockCodec Proofs.GenTie.
Open Scope N_scope.

(* every well-formed transaction: what Serialize writes is parsed back to the same transaction, consuming
   exactly what was written.  norm_tx: the Flag field comes back as the byte that was written, 1 with
   witness data and 0 without, whatever the Flag of the value serialized. *)
Theorem C01_tx_parse_ser : forall t rest,
  wf_tx t = true -> parse_tx (ser_full t ++ rest) = Some (norm_tx t, rest).
Proof. exact tx_parse_ser. Qed.
Print Assumptions C01_tx_parse_ser.

(* every accepted byte string with a canonical flag re-serializes to the bytes consumed *)
Theorem C01_tx_ser_parse : forall bs t rest,
  parse_tx bs = Some (t, rest) -> canonical_flag t = true -> ser_full t ++ rest = bs.
Proof. exact tx_ser_parse. Qed.
Print Assumptions C01_tx_ser_parse.

(* what is accepted is well formed (whatever the flag byte: the second hypothesis is not used) *)
Theorem C01_tx_parsed_is_wf : forall bs t rest,
  parse_tx bs = Some (t, rest) -> canonical_flag t = true -> wf_tx t = true.
Proof. intros bs t rest H _. apply (parse_tx_sound bs t rest H). Qed.
Print Assumptions C01_tx_parsed_is_wf.

(* varints: every 64-bit value round-trips and only canonical encodings are accepted *)
Theorem C01_varint_roundtrip : forall v r, v < two64 -> p_varint (varint v ++ r) = Some (v, r).
Proof. exact p_varint_app. Qed.
Print Assumptions C01_varint_roundtrip.

Theorem C01_varint_canonical : forall bs v r, p_varint bs = Some (v, r) -> bs = varint v ++ r /\ v < two64.
Proof. exact p_varint_inv. Qed.
Print Assumptions C01_varint_canonical.

(* block headers: signed-block proof form and dynamic-federation form, compact and full parameters *)
Theorem C01_header_parse_ser : forall h rest,
  wf_header h = true -> parse_header (ser_header false h ++ rest) = Some (h, rest).
Proof. exact header_parse_ser. Qed.
Print Assumptions C01_header_parse_ser.

(* an accepted header is well formed and is written back as the bytes consumed *)
Theorem C01_header_ser_parse : forall bs h rest,
  parse_header bs = Some (h, rest) -> ser_header false h ++ rest = bs /\ wf_header h = true.
Proof. exact header_ser_parse. Qed.
Print Assumptions C01_header_ser_parse.

(* whole blocks: header, transaction count, transactions; each transaction comes back as in C01_tx_parse_ser *)
Theorem C01_block_parse_ser : forall b rest,
  wf_block b = true -> parse_block (ser_block b ++ rest) = Some (norm_block b, rest).
Proof. exact block_parse_ser. Qed.
Print Assumptions C01_block_parse_ser.

(* an accepted block whose transactions all have a canonical flag byte is written back as the bytes consumed *)
Theorem C01_block_ser_parse : forall bs b rest,
  parse_block bs = Some (b, rest) -> forallb canonical_flag (b_txs b) = true -> ser_block b ++ rest = bs.
Proof. exact block_ser_parse. Qed.
Print Assumptions C01_block_ser_parse.

(* the model's constants are the constants of today's Go source *)
Theorem C01_constants_tied : tx_consts_tied.
Proof.
  exact (conj tie_MinusOne (conj tie_OutpointIndexMask (conj tie_OutpointIssuanceFlag
        (conj tie_OutpointPeginFlag tie_WitnessScaleFactor)))).
Qed.
Print Assumptions C01_constants_tied.
