(* Props/C02.v — C02: each of the three signature hashes reads the transaction through a covered view
   that depends on the hash type (frame), and equal pre-images force equal views (sensitivity). *)
From GE Require Import Lib.Bytes Model.Tx Model.Sighash Proofs.Sighash Proofs.SighashSens.
Open Scope N_scope.

(* For each algorithm the pre-image (hence the digest, whatever the hash function) is a function of an
   explicit covered view: two transactions that agree on the view have equal pre-images, for every
   transaction, signing index and hash type. The view is the coverage matrix: it lists exactly which
   fields enter under which hash-type bits. *)
Theorem C02_v0_frame : forall (H2 : bytes -> bytes) t t' idx script value ht,
  view_v0 t idx ht = view_v0 t' idx ht ->
  preimage_v0 H2 t idx script value ht = preimage_v0 H2 t' idx script value ht.
Proof. exact v0_frame. Qed.
Print Assumptions C02_v0_frame.

Theorem C02_v1_frame : forall (H1 : bytes -> bytes) t t' idx a a' ht,
  view_v1 t idx a ht = view_v1 t' idx a' ht ->
  preimage_v1 H1 t idx a ht = preimage_v1 H1 t' idx a' ht.
Proof. exact v1_frame. Qed.
Print Assumptions C02_v1_frame.

Theorem C02_legacy_frame : forall t t' idx script ht,
  view_legacy t idx script ht = view_legacy t' idx script ht ->
  preimage_legacy t idx script ht = preimage_legacy t' idx script ht.
Proof. exact legacy_frame. Qed.
Print Assumptions C02_legacy_frame.

(* The rows of the matrix named in the property statement.  In C02_v0_none_ignores_outputs the hypothesis
   ht_single ht = false follows from ht_none ht = true; in C02_legacy_anyonecanpay_ignores_other_inputs the
   hypothesis that the signing input exists is not used (without it both sides are None). *)
Theorem C02_v0_anyonecanpay_ignores_other_inputs : forall H2 t t' idx script value ht,
  ht_acp ht = true -> same_own t t' idx ->
  t_version t = t_version t' -> t_locktime t = t_locktime t' -> t_outs t = t_outs t' ->
  preimage_v0 H2 t idx script value ht = preimage_v0 H2 t' idx script value ht.
Proof.
  intros H2 t t' idx script value ht A (own & own' & N1 & N2 & E1 & E2 & E3 & E4) Ev El Eo. apply v0_frame.
  unfold view_v0, covered_outs. rewrite N1, N2, A, Ev, El, Eo, E1, E2, E3, E4. reflexivity.
Qed.
Print Assumptions C02_v0_anyonecanpay_ignores_other_inputs.

Theorem C02_v0_none_ignores_outputs : forall H2 t t' idx script value ht,
  ht_none ht = true -> ht_single ht = false ->
  t_version t = t_version t' -> t_locktime t = t_locktime t' -> t_ins t = t_ins t' ->
  preimage_v0 H2 t idx script value ht = preimage_v0 H2 t' idx script value ht.
Proof.
  intros H2 t t' idx script value ht A B Ev El Ei. apply v0_frame.
  unfold view_v0, covered_outs. rewrite A, B, Ev, El, Ei. destruct (ht_rp ht); reflexivity.
Qed.
Print Assumptions C02_v0_none_ignores_outputs.

Theorem C02_v0_single_ignores_other_outputs : forall H2 t t' idx script value ht,
  ht_single ht = true ->
  t_version t = t_version t' -> t_locktime t = t_locktime t' -> t_ins t = t_ins t' ->
  nth_error (t_outs t) idx = nth_error (t_outs t') idx ->
  preimage_v0 H2 t idx script value ht = preimage_v0 H2 t' idx script value ht.
Proof.
  intros H2 t t' idx script value ht A Ev El Ei Eo. apply v0_frame.
  unfold view_v0, covered_outs. rewrite A, Ev, El, Ei, Eo. reflexivity.
Qed.
Print Assumptions C02_v0_single_ignores_other_outputs.

Theorem C02_v0_none_single_ignore_other_sequences : forall H2 t t' idx script value ht,
  ht_single ht || ht_none ht = true -> same_own t t' idx ->
  t_version t = t_version t' -> t_locktime t = t_locktime t' -> t_outs t = t_outs t' ->
  map in_outpoint (t_ins t) = map in_outpoint (t_ins t') -> map in_iss (t_ins t) = map in_iss (t_ins t') ->
  preimage_v0 H2 t idx script value ht = preimage_v0 H2 t' idx script value ht.
Proof.
  intros H2 t t' idx script value ht A (own & own' & N1 & N2 & E1 & E2 & E3 & E4) Ev El Eo Ep Eiss. apply v0_frame.
  unfold view_v0, covered_outs. rewrite N1, N2, A, Ev, El, Eo, E1, E2, E3, E4, Ep, Eiss, orb_true_r. reflexivity.
Qed.
Print Assumptions C02_v0_none_single_ignore_other_sequences.

Theorem C02_v0_ignores_output_proofs_without_flag : forall H2 t t' idx script value ht,
  ht_rp ht = false ->
  t_version t = t_version t' -> t_locktime t = t_locktime t' -> t_ins t = t_ins t' ->
  map out_base (t_outs t) = map out_base (t_outs t') ->
  preimage_v0 H2 t idx script value ht = preimage_v0 H2 t' idx script value ht.
Proof.
  intros H2 t t' idx script value ht A Ev El Ei Eo. apply v0_frame.
  unfold view_v0. rewrite A, Ev, El, Ei, (covered_outs_base t t' idx ht Eo). reflexivity.
Qed.
Print Assumptions C02_v0_ignores_output_proofs_without_flag.

Theorem C02_v1_anyonecanpay_ignores_other_inputs : forall H1 t t' idx a ht,
  v1_acp ht = true ->
  (exists own own', nth_error (t_ins t) idx = Some own /\ nth_error (t_ins t') idx = Some own' /\
     input_flag own = input_flag own' /\ in_hash own = in_hash own' /\ in_index own = in_index own' /\
     in_seq own = in_seq own' /\ in_iss own = in_iss own' /\ in_proofs own = in_proofs own') ->
  t_version t = t_version t' -> t_locktime t = t_locktime t' -> t_outs t = t_outs t' ->
  preimage_v1 H1 t idx a ht = preimage_v1 H1 t' idx a ht.
Proof.
  intros H1 t t' idx a ht A (own & own' & N1 & N2 & F & E1 & E2 & E3 & E4 & E5) Ev El Eo. apply v1_frame.
  unfold view_v1, covered_outs_v1. rewrite N1, N2, A, Ev, El, Eo, F, E1, E2, E3, E4, E5. reflexivity.
Qed.
Print Assumptions C02_v1_anyonecanpay_ignores_other_inputs.

Theorem C02_v1_none_ignores_outputs : forall H1 t t' idx a ht,
  v1_out_type ht = 2 ->
  t_version t = t_version t' -> t_locktime t = t_locktime t' -> t_ins t = t_ins t' ->
  preimage_v1 H1 t idx a ht = preimage_v1 H1 t' idx a ht.
Proof.
  intros H1 t t' idx a ht A Ev El Ei. apply v1_frame.
  unfold view_v1, covered_outs_v1. rewrite A, Ev, El, Ei. reflexivity.
Qed.
Print Assumptions C02_v1_none_ignores_outputs.

Theorem C02_v1_single_ignores_other_outputs : forall H1 t t' idx a ht,
  v1_out_type ht = 3 ->
  t_version t = t_version t' -> t_locktime t = t_locktime t' -> t_ins t = t_ins t' ->
  nth_error (t_outs t) idx = nth_error (t_outs t') idx ->
  preimage_v1 H1 t idx a ht = preimage_v1 H1 t' idx a ht.
Proof.
  intros H1 t t' idx a ht A Ev El Ei Eo. apply v1_frame.
  unfold view_v1, covered_outs_v1. rewrite A, Ev, El, Ei, Eo. reflexivity.
Qed.
Print Assumptions C02_v1_single_ignores_other_outputs.

Theorem C02_legacy_anyonecanpay_ignores_other_inputs : forall t t' idx script ht,
  ht_acp ht = true ->
  nth_error (t_ins t) idx = nth_error (t_ins t') idx -> nth_error (t_ins t) idx <> None ->
  t_version t = t_version t' -> t_locktime t = t_locktime t' -> t_outs t = t_outs t' ->
  preimage_legacy t idx script ht = preimage_legacy t' idx script ht.
Proof. exact legacy_anyonecanpay_ignores_other_inputs. Qed.
Print Assumptions C02_legacy_anyonecanpay_ignores_other_inputs.

Theorem C02_legacy_none_ignores_outputs : forall t t' idx script ht,
  ht_none ht = true ->
  t_version t = t_version t' -> t_locktime t = t_locktime t' -> t_flag t = t_flag t' -> t_ins t = t_ins t' ->
  preimage_legacy t idx script ht = preimage_legacy t' idx script ht.
Proof.
  intros t t' idx script ht A Ev El Ef Ei. apply legacy_frame.
  unfold view_legacy, legacy_tx. rewrite A, Ev, El, Ef, Ei. reflexivity.
Qed.
Print Assumptions C02_legacy_none_ignores_outputs.

Theorem C02_legacy_ignores_output_proofs_without_flag : forall t t' idx script ht,
  ht_rp ht = false ->
  t_version t = t_version t' -> t_locktime t = t_locktime t' -> t_ins t = t_ins t' ->
  map out_base (t_outs t) = map out_base (t_outs t') ->
  preimage_legacy t idx script ht = preimage_legacy t' idx script ht.
Proof.
  intros t t' idx script ht A Ev El Ei Eo. apply legacy_frame.
  unfold view_legacy. rewrite A. apply legacy_tx_outs_base; assumption.
Qed.
Print Assumptions C02_legacy_ignores_output_proofs_without_flag.

(* The converse: two pre-images that are equal come from equal covered views, so a covered field that
   differs changes the pre-image (for segwit v0 also stated on the digest).  The hash type is the same on
   both sides throughout.  For the hypotheses on the hash function see section IdealHash of
   Proofs/SighashSens.v; iss_compatible is the disjunction written out in C02_v1_sensitive. *)

(* segwit v0: equal pre-images (or equal digests) force equal covered views, equal script code and equal amount *)
Theorem C02_v0_sensitive : forall (H2 : bytes -> bytes),
  (forall a b, H2 a = H2 b -> a = b) -> (forall a, length (H2 a) = 32%nat) -> (forall a, H2 a <> zero32) ->
  forall t t' idx script script' value value' ht p,
  wf_tx t = true -> wf_tx t' = true -> iss_compatible t t' ->
  lenN script < two64 -> lenN script' < two64 -> is_value value = true -> is_value value' = true ->
  preimage_v0 H2 t idx script value ht = Some p -> preimage_v0 H2 t' idx script' value' ht = Some p ->
  view_v0 t idx ht = view_v0 t' idx ht /\ script = script' /\ value = value'.
Proof. exact v0_sensitive. Qed.
Print Assumptions C02_v0_sensitive.

Theorem C02_v0_digest_sensitive : forall (H2 : bytes -> bytes),
  (forall a b, H2 a = H2 b -> a = b) -> (forall a, length (H2 a) = 32%nat) -> (forall a, H2 a <> zero32) ->
  forall t t' idx script script' value value' ht d,
  wf_tx t = true -> wf_tx t' = true -> iss_compatible t t' ->
  lenN script < two64 -> lenN script' < two64 -> is_value value = true -> is_value value' = true ->
  digest_v0 H2 t idx script value ht = Some d -> digest_v0 H2 t' idx script' value' ht = Some d ->
  view_v0 t idx ht = view_v0 t' idx ht /\ script = script' /\ value = value'.
Proof.
  intros H2 Hinj Hlen Hnz t t' idx script script' value value' ht d W W' IC Ls Ls' Vv Vv'. unfold digest_v0.
  destruct (preimage_v0 H2 t idx script value ht) as [p|] eqn:P; [|discriminate].
  destruct (preimage_v0 H2 t' idx script' value' ht) as [p'|] eqn:P'; [|discriminate].
  intros D D'. injection D as D. injection D' as D'. rewrite <- D' in D. apply Hinj in D. subst p'.
  eapply v0_sensitive; eassumption.
Qed.
Print Assumptions C02_v0_digest_sensitive.

(* legacy (without the RANGEPROOF bit): equal pre-images force equal covered views of the hashed copies.
   This and the next two are C02_legacy_sensitive_full for copies that are well formed as a whole (every
   case but SINGLE above index 0); the first two fix the RANGEPROOF bit. *)
Theorem C02_legacy_sensitive : forall t t' idx script script' ht c c' p,
  ht_rp ht = false ->
  legacy_tx t idx script ht = Some c -> legacy_tx t' idx script' ht = Some c' ->
  wf_tx c = true -> wf_tx c' = true ->
  preimage_legacy t idx script ht = Some p -> preimage_legacy t' idx script' ht = Some p ->
  sig_view false c = sig_view false c'.
Proof. intros t t' idx script script' ht c c' p RP C C' W W' P P'. rewrite <- RP. eapply legacy_sensitive_any; eassumption. Qed.
Print Assumptions C02_legacy_sensitive.

(* legacy with the RANGEPROOF bit: the covered view then includes the range and surjection proofs of the outputs *)
Theorem C02_legacy_rp_sensitive : forall t t' idx script script' ht c c' p,
  ht_rp ht = true ->
  legacy_tx t idx script ht = Some c -> legacy_tx t' idx script' ht = Some c' ->
  wf_tx c = true -> wf_tx c' = true ->
  preimage_legacy t idx script ht = Some p -> preimage_legacy t' idx script' ht = Some p ->
  sig_view true c = sig_view true c'.
Proof. intros t t' idx script script' ht c c' p RP C C' W W' P P'. rewrite <- RP. eapply legacy_sensitive_any; eassumption. Qed.
Print Assumptions C02_legacy_rp_sensitive.

(* legacy, every hash type *)
Theorem C02_legacy_sensitive_any : forall t t' idx script script' ht c c' p,
  legacy_tx t idx script ht = Some c -> legacy_tx t' idx script' ht = Some c' ->
  wf_tx c = true -> wf_tx c' = true ->
  preimage_legacy t idx script ht = Some p -> preimage_legacy t' idx script' ht = Some p ->
  sig_view (ht_rp ht) c = sig_view (ht_rp ht) c'.
Proof. exact legacy_sensitive_any. Qed.
Print Assumptions C02_legacy_sensitive_any.

(* legacy, every hash type and every input index, SIGHASH_SINGLE above index 0 included: the hashed copy then carries
   blanked outputs that the wire format cannot represent, so well-formedness is asked of the copy without them *)
Theorem C02_legacy_sensitive_full : forall t t' idx script script' ht c c' p,
  legacy_tx t idx script ht = Some c -> legacy_tx t' idx script' ht = Some c' ->
  wf_tx (legacy_core ht idx c) = true -> wf_tx (legacy_core ht idx c') = true ->
  preimage_legacy t idx script ht = Some p -> preimage_legacy t' idx script' ht = Some p ->
  sig_view (ht_rp ht) c = sig_view (ht_rp ht) c'.
Proof. exact legacy_sensitive_full. Qed.
Print Assumptions C02_legacy_sensitive_full.

(* taproot: equal pre-images force equal covered views (all hash types, key and script path, with or without annex) *)
Theorem C02_v1_sensitive : forall (H1 : bytes -> bytes),
  (forall a b, H1 a = H1 b -> a = b) -> (forall a, length (H1 a) = 32%nat) ->
  forall t t' idx a a' ht p,
  wf_tx t = true -> wf_tx t' = true ->
  (same_iss_pattern (t_ins t) (t_ins t') \/ length (ser_issuances (t_ins t)) <> length (ser_issuances (t_ins t'))) ->
  v1_args_wf t a -> v1_args_wf t' a' ->
  preimage_v1 H1 t idx a ht = Some p -> preimage_v1 H1 t' idx a' ht = Some p ->
  view_v1 t idx a ht = view_v1 t' idx a' ht.
Proof. exact v1_sensitive. Qed.
Print Assumptions C02_v1_sensitive.
