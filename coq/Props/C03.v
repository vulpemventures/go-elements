(* Props/C03.v — C03: the coded pre-images are the layouts of Spec/ElementsSighash.v, and those layouts
   give the digests of the published vectors. *)
From GE Require Import Lib.Bytes Lib.Sha256 Model.Tx Model.Sighash Spec.ElementsSighash
  Proofs.SighashSpec Proofs.SighashVectors Gen.SighashVectors Proofs.TxCodec Proofs.SighashReparse.
Open Scope N_scope.

(* On the domain fixed by the specifications, the coded pre-image equals the specification layout
   byte for byte, for every transaction, input index, hash type, spent data, leaf hash and annex.
   legacy_domain: no ANYONECANPAY, no RANGEPROOF, SINGLE on input 0 only, and input indexes of at most
   30 bits (above that the flag bits would run into the index). *)
Theorem C03_legacy_refines_spec : forall t idx script ht,
  legacy_domain t idx ht -> preimage_legacy t idx script ht = spec_legacy_preimage t idx script ht.
Proof. exact legacy_refines_spec. Qed.
Print Assumptions C03_legacy_refines_spec.

(* legacy with ANYONECANPAY (ALL/NONE at any input, SINGLE on input 0): the input vector is the signing input alone with
   its own sequence; the digest specification dispatches on the ANYONECANPAY bit *)
Theorem C03_legacy_acp_refines_spec : forall t idx script ht,
  legacy_acp_domain t idx ht -> preimage_legacy t idx script ht = spec_legacy_acp_preimage t idx script ht.
Proof. exact legacy_acp_refines_spec. Qed.
Print Assumptions C03_legacy_acp_refines_spec.

Theorem C03_v0_refines_spec : forall t idx script value ht,
  ht_rp ht = false -> preimage_v0 dsha256 t idx script value ht = spec_v0_preimage t idx script value ht.
Proof. exact v0_refines_spec. Qed.
Print Assumptions C03_v0_refines_spec.

Theorem C03_v1_refines_spec : forall t idx a ht,
  v1_args_ok t a ->
  preimage_v1 sha256 t idx a ht = spec_v1_preimage t idx (spents_of a) (v1_genesis a) (v1_leaf a) (v1_annex a) ht.
Proof. exact v1_refines_spec. Qed.
Print Assumptions C03_v1_refines_spec.

(* the specification reproduces the published vectors (transaction/data/tx_valid.json, regenerated into
   Gen/SighashVectors.v on every run): for each vector the digest specified for its transaction, input index, script
   (and value, or spent outputs, genesis hash and leaf hash) and hash type equals the recorded digest.  Legacy vectors
   outside the domain of the specification (RANGEPROOF set, or SINGLE on an input other than 0) are exempted;
   the taproot vectors are evaluated without annex. *)
Theorem C03_published_vectors_legacy :
  forallb (fun v => negb (legacy_in_domain v) || check_legacy v) g_vec_legacy = true.
Proof. exact vectors_legacy_ok. Qed.
Print Assumptions C03_published_vectors_legacy.

Theorem C03_published_vectors_v0 : forallb check_v0 g_vec_v0 = true.
Proof. exact vectors_v0_ok. Qed.
Print Assumptions C03_published_vectors_v0.

Theorem C03_published_vectors_v1 : forallb check_v1 g_vec_v1 = true.
Proof. exact vectors_v1_ok. Qed.
Print Assumptions C03_published_vectors_v1.

(* the secondary entry point: the transaction NewTxFromBuffer returns for the bytes Serialize wrote has the
   pre-images of the transaction that was serialized (the pre-images never read the witness flag, the only
   field in which the two may differ), for every algorithm, index, hash type and spent data *)
Theorem C03_reparsed_has_same_preimages : forall t rest t' rest',
  wf_tx t = true -> parse_tx (ser_full t ++ rest) = Some (t', rest') ->
  rest' = rest /\
  (forall idx script ht, preimage_legacy t' idx script ht = preimage_legacy t idx script ht) /\
  (forall H2 idx script value ht, preimage_v0 H2 t' idx script value ht = preimage_v0 H2 t idx script value ht) /\
  (forall H1 idx a ht, preimage_v1 H1 t' idx a ht = preimage_v1 H1 t idx a ht).
Proof.
  intros t rest t' rest' W P. rewrite (tx_parse_ser t rest W) in P. injection P as <- <-.
  destruct t as [v f l i o]. unfold norm_tx. cbn [t_version t_locktime t_ins t_outs].
  split; [reflexivity|]. split; [|split; reflexivity].
  intros. apply preimage_legacy_flag.
Qed.
Print Assumptions C03_reparsed_has_same_preimages.
