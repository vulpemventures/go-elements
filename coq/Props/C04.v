(* Props/C04.v — C04: the transaction id is a function of the witness-free part of the transaction and
   determines it; the witness hash determines everything but the Flag field. *)
From GE Require Import Lib.Bytes Lib.Sha256 Model.Tx Model.TxHash Proofs.TxCodec Proofs.TxId Proofs.TxIdFields.
Open Scope N_scope.

(* the id ignores every witness field; no well-formedness is asked *)
Theorem C04_txid_frame : forall t t', same_base t t' -> txid t = txid t'.
Proof. exact txid_frame_digest. Qed.
Print Assumptions C04_txid_frame.

(* the hashed serialization determines version, locktime and every non-witness field of every input and output *)
Theorem C04_txid_sensitive : forall t t', wf_tx t = true -> wf_tx t' = true ->
  ser_txid t = ser_txid t' -> same_base t t'.
Proof. exact txid_sensitive. Qed.
Print Assumptions C04_txid_sensitive.

Theorem C04_txid_digest_sensitive : forall (H : bytes -> bytes), (forall a b, H a = H b -> a = b) ->
  forall t t', wf_tx t = true -> wf_tx t' = true -> ~ same_base t t' -> txid_H H t <> txid_H H t'.
Proof.
  intros H H_inj t t' W W' N E. apply N. apply txid_sensitive; try assumption.
  apply H_inj, H_inj. exact E.
Qed.
Print Assumptions C04_txid_digest_sensitive.

(* the witness hash covers every field (all inputs and outputs with their witness data) *)
Theorem C04_wtxid_sensitive : forall t t', wf_tx t = true -> wf_tx t' = true ->
  ser_wtxid t = ser_wtxid t' -> same_all_but_flag t t'.
Proof. exact wtxid_sensitive. Qed.
Print Assumptions C04_wtxid_sensitive.

Theorem C04_wtxid_digest_sensitive : forall (H : bytes -> bytes), (forall a b, H a = H b -> a = b) ->
  forall t t', wf_tx t = true -> wf_tx t' = true -> ~ same_all_but_flag t t' -> wtxid_H H t <> wtxid_H H t'.
Proof.
  intros H H_inj t t' W W' N E. apply N. apply wtxid_sensitive; try assumption.
  apply H_inj, H_inj. exact E.
Qed.
Print Assumptions C04_wtxid_digest_sensitive.

Theorem C04_wtxid_eq_txid_without_witness : forall t, has_witness t = false -> wtxid t = txid t.
Proof. exact wtxid_eq_txid_without_witness. Qed.
Print Assumptions C04_wtxid_eq_txid_without_witness.

(* ---- field by field, on positions of the input and output lists (Proofs/TxIdFields.v) ---- *)

(* the witness-free part keeps exactly outpoint hash, index, sequence, script, peg-in flag and issuance of an input,
   and asset, value, script and nonce of an output *)
Theorem C04_base_input_fields : forall i i', strip_in i = strip_in i' <->
  in_hash i = in_hash i' /\ in_index i = in_index i' /\ in_seq i = in_seq i' /\ in_script i = in_script i' /\
  in_pegin i = in_pegin i' /\ in_iss i = in_iss i'.
Proof. exact strip_in_eq_iff. Qed.
Print Assumptions C04_base_input_fields.

Theorem C04_base_output_fields : forall o o', strip_out o = strip_out o' <->
  o_asset o = o_asset o' /\ o_value o = o_value o' /\ o_script o = o_script o' /\ o_nonce o = o_nonce o'.
Proof. exact strip_out_eq_iff. Qed.
Print Assumptions C04_base_output_fields.

(* equality of the hashed serialization is exactly equality of the witness-free parts *)
Theorem C04_txid_iff : forall t t', wf_tx t = true -> wf_tx t' = true ->
  (ser_txid t = ser_txid t' <-> same_base t t').
Proof. exact txid_iff. Qed.
Print Assumptions C04_txid_iff.

(* rewriting script witness, peg-in witness and both issuance range proofs of the input at any position (and
   the flag) leaves the id unchanged; likewise range and surjection proof of the output at any position *)
Theorem C04_txid_ignores_input_witness : forall t n w pw irp inrp flag,
  txid (mk_tx (t_version t) flag (t_locktime t) (upd_nth (t_ins t) n (set_in_witness_fields w pw irp inrp)) (t_outs t))
  = txid t.
Proof. exact txid_ignores_input_witness. Qed.
Print Assumptions C04_txid_ignores_input_witness.

Theorem C04_txid_ignores_output_proofs : forall t n rp sp flag,
  txid (mk_tx (t_version t) flag (t_locktime t) (t_ins t) (upd_nth (t_outs t) n (set_out_proofs rp sp)))
  = txid t.
Proof. exact txid_ignores_output_proofs. Qed.
Print Assumptions C04_txid_ignores_output_proofs.

Theorem C04_txid_covers_version_locktime : forall t t', wf_tx t = true -> wf_tx t' = true ->
  (t_version t <> t_version t' \/ t_locktime t <> t_locktime t') -> ser_txid t <> ser_txid t'.
Proof.
  intros t t' W W' D E. destruct (txid_sensitive t t' W W' E) as (A & B & _).
  destruct D as [D|D]; contradiction.
Qed.
Print Assumptions C04_txid_covers_version_locktime.

Theorem C04_txid_covers_counts : forall t t', wf_tx t = true -> wf_tx t' = true ->
  (length (t_ins t) <> length (t_ins t') \/ length (t_outs t) <> length (t_outs t')) -> ser_txid t <> ser_txid t'.
Proof.
  intros t t' W W' D E. destruct (txid_sensitive t t' W W' E) as (_ & _ & A & B).
  apply (f_equal (@length _)) in A, B. rewrite !map_length in A, B.
  destruct D as [D|D]; contradiction.
Qed.
Print Assumptions C04_txid_covers_counts.

Theorem C04_txid_covers_input_field : forall t t' n i i', wf_tx t = true -> wf_tx t' = true ->
  nth_error (t_ins t) n = Some i -> nth_error (t_ins t') n = Some i' ->
  (in_hash i <> in_hash i' \/ in_index i <> in_index i' \/ in_seq i <> in_seq i' \/ in_script i <> in_script i' \/
   in_pegin i <> in_pegin i' \/ in_iss i <> in_iss i') ->
  ser_txid t <> ser_txid t'.
Proof. exact txid_covers_input_field. Qed.
Print Assumptions C04_txid_covers_input_field.

Theorem C04_txid_covers_output_field : forall t t' n o o', wf_tx t = true -> wf_tx t' = true ->
  nth_error (t_outs t) n = Some o -> nth_error (t_outs t') n = Some o' ->
  (o_asset o <> o_asset o' \/ o_value o <> o_value o' \/ o_script o <> o_script o' \/ o_nonce o <> o_nonce o') ->
  ser_txid t <> ser_txid t'.
Proof.
  intros t t' n o o' W W' Ho Ho' D E. destruct (txid_sensitive t t' W W' E) as (_ & _ & _ & A).
  pose proof (map_eq_nth_error strip_out _ _ n o o' A Ho Ho') as S.
  apply strip_out_eq_iff in S as (S1 & S2 & S3 & S4).
  destruct D as [D|[D|[D|D]]]; contradiction.
Qed.
Print Assumptions C04_txid_covers_output_field.

Theorem C04_wtxid_covers_witness_field : forall t t' n i i', wf_tx t = true -> wf_tx t' = true ->
  nth_error (t_ins t) n = Some i -> nth_error (t_ins t') n = Some i' ->
  (in_witness i <> in_witness i' \/ in_pegwit i <> in_pegwit i' \/ in_irp i <> in_irp i' \/ in_inrp i <> in_inrp i') ->
  ser_wtxid t <> ser_wtxid t'.
Proof. exact wtxid_covers_witness_field. Qed.
Print Assumptions C04_wtxid_covers_witness_field.

Theorem C04_wtxid_covers_output_proofs : forall t t' n o o', wf_tx t = true -> wf_tx t' = true ->
  nth_error (t_outs t) n = Some o -> nth_error (t_outs t') n = Some o' ->
  (o_rp o <> o_rp o' \/ o_sp o <> o_sp o') -> ser_wtxid t <> ser_wtxid t'.
Proof.
  intros t t' n o o' W W' Ho Ho' D. apply (wtxid_covers_output t t' n o o' W W' Ho Ho').
  intro X. rewrite X in D. destruct D as [D|D]; apply D; reflexivity.
Qed.
Print Assumptions C04_wtxid_covers_output_proofs.
