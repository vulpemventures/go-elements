(* Props/C05.v — property theorems only.  C05: a transaction on which blinding succeeded balances, exactly the
   requested outputs are blinded, and the proofs written verify.  A name ending in `_partial` proves less than
   the full statement given in the comment above it; `_refuted` exhibits inputs on which a clause fails. *)
From GE Require Import Lib.Bytes Model.Blind Proofs.Blind.
Open Scope Z_scope.

(* psetv2, full statement: for every list of parties in every order, if every party's BlindNonLast /
   BlindLast succeeds, no output is blinded twice, the amounts are conserved per asset and the parties'
   input scalars account for the blinders of everything spent and issued (ownership is a partition of the
   confidential inputs with their true openings), then the value commitments of the final transaction
   balance.  (A non-last blinder subtracts its input scalar from the output sum it publishes: fix db58bba.) *)
Theorem C05_v2_balance : forall ps p0 pf ws wos,
  wf_pset p0 -> ps <> [] ->
  bl_run p0 ps = BOk pf -> run_fresh p0 ps ->
  map bwo_value wos = map bpo_value (bps_outs pf) ->
  (forall a, bl_coef (fst (bl_lin_sum (bl_tx_in 0%N ws (bps_ins pf)))) a =
             bl_coef (fst (bl_lin_sum (bl_tx_out wos (bps_outs pf)))) a) ->
  eqn (ledger_D p0 + run_contrib p0 ps) (in_g 0%N ws (bps_ins pf)) ->
  bl_balanced ws wos pf = true.
Proof. exact v2_balance. Qed.
Print Assumptions C05_v2_balance.

(* the ledger behind it: after any exchange, what is committed on the outputs equals the sum of the parties' input scalars *)
Theorem C05_v2_ledger : forall ps p pf, wf_pset p ->
  bl_run p ps = BOk pf -> run_fresh p ps ->
  eqn (ledger_D pf) (ledger_D p + run_contrib p ps) /\ (ps <> [] -> bps_scalars pf = []).
Proof. exact run_ledger. Qed.
Print Assumptions C05_v2_ledger.

(* pset v0.  FULL STATEMENT: whenever Blind succeeds the transaction balances and exactly the selected
   outputs are blinded, for every selection.  Balance is proved up to the per-output arrays (_partial: the
   final value blinding factor makes the arrays balance against inputs and pseudo inputs; that the arrays
   land on the right outputs is the next theorem plus K).  Exactly-requested is proved in full for any
   selection, contiguous or not (the write-back reads the per-output arrays by position: fix 65fe84b). *)
Theorem C05_v0_balance_partial : forall inV outV inG outG inF outF fv,
  length inG = length inV -> length inF = length inV ->
  b0_final_vbf inV outV inG outG inF outF = Some fv ->
  eqn (sum3 inV inG inF) (sum3 outV outG (outF ++ [fv])).
Proof. exact v0_final_vbf_balances. Qed.
Print Assumptions C05_v0_balance_partial.

Theorem C05_v0_blinded_exactly_requested : forall ins outs sel keys tokkey sok rng r j,
  b0_blind ins outs sel keys tokkey sok rng = BOk r -> (j < length outs)%nat ->
  marked_at (br0_outs r) j = existsb (fun i => has_script outs i && (N.to_nat i =? j)%nat) sel.
Proof. exact v0_blinded_exactly_requested. Qed.
Print Assumptions C05_v0_blinded_exactly_requested.

Theorem C05_v2_blinded_exactly_requested : forall ps p pf j,
  bl_run p ps = BOk pf -> (j < length (bps_outs p))%nat ->
  blinded_at (bps_outs pf) j = blinded_at (bps_outs p) j || existsb (fun pa => asked_at (bl_sort (bpa_outs pa)) j) ps.
Proof. exact v2_blinded_exactly_requested. Qed.
Print Assumptions C05_v2_blinded_exactly_requested.

(* proofs verify: completeness laws of libsecp's proofs are hypotheses; what is proved is argument consistency.
   FULL STATEMENT: every surjection proof verifies against the spent and issued tags.  Proved when the list
   handed to the prover equals the verifier's (_partial: one party owning every input, issuance on the last
   input only).  Refuted three ways: a party that does not own every input (_unowned), an issuance that is not
   on the last input (_issuance_order), and a token-only issuance, for which the library lists the tag of the
   issued asset although nothing of it is issued (_null_amount). *)
Theorem C05_surjection_verifies_partial : forall (sproof : Type)
  (surj_prove : list bl_tag -> bl_tag -> option sproof) (surj_verify : list bl_tag -> bl_tag -> sproof -> bool),
  (forall tags out pf, surj_prove tags out = Some pf -> surj_verify tags out pf = true) ->
  forall pre l out pf, Forall no_issuance pre -> iss_consistent l ->
  surj_prove (bl_tags_gen (all_owned (pre ++ [l])) (pre ++ [l])) out = Some pf ->
  surj_verify (bl_tags_true (pre ++ [l])) out pf = true.
Proof.
  intros sproof surj_prove surj_verify Hcomplete pre l out pf Hpre Hl.
  rewrite (tags_agree pre l Hpre Hl). apply Hcomplete.
Qed.
Print Assumptions C05_surjection_verifies_partial.

Theorem C05_surjection_refuted_unowned :
  exists own ins, bl_tags_gen own ins <> bl_tags_true ins /\ bl_tags_val own ins = bl_tags_gen own ins.
Proof.
  exists [true; false], [ex_t 1 false; ex_t 2 false]. split; [|reflexivity].
  intro H. vm_compute in H. discriminate H.
Qed.
Print Assumptions C05_surjection_refuted_unowned.

Theorem C05_surjection_refuted_issuance_order :
  exists ins, Forall iss_consistent ins /\ bl_tags_gen (all_owned ins) ins <> bl_tags_true ins.
Proof.
  exists [ex_ti; ex_t 2 false]. split.
  - repeat constructor.
  - intro H. vm_compute in H. discriminate H.
Qed.
Print Assumptions C05_surjection_refuted_issuance_order.

Theorem C05_surjection_refuted_null_amount :
  exists i, bl_tags_gen [true] [i] = bl_tags_val [true] [i] /\ bl_tags_gen [true] [i] <> bl_tags_true [i].
Proof.
  exists ex_tn. split; [reflexivity|]. intro H. vm_compute in H. discriminate H.
Qed.
Print Assumptions C05_surjection_refuted_null_amount.

(* range proofs: LastValueCommitment and LastValueRangeProof are handed the same value, tag and blinder, so
   there is no argument consistency left to prove: the statement below IS the completeness law of the primitive
   (its hypothesis and its conclusion coincide) and says nothing further about the library. *)
Theorem C05_range_proof_verifies : forall (rproof : Type)
  (range_sign : Z -> bytes -> bl_tag -> bytes -> bytes -> option rproof)
  (range_verify : bl_lin -> bl_tag -> bytes -> rproof -> bool),
  (forall asset v abf vbf script nonce pf, range_sign v vbf (bmk_tag asset abf) script nonce = Some pf ->
     range_verify (bl_commit (be_dec asset) v (bl_sc abf) (bl_sc vbf)) (bmk_tag asset abf) script pf = true) ->
  forall asset v abf vbf script nonce pf, range_sign v vbf (bmk_tag asset abf) script nonce = Some pf ->
  range_verify (bl_commit (be_dec asset) v (bl_sc abf) (bl_sc vbf)) (bmk_tag asset abf) script pf = true.
Proof.
  (* LastValueCommitment and LastValueRangeProof receive the same value, tag and blinder, so the
     completeness law applies as it stands *)
  intros rproof range_sign range_verify Hcomplete. exact Hcomplete.
Qed.
Print Assumptions C05_range_proof_verifies.

(* the scalar helpers compute value*assetBlinder + valueBlinder modulo n whenever they succeed *)
Theorem C05_add_offset : forall s v ab vb r, 0 <= v ->
  bl_add_offset s v ab vb = Some r -> eqn (bl_v r) (bl_v s + (v * bl_v ab + bl_v vb)).
Proof. exact add_offset_spec. Qed.
Print Assumptions C05_add_offset.
