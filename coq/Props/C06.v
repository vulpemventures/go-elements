(* Props/C06.v — property theorems only.  C06: unblinding returns exactly what was blinded, and only to the
   right key.
   P ranges over ALL primitives satisfying [laws] (Proofs/Unblind.v): ECDH symmetry and
   key-injective nonces, canonical 33-byte generator / commitment serialisation,
   H(a)+0*G = H(a), range-proof rewind completeness and exclusiveness, Pedersen binding.
   [blinded_for ...] says the amount was blinded by the library's own sequence
   (AssetCommitment, ValueCommitment, NonceHash, RangeProof) for recipient key pair
   (rsk, R) with ephemeral pair (esk, E), for any value the range proof supports
   (RangeProof returned a proof), any script class, any Exp / MinBits. *)
From GE Require Import Lib.Bytes Model.Tx Model.Unblind Proofs.Unblind.
Open Scope N_scope.

(* unblinding with the recipient's private key returns exactly value, asset and both factors *)
Theorem C06_unblind_blind_key :
  forall G C (P : prims G C) pk, laws P pk ->
  forall value asset abf vbf script rsk esk R E exp mb bl,
  blinded_for P pk value asset abf vbf script rsk esk R E exp mb bl ->
  forall sp, unblind_with_key P (out_of_blinded bl script E sp) rsk = UOk (mk_unb value asset vbf abf).
Proof. exact @unblind_blind_key. Qed.
Print Assumptions C06_unblind_blind_key.

(* ... and so does unblinding with the ECDH nonce *)
Theorem C06_unblind_blind_nonce :
  forall G C (P : prims G C) pk, laws P pk ->
  forall value asset abf vbf script rsk esk R E exp mb bl,
  blinded_for P pk value asset abf vbf script rsk esk R E exp mb bl ->
  forall sp, unblind_with_nonce P (out_of_blinded bl script E sp) (bl_nonce bl) = UOk (mk_unb value asset vbf abf).
Proof. exact @unblind_blind_nonce. Qed.
Print Assumptions C06_unblind_blind_nonce.

(* the revealed data re-creates the output's commitments through AssetCommitment / ValueCommitment *)
Theorem C06_revealed_recreates_commitments :
  forall G C (P : prims G C) pk, laws P pk ->
  forall value asset abf vbf script rsk esk R E exp mb bl,
  blinded_for P pk value asset abf vbf script rsk esk R E exp mb bl ->
  forall sp u, unblind_with_key P (out_of_blinded bl script E sp) rsk = UOk u ->
  u = mk_unb value asset vbf abf /\
  asset_commitment P (u_asset u) (u_abf u) = Some (bl_asset bl) /\
  value_commitment P (u_value u) (bl_asset bl) (u_vbf u) = Some (bl_value bl).
Proof. exact @revealed_recreates. Qed.
Print Assumptions C06_revealed_recreates_commitments.

(* every other private key fails (an error: no amounts, no panic) *)
Theorem C06_wrong_key_fails :
  forall G C (P : prims G C) pk, laws P pk ->
  forall value asset abf vbf script rsk esk R E exp mb bl,
  blinded_for P pk value asset abf vbf script rsk esk R E exp mb bl ->
  forall sp k, k <> rsk -> unblind_with_key P (out_of_blinded bl script E sp) k = UErr.
Proof. exact @other_key_fails. Qed.
Print Assumptions C06_wrong_key_fails.

(* every other nonce fails *)
Theorem C06_wrong_nonce_fails :
  forall G C (P : prims G C) pk, laws P pk ->
  forall value asset abf vbf script rsk esk R E exp mb bl,
  blinded_for P pk value asset abf vbf script rsk esk R E exp mb bl ->
  forall sp n, ub_fit 32 n <> bl_nonce bl -> unblind_with_nonce P (out_of_blinded bl script E sp) n = UErr.
Proof. exact @wrong_nonce_fails_with_nonce. Qed.
Print Assumptions C06_wrong_nonce_fails.

(* after the script was altered every key and every nonce fail *)
Theorem C06_tampered_script_fails :
  forall G C (P : prims G C) pk, laws P pk ->
  forall value asset abf vbf script rsk esk R E exp mb bl,
  blinded_for P pk value asset abf vbf script rsk esk R E exp mb bl ->
  forall script' sp k n, script' <> script ->
  let o' := mk_out (bl_asset bl) (bl_value bl) script' E (bl_proof bl) sp in
  unblind_with_key P o' k = UErr /\ unblind_with_nonce P o' n = UErr.
Proof. exact @tampered_script_fails. Qed.
Print Assumptions C06_tampered_script_fails.

(* after the value commitment was altered *)
Theorem C06_tampered_value_commitment_fails :
  forall G C (P : prims G C) pk, laws P pk ->
  forall value asset abf vbf script rsk esk R E exp mb bl,
  blinded_for P pk value asset abf vbf script rsk esk R E exp mb bl ->
  forall vc' sp k n, vc' <> bl_value bl ->
  let o' := mk_out (bl_asset bl) vc' script E (bl_proof bl) sp in
  unblind_with_key P o' k = UErr /\ unblind_with_nonce P o' n = UErr.
Proof. exact @tampered_value_commitment_fails. Qed.
Print Assumptions C06_tampered_value_commitment_fails.

(* after the (33-byte) asset commitment was altered *)
Theorem C06_tampered_asset_commitment_fails :
  forall G C (P : prims G C) pk, laws P pk ->
  forall value asset abf vbf script rsk esk R E exp mb bl,
  blinded_for P pk value asset abf vbf script rsk esk R E exp mb bl ->
  forall ac' sp k n, length ac' = 33%nat -> ac' <> bl_asset bl ->
  let o' := mk_out ac' (bl_value bl) script E (bl_proof bl) sp in
  unblind_with_key P o' k = UErr /\ unblind_with_nonce P o' n = UErr.
Proof. exact @tampered_asset_commitment_fails. Qed.
Print Assumptions C06_tampered_asset_commitment_fails.

(* general form: any confidential output carrying this range proof, all other fields arbitrary
   (asset field of any length, any nonce field, any key): failure or exactly the original amounts *)
Theorem C06_never_other_amounts :
  forall G C (P : prims G C) pk, laws P pk ->
  forall value asset abf vbf script rsk esk R E exp mb bl,
  blinded_for P pk value asset abf vbf script rsk esk R E exp mb bl ->
  forall o' k u, o_rp o' = bl_proof bl -> is_conf_out o' = true ->
  unblind_with_key P o' k = UOk u -> u = mk_unb value asset vbf abf.
Proof. exact @never_other_amounts. Qed.
Print Assumptions C06_never_other_amounts.

(* whatever replaces the proof bytes, a result still carries the committed value and factor *)
Theorem C06_tampered_proof_never_other_value :
  forall G C (P : prims G C) pk, laws P pk ->
  forall value asset abf vbf script rsk esk R E exp mb bl,
  blinded_for P pk value asset abf vbf script rsk esk R E exp mb bl ->
  forall p' sp k u,
  unblind_with_key P (mk_out (bl_asset bl) (bl_value bl) script E p' sp) k = UOk u ->
  u_value u = value /\ u_vbf u = vbf.
Proof. exact @tampered_proof_never_other_value. Qed.
Print Assumptions C06_tampered_proof_never_other_value.

(* the fresh proof verifies against the written commitments and script *)
Theorem C06_fresh_proof_verifies :
  forall G C (P : prims G C) pk, laws P pk ->
  forall value asset abf vbf script rsk esk R E exp mb bl,
  blinded_for P pk value asset abf vbf script rsk esk R E exp mb bl ->
  verify_range_proof P (bl_value bl) (bl_asset bl) script (bl_proof bl) = true.
Proof.
  intros G C P pk L value asset abf vbf script rsk esk R E exp mb bl B.
  exact (signed_verifies P pk L (blinded_signed P pk L B)).
Qed.
Print Assumptions C06_fresh_proof_verifies.

(* explicit outputs: no key needed, zero blinders *)
Theorem C06_explicit_output :
  forall G C (P : prims G C) a s n sp k value,
  (length n <= 1)%nat -> value < two64 ->
  let o := mk_out (b8 1 :: a) (b8 1 :: be_enc 8 value) s n [] sp in
  unblind_with_key P o k = UOk (mk_unb value a ub_zero32 ub_zero32) /\
  unblind_with_nonce P o k = UOk (mk_unb value a ub_zero32 ub_zero32).
Proof. exact @unblind_explicit_output. Qed.
Print Assumptions C06_explicit_output.

(* issuance amounts (BlindIssuances / UnblindIssuance): ids from the issuance, zero asset blinder, raw
   32-byte id as generator seed, the blinding key itself as nonce.  Asset and token amount, each blinded
   under its own key, come back exactly *)
Theorem C06_unblind_issuance_blind :
  forall G C (P : prims G C) pk, laws P pk ->
  forall i s aid va vbfa ka ba,
  in_iss i = Some s -> calc_asset_hash i s = Some aid -> length vbfa = 32%nat ->
  blind_issuance_amount P va aid vbfa ka = Some ba ->
  iss_amount s = bl_value ba -> in_irp i = bl_proof ba ->
  forall tid vt vbft kt bt,
  calc_token_hash i s = Some tid -> length vbft = 32%nat ->
  blind_issuance_amount P vt tid vbft kt = Some bt ->
  iss_token s = bl_value bt -> in_inrp i = bl_proof bt ->
  forall rest,
  unblind_issuance P i (ka :: kt :: rest) =
    UOk (mk_unb va aid vbfa ub_zero32, Some (mk_unb vt tid vbft ub_zero32)).
Proof. exact @unblind_issuance_blind. Qed.
Print Assumptions C06_unblind_issuance_blind.

(* the same when the issuance has no token amount: any second key *)
Theorem C06_unblind_issuance_blind_asset_only :
  forall G C (P : prims G C) pk, laws P pk ->
  forall i s aid va vbfa ka ba,
  in_iss i = Some s -> calc_asset_hash i s = Some aid -> length vbfa = 32%nat ->
  blind_issuance_amount P va aid vbfa ka = Some ba ->
  iss_amount s = bl_value ba -> in_irp i = bl_proof ba ->
  forall k1 rest, has_token_amount s = false ->
  unblind_issuance P i (ka :: k1 :: rest) = UOk (mk_unb va aid vbfa ub_zero32, None).
Proof. exact @unblind_issuance_blind_asset_only. Qed.
Print Assumptions C06_unblind_issuance_blind_asset_only.

(* the revealed issuance amount re-creates the amount commitment of the input *)
Theorem C06_issuance_recreates_commitment :
  forall G C (P : prims G C) pk, laws P pk ->
  forall s aid va vbfa ka ba,
  length vbfa = 32%nat ->
  blind_issuance_amount P va aid vbfa ka = Some ba -> iss_amount s = bl_value ba ->
  asset_commitment P aid ub_zero32 = Some (bl_asset ba) /\
  value_commitment P va (bl_asset ba) vbfa = Some (iss_amount s).
Proof.
  intros G C P pk L s aid va vbfa ka ba Hvbfa Hba Hamount. rewrite Hamount.
  exact (signed_recreates P pk L (blind_issuance_amount_signed P pk L Hvbfa Hba)).
Qed.
Print Assumptions C06_issuance_recreates_commitment.

(* a first key other than the asset blinding key (compared as 32-byte nonces) fails, whatever follows *)
Theorem C06_issuance_wrong_asset_key_fails :
  forall G C (P : prims G C) pk, laws P pk ->
  forall i s aid va vbfa ka ba,
  in_iss i = Some s -> calc_asset_hash i s = Some aid -> length vbfa = 32%nat ->
  blind_issuance_amount P va aid vbfa ka = Some ba -> in_irp i = bl_proof ba ->
  forall k0 keys, ub_fit 32 k0 <> ub_fit 32 ka -> unblind_issuance P i (k0 :: keys) = UErr.
Proof. exact @issuance_wrong_asset_key_fails. Qed.
Print Assumptions C06_issuance_wrong_asset_key_fails.

(* ... and so does a second key other than the token blinding key *)
Theorem C06_issuance_wrong_token_key_fails :
  forall G C (P : prims G C) pk, laws P pk ->
  forall i s aid va vbfa ka ba,
  in_iss i = Some s -> calc_asset_hash i s = Some aid -> length vbfa = 32%nat ->
  blind_issuance_amount P va aid vbfa ka = Some ba ->
  iss_amount s = bl_value ba -> in_irp i = bl_proof ba ->
  forall tid vt vbft kt bt,
  calc_token_hash i s = Some tid -> length vbft = 32%nat ->
  blind_issuance_amount P vt tid vbft kt = Some bt ->
  iss_token s = bl_value bt -> in_inrp i = bl_proof bt ->
  forall k1 rest, ub_fit 32 k1 <> ub_fit 32 kt -> unblind_issuance P i (ka :: k1 :: rest) = UErr.
Proof. exact @issuance_wrong_token_key_fails. Qed.
Print Assumptions C06_issuance_wrong_token_key_fails.

(* an input carrying the proof with another amount commitment fails for every key list *)
Theorem C06_issuance_tampered_amount_fails :
  forall G C (P : prims G C) pk, laws P pk ->
  forall i s aid va vbfa ka ba,
  calc_asset_hash i s = Some aid -> length vbfa = 32%nat ->
  blind_issuance_amount P va aid vbfa ka = Some ba ->
  forall i' s' keys,
  in_iss i' = Some s' -> in_irp i' = bl_proof ba -> iss_amount s' <> bl_value ba ->
  unblind_issuance P i' keys = UErr.
Proof. exact @issuance_tampered_amount_fails. Qed.
Print Assumptions C06_issuance_tampered_amount_fails.

(* any input carrying this issuance range proof (other prevout, entropy, amounts, keys):
   failure or the original value and factor *)
Theorem C06_issuance_never_other_amount :
  forall G C (P : prims G C) pk, laws P pk ->
  forall aid va vbfa ka ba i' keys ua' ut',
  length aid = 32%nat -> length vbfa = 32%nat ->
  blind_issuance_amount P va aid vbfa ka = Some ba ->
  in_irp i' = bl_proof ba ->
  unblind_issuance P i' keys = UOk (ua', ut') -> u_value ua' = va /\ u_vbf ua' = vbfa.
Proof. exact @issuance_never_other_amount. Qed.
Print Assumptions C06_issuance_never_other_amount.

(* one generator instance over any history of UnblindInputs calls (zkp_generator.go): a generator keeps
   no memory of packets, the k-th answer is the function of the k-th packet and of the keys the
   constructor stored *)
Theorem C06_generator_history_pointwise :
  forall G C (P : prims G C) st h,
  gen_run P st h = (st, map (fun p => unblind_inputs P st (fst p) (snd p)) h).
Proof. exact @gen_run_pointwise. Qed.
Print Assumptions C06_generator_history_pointwise.

(* after ANY history (same outpoint or not), a packet whose prevout is a library-blinded output
   is unblinded to exactly what that prevout holds (blinding-keys generator: the recipient key
   is the first of the list that is the recipient's; master-key generator: the key derived from
   the script is the recipient's) *)
Theorem C06_history_then_honest :
  forall G C (P : prims G C) pk, laws P pk ->
  forall value asset abf vbf script rsk esk R E exp mb bl,
  blinded_for P pk value asset abf vbf script rsk esk R E exp mb bl ->
  forall gk h sp idxs, reaches gk script rsk -> idxs = [] \/ idxs = [0] ->
  snd (gen_step P (fst (gen_run P gk h)) ([out_of_blinded bl script E sp], idxs)) =
    UOk [mk_owned 0 value asset vbf abf].
Proof. exact @history_then_honest. Qed.
Print Assumptions C06_history_then_honest.

(* after ANY history, a prevout with an altered script or value commitment fails, whatever keys: the script ... *)
Theorem C06_history_then_tampered_script :
  forall G C (P : prims G C) pk, laws P pk ->
  forall value asset abf vbf script rsk esk R E exp mb bl,
  blinded_for P pk value asset abf vbf script rsk esk R E exp mb bl ->
  forall gk h script' sp idxs, script' <> script -> idxs = [] \/ idxs = [0] ->
  snd (gen_step P (fst (gen_run P gk h))
         ([mk_out (bl_asset bl) (bl_value bl) script' E (bl_proof bl) sp], idxs)) = UErr.
Proof. exact @history_then_tampered_script. Qed.
Print Assumptions C06_history_then_tampered_script.

(* ... the value commitment *)
Theorem C06_history_then_tampered_value_commitment :
  forall G C (P : prims G C) pk, laws P pk ->
  forall value asset abf vbf script rsk esk R E exp mb bl,
  blinded_for P pk value asset abf vbf script rsk esk R E exp mb bl ->
  forall gk h vc' sp idxs, vc' <> bl_value bl -> idxs = [] \/ idxs = [0] ->
  snd (gen_step P (fst (gen_run P gk h))
         ([mk_out (bl_asset bl) vc' script E (bl_proof bl) sp], idxs)) = UErr.
Proof. exact @history_then_tampered_value_commitment. Qed.
Print Assumptions C06_history_then_tampered_value_commitment.

(* the laws are satisfiable (and the theorems' hypotheses too: ex_* Examples in Proofs/Unblind.v) *)
Theorem C06_laws_satisfiable : laws toy toy_pk.
Proof. exact toy_laws. Qed.
Print Assumptions C06_laws_satisfiable.
