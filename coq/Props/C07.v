(* Props/C07.v — PSET v2 encoding: what ser_pset writes for a well-formed packet parses back to the
   packet (normal form), serialization is total and a function of the abstract packet, unknown and
   proprietary entries keep kind, key and value; every accepted encoding is well formed under pset_ext. *)
From GE Require Import Lib.Bytes Lib.Varint Model.Tx Model.PsetV2 Proofs.PsetV2 Proofs.PsetV2Ex Proofs.PsetV2Inv.
Open Scope N_scope.

(* every well-formed packet (every optional field independently present or absent, any number of
   inputs and outputs, pre-image maps of any size, proprietary entries of any identifier, whatever
   the external validators answer) serializes, and its bytes followed by anything parse back to the
   packet in normal form (maps in key order, empty Identifier = "pset", all-zero Modifiable = absent) *)
Theorem C07_pset_parse_ser : forall pk der xo canon p,
  wf_pset pk der xo canon p = true ->
  exists bs, ser_pset p = ROk bs /\ forall rest, parse_pset pk der xo canon (bs ++ rest) = ROk (norm_pset p).
Proof. exact pset_parse_ser. Qed.
Print Assumptions C07_pset_parse_ser.

(* the generic field-table lemma behind it: any table whose decode labels are distinct one-byte keys *)
Theorem C07_section_roundtrip : forall pk der xo canon tbl sanity s,
  tbl_ok tbl = true -> wf_sec pk der xo canon tbl sanity s = true ->
  exists bs, ser_section tbl s = ROk bs /\ bs <> [] /\
    forall rest, parse_section pk der xo canon tbl sanity (bs ++ rest) = ROk (norm_sec tbl s, rest).
Proof. exact section_roundtrip. Qed.
Print Assumptions C07_section_roundtrip.

(* the hypotheses are satisfiable: a packet using fields of every kind *)
Theorem C07_wf_nonvacuous : wf_pset o_true o_true o_true o_id ex_pset = true.
Proof. exact ex_pset_wf. Qed.
Print Assumptions C07_wf_nonvacuous.
(* packets on the boundary of the domain are well formed and round-trip (rt_check p: wf_pset p, and
   ser_pset p parses to a packet that, like norm_pset p, serializes to the same bytes): height
   locktime alone and with a time locktime, peg-in value, a two-entry pre-image map in either
   listing order, proprietary entries of a foreign, the pset and the empty identifier, a stream
   with 253 inputs (count_check: parses to 253 well-formed inputs and re-serializes to itself), a
   foreign proprietary pair read from a stream and written back, a derivation with an empty path,
   a 44-byte witness UTXO *)
Theorem C07_repaired_witnesses_roundtrip :
  rt_check ex_height = true /\ rt_check ex_both = true /\ rt_check ex_pegin = true /\
  rt_check ex_map12 = true /\ rt_check ex_map21 = true /\ rt_check ex_foreign = true /\
  count_check ex_stream_253 = true /\ foreign_kept_check = true /\
  rt_check ex_empty_path = true /\ rt_check ex_short_utxo = true.
Proof.
  exact (conj ex_height_rt (conj ex_both_rt (conj ex_pegin_rt (conj ex_map12_rt (conj ex_map21_rt
        (conj ex_foreign_rt (conj ex_count_253 (conj ex_foreign_kept (conj ex_empty_path_rt ex_short_utxo_rt))))))))). 
Qed.
Print Assumptions C07_repaired_witnesses_roundtrip.

(* serialization never fails, and it is a function of the abstract packet: packets that differ only
   in the order in which their pre-image maps are listed give the same bytes *)
Theorem C07_ser_total : forall p, exists bs, ser_pset p = ROk bs.
Proof.
  intro p. unfold ser_pset. destruct (ser_section_total global_tbl (p_global p)) as (g & ->).
  destruct (ser_secs_total input_tbl (p_ins p)) as (i & ->). destruct (ser_secs_total output_tbl (p_outs p)) as (o & ->).
  cbn [cbind]. eexists; reflexivity.
Qed.
Print Assumptions C07_ser_total.
Theorem C07_ser_deterministic : forall p q, pset_equiv p q -> maps_distinct p -> ser_pset p = ser_pset q.
Proof. exact ser_deterministic. Qed.
Print Assumptions C07_ser_deterministic.

(* kinds: unknown and proprietary entries (of any identifier) keep list, order, key and value *)
Theorem C07_kinds_preserved : forall pk der xo canon p, wf_pset pk der xo canon p = true ->
  exists bs p', ser_pset p = ROk bs /\ parse_pset pk der xo canon bs = ROk p' /\
    s_props (p_global p') = map norm_pd (s_props (p_global p)) /\ s_unks (p_global p') = s_unks (p_global p) /\
    map s_props (p_ins p') = map (fun s => map norm_pd (s_props s)) (p_ins p) /\ map s_unks (p_ins p') = map s_unks (p_ins p) /\
    map s_props (p_outs p') = map (fun s => map norm_pd (s_props s)) (p_outs p) /\ map s_unks (p_outs p') = map s_unks (p_outs p).
Proof. exact kinds_preserved. Qed.
Print Assumptions C07_kinds_preserved.

(* second clause: parse, serialize, parse is the identity (up to the normal form) on EVERY accepted
   encoding under the premise pset_ext, which asks only that in each input (i) a witness UTXO that is
   present has the 44 canonical bytes readTxOut asks for and (ii) the peg-in transaction (decoded by
   btcd wire.MsgTx, an oracle without laws here) re-decodes to itself; the non-witness UTXO needs no
   premise (C01 theorems, any flag byte).  Premise (i) cannot be dropped: a 36-byte witness UTXO (null
   value) followed by eight stray bytes is accepted and its re-serialization is rejected. *)
Theorem C07_parsed_wf : forall pk der xo canon bs p,
  parse_pset pk der xo canon bs = ROk p -> pset_ext pk canon p -> wf_pset pk der xo canon p = true.
Proof. exact parsed_wf. Qed.
Print Assumptions C07_parsed_wf.
Theorem C07_pset_parse_ser_parse : forall pk der xo canon bs p,
  parse_pset pk der xo canon bs = ROk p -> pset_ext pk canon p ->
  exists bs', ser_pset p = ROk bs' /\ parse_pset pk der xo canon bs' = ROk (norm_pset p).
Proof. exact pset_parse_ser_parse. Qed.
Print Assumptions C07_pset_parse_ser_parse.
Theorem C07_witness_utxo_trailing_refuted :
  exists p bs', parse_pset o_true o_true o_true o_id ex_stream_utxo_trailing = ROk p /\ ser_pset p = ROk bs' /\
                parse_pset o_true o_true o_true o_id bs' = RErr.
Proof.
  do 2 eexists. split; [vm_compute; reflexivity|]. split; [vm_compute; reflexivity|]. vm_compute. reflexivity.
Qed.
Print Assumptions C07_witness_utxo_trailing_refuted.
(* the two UTXO fields against that premise.  s_wf pk canon k al b = true says that the value b of a
   field of kind k is in the round-trip domain: what the field writes for b decodes back to b.
   Every non-witness UTXO the transaction decoder returns, from any bytes and any flag byte, is. *)
Theorem C07_nonwitness_utxo_stable : forall pk canon v t r,
  parse_tx v = Some (t, r) -> lenN v < two64 -> s_wf pk canon KTx false (ser_full t) = true.
Proof. intros pk canon. exact (tx_stable_any pk canon false). Qed.
Print Assumptions C07_nonwitness_utxo_stable.
(* ... and so is every witness UTXO readTxOut returns whose canonical encoding b has the 44 bytes
   (premise (i) above) *)
Theorem C07_witness_utxo_stable : forall pk canon v b,
  read_txout v = Some b -> (44 <= length b)%nat -> lenN v < two64 -> s_wf pk canon KTxOut false b = true.
Proof. intros pk canon. exact (txout_stable pk canon false). Qed.
Print Assumptions C07_witness_utxo_stable.

(* the parser is total and never panics (fix 78a1990) *)
Theorem C07_parse_no_panic : forall pk der xo canon bs, parse_pset pk der xo canon bs <> RPanic.
Proof. exact parse_pset_no_panic. Qed.
Print Assumptions C07_parse_no_panic.

(* the tables and constants of the model are those of today's Go source; emit and decode tables agree *)
Theorem C07_tables_tied : pset_tables_tied.
Proof. unfold pset_tables_tied. repeat split; vm_compute; reflexivity. Qed.
Print Assumptions C07_tables_tied.
