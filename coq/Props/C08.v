(* Props/C08.v — PSET v0 encoding: what ToHex/ToBase64 write for a packet in the wire domain parses
   back to the packet up to the normal form v0_norm (identity on canonical packets and on what the
   roles build); every accepted encoding decodes into the wire domain and parse-serialize-parse
   lands on the normal form; the packets where the literal identity fails. *)
From GE Require Import Lib.Bytes Lib.Varint Model.Tx Model.PsetV0 Proofs.PsetV0.
From Coq Require Import Permutation.
Open Scope N_scope.

(* clause 1: for every packet inside the wire domain, what ToHex/ToBase64 write is accepted by the
   parsers (whatever follows it) and yields the packet up to v0_norm; valid_pk / valid_sig are the
   external btcec predicates, arbitrary here *)
Theorem C08_v0_parse_ser : forall valid_pk valid_sig p extra,
  v0_wf valid_pk valid_sig p = true ->
  exists bs, v0_ser p = Some bs /\ v0_parse valid_pk valid_sig (bs ++ extra) = Some (v0_norm p).
Proof. exact v0_parse_ser. Qed.
Print Assumptions C08_v0_parse_ser.

(* the hop is the identity on packets in canonical form (sorted signatures and derivations, derived
   tx flags, finalized inputs cleared, proofs only on confidential-nonce UTXOs) *)
Theorem C08_v0_canon_identity : forall p, v0_canon p = true -> v0_norm p = p.
Proof. exact v0_canon_norm. Qed.
Print Assumptions C08_v0_canon_identity.

(* per-field preservation: unsigned tx, UTXOs with proofs, partial signatures, sighash type (any
   uint32, so including the Elements 0x40 bit), scripts, derivations, final scripts, unknowns *)
Theorem C08_v0_fields_preserved : forall valid_pk valid_sig p,
  v0_wf valid_pk valid_sig p = true ->
  exists bs q, v0_ser p = Some bs /\ v0_parse valid_pk valid_sig bs = Some q /\
    v0_tx_kept (vp_tx p) (vp_tx q) /\ Forall2 v0_in_kept (vp_ins p) (vp_ins q) /\
    Forall2 v0_out_kept (vp_outs p) (vp_outs q).
Proof.
  intros valid_pk valid_sig p W.
  destruct (v0_parse_ser valid_pk valid_sig p [] W) as [bs [S R]]. rewrite app_nil_r in R.
  exists bs, (v0_norm p). repeat split; try assumption.
  - apply norm_tx_kept.
  - apply Forall2_map_r. intros i _. apply norm_in_kept.
  - apply Forall2_map_r. intros o _. apply norm_out_kept.
Qed.
Print Assumptions C08_v0_fields_preserved.

(* clause 1 for what the roles build: creator, then updater/signer operations on non-finalized inputs
   with arguments inside the wire domain, then finalizer: the round trip loses nothing (only the
   order of signatures/derivations and the derived transaction flag may change) *)
Theorem C08_v0_reach_roundtrip : forall valid_pk valid_sig p,
  v0_reach valid_pk valid_sig p ->
  exists bs q, v0_ser p = Some bs /\ v0_parse valid_pk valid_sig bs = Some q /\
    v0_tx_kept (vp_tx p) (vp_tx q) /\ Forall2 v0_in_same (vp_ins p) (vp_ins q) /\
    Forall2 v0_out_kept (vp_outs p) (vp_outs q) /\ vp_unk q = vp_unk p.
Proof. exact v0_reach_roundtrip. Qed.
Print Assumptions C08_v0_reach_roundtrip.

(* every accepted encoding decodes into the wire domain *)
Theorem C08_v0_parse_wf : forall valid_pk valid_sig bs p,
  v0_parse valid_pk valid_sig bs = Some p -> v0_wf_core valid_pk valid_sig p = true.
Proof. exact v0_parse_wf. Qed.
Print Assumptions C08_v0_parse_wf.

(* clause 2 as far as the code satisfies it: parse, serialize, parse lands on the v0_norm image.
   The one hypothesis left is the 44-byte floor of readTxOut on what is re-serialized; it holds for
   every witness UTXO whose value is not the one-byte null value (C08_v0_floor_only_null_value) *)
Theorem C08_v0_parse_ser_parse_partial : forall valid_pk valid_sig bs p,
  v0_parse valid_pk valid_sig bs = Some p -> v0_wufloor_all p = true ->
  exists bs', v0_ser p = Some bs' /\ v0_parse valid_pk valid_sig bs' = Some (v0_norm p).
Proof. exact v0_parse_ser_parse. Qed.
Print Assumptions C08_v0_parse_ser_parse_partial.

(* ... and it is the identity when the first parse is canonical *)
Theorem C08_v0_parse_ser_parse_identity : forall valid_pk valid_sig bs p,
  v0_parse valid_pk valid_sig bs = Some p -> v0_wufloor_all p = true -> v0_canon p = true ->
  exists bs', v0_ser p = Some bs' /\ v0_parse valid_pk valid_sig bs' = Some p.
Proof.
  intros valid_pk valid_sig bs p P L C.
  destruct (v0_parse_ser_parse valid_pk valid_sig bs p P L) as [bs' [S R]].
  rewrite (v0_canon_norm p C) in R. exists bs'. split; assumption.
Qed.
Print Assumptions C08_v0_parse_ser_parse_identity.

(* the floor hypothesis v0_wufloor holds for every output whose value does not start with the
   null-value prefix 0x00: such an output encodes to at least 44 bytes *)
Theorem C08_v0_floor_only_null_value : forall o, wf_out o = true ->
  match o_value o with v :: _ => negb (n8 v =? 0) | [] => false end = true -> v0_wufloor o = true.
Proof. exact v0_wufloor_nonnull. Qed.
Print Assumptions C08_v0_floor_only_null_value.

(* positive examples (fixes 88a2d94, 2b1b006).  A stream with a global unknown pair: parse,
   serialize, parse is the identity, the pair is written back *)
Theorem C08_v0_psp_global_unknown :
  v0_psp_holds (v0_stream [[([x00], ser_full ex_tx0); ([xfc; x01], [x02])]]).
Proof. exact v0_psp_global_unknown. Qed.
Print Assumptions C08_v0_psp_global_unknown.

(* a 45-byte witness-UTXO value (44 meaningful bytes and one ignored byte) re-serializes to the
   44 bytes readTxOut accepts *)
Theorem C08_v0_psp_wu44 :
  v0_psp_holds (v0_stream [[([x00], ser_full ex_tx1)];
                           [([x01], (x01 :: ex_h32) ++ (x01 :: repeat x00 8) ++ [x00; x00] ++ [xff])]]).
Proof. exact v0_psp_wu44. Qed.
Print Assumptions C08_v0_psp_wu44.

(* a derivation that is a fingerprint with an empty path round-trips *)
Theorem C08_v0_roundtrip_empty_path :
  v0_wf ex_yes ex_yes ex_p_emptypath = true /\
  exists bs, v0_ser ex_p_emptypath = Some bs /\ v0_parse ex_yes ex_yes bs = Some ex_p_emptypath.
Proof. exact v0_roundtrip_empty_path. Qed.
Print Assumptions C08_v0_roundtrip_empty_path.

(* a packet with global unknowns (any key type, duplicates included) round-trips with them *)
Theorem C08_v0_roundtrip_global_unknowns :
  v0_wf ex_yes ex_yes ex_p_gunk = true /\
  exists bs, v0_ser ex_p_gunk = Some bs /\ v0_parse ex_yes ex_yes bs = Some ex_p_gunk.
Proof. exact v0_roundtrip_global_unknowns. Qed.
Print Assumptions C08_v0_roundtrip_global_unknowns.

(* where the identity fails on the code as it is (known findings / stated exclusion).  A final
   script next to signing fields: the signing fields are not written, so the second parse differs *)
Theorem C08_v0_psp_refuted_finalized :
  v0_psp_fails (v0_stream [[([x00], ser_full ex_tx1)]; [([x04], [x51]); ([x07], [x00])]]).
Proof. exact v0_psp_refuted_finalized. Qed.
Print Assumptions C08_v0_psp_refuted_finalized.

(* clause 1 with identical fields fails inside the wire domain: a witness UTXO with a null nonce
   that carries proofs is well formed, serializes and parses, and comes back without its range
   proof (readTxOut reads proofs only behind a confidential nonce) *)
Theorem C08_v0_roundtrip_refuted_null_nonce_proofs :
  v0_wf ex_yes ex_yes ex_p_nullnonce = true /\
  exists bs q, v0_ser ex_p_nullnonce = Some bs /\ v0_parse ex_yes ex_yes bs = Some q /\
    option_map o_rp (vi_wu (hd v0_in_empty (vp_ins q))) = Some [] /\
    option_map o_rp (vi_wu (hd v0_in_empty (vp_ins ex_p_nullnonce))) = Some [x01; x02; x03].
Proof.
  split; [vm_compute; reflexivity|]. eexists. eexists. split; [vm_compute; reflexivity|].
  split; [vm_compute; reflexivity|]. split; vm_compute; reflexivity.
Qed.
Print Assumptions C08_v0_roundtrip_refuted_null_nonce_proofs.

(* the floor hypothesis of C08_v0_parse_ser_parse_partial is needed: a 36-byte witness UTXO with
   the one-byte null value, padded to 44 bytes, is accepted; re-serialized (36 bytes) it is rejected *)
Theorem C08_v0_psp_refuted_null_value_floor :
  v0_psp_fails (v0_stream [[([x00], ser_full ex_tx1)];
                           [([x01], (x01 :: ex_h32) ++ [x00; x00; x00] ++ repeat xff 8)]]).
Proof. exact v0_psp_refuted_null_value_floor. Qed.
Print Assumptions C08_v0_psp_refuted_null_value_floor.

(* the section loop's fuel is never exhausted *)
Theorem C08_v0_section_fuel : forall (St : Type) (step : St -> bytes -> bytes -> option St) f1 f2 st bs,
  (length bs < f1)%nat -> (length bs < f2)%nat ->
  v0_p_section step f1 st bs = v0_p_section step f2 st bs.
Proof. intros St step f1. exact (v0_p_section_fuel step f1). Qed.
Print Assumptions C08_v0_section_fuel.

(* the magic bytes of the model are those of today's Go source *)
Theorem C08_v0_constants_tied : v0_consts_tied.
Proof. split; reflexivity. Qed.
Print Assumptions C08_v0_constants_tied.
