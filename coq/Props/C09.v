(* Props/C09.v — sign, finalize, extract: for each script template the final script / witness the
   finalizer builds satisfies the spent script under the evaluator `satisfies` and an abstract
   signature check chk; a successful Finalize had the required signatures of the declared hash
   type; Extract agrees with the signed-over transaction outside input scripts and witnesses.
   Common hypotheses of the template theorems: sig_typed (the signature ends in the declared
   hash-type byte), wf_key (33 or 65 bytes), pushable (2..520 bytes). *)
From Coq Require Import Sorting.Sorted Sorting.Permutation.
From GE Require Import Lib.Bytes Lib.Varint Lib.Sha256 Model.Ripemd160 Model.Tx Model.TxHash Model.Spend Proofs.Spend.
Open Scope N_scope.

(* P2PKH: the scriptSig built from the single partial signature satisfies the spent script (v0 and
   v2, every hash type, any signature checker chk that accepts the signature for the key) *)
Theorem C09_finalized_satisfies_p2pkh :
  forall (chk : salgo -> bytes -> bytes -> bytes -> bool) (commit : bytes -> bytes -> bytes -> bool)
    (v2 : bool) (i : pin) (pk sg : bytes),
    pi_sigs i = [(pk, sg)] ->
    has_f v2 (pi_redeem i) = false ->
    sig_typed (expected_sht i) sg ->
    wf_key pk ->
    pushable sg ->
    chk ALegacy (p2pkh_script (hash160 pk)) pk sg = true ->
    exists ss : bytes,
    legacy_sigscript v2 i = OcOk ss /\ satisfies chk commit (p2pkh_script (hash160 pk)) ss [] = true.
Proof. exact p2pkh_final. Qed.
Print Assumptions C09_finalized_satisfies_p2pkh.

(* P2WPKH: the witness [signature; key], which is also what read_witness returns for the bytes written *)
Theorem C09_finalized_satisfies_p2wpkh :
  forall (chk : salgo -> bytes -> bytes -> bytes -> bool) (commit : bytes -> bytes -> bytes -> bool)
    (v2 : bool) (i : pin) (pk sg : bytes),
    pi_sigs i = [(pk, sg)] ->
    has_f v2 (pi_redeem i) = false ->
    has_f v2 (pi_wscript i) = false ->
    sig_typed (expected_sht i) sg ->
    wf_key pk ->
    pushable sg ->
    chk AWitV0 (p2pkh_script (hash160 pk)) pk sg = true ->
    witness_final v2 i = OcOk ([], ser_witness [sg; pk]) /\
    read_witness (ser_witness [sg; pk]) = Some [sg; pk] /\
    satisfies chk commit (p2wpkh_script (hash160 pk)) [] [sg; pk] = true.
Proof. exact p2wpkh_final. Qed.
Print Assumptions C09_finalized_satisfies_p2wpkh.

(* P2SH-P2WPKH: the same witness, and a scriptSig that pushes the redeem script *)
Theorem C09_finalized_satisfies_p2sh_p2wpkh :
  forall (chk : salgo -> bytes -> bytes -> bytes -> bool) (commit : bytes -> bytes -> bytes -> bool)
    (v2 : bool) (i : pin) (pk sg : bytes),
    pi_sigs i = [(pk, sg)] ->
    pi_redeem i = Some (p2wpkh_script (hash160 pk)) ->
    has_f v2 (pi_wscript i) = false ->
    sig_typed (expected_sht i) sg ->
    wf_key pk ->
    pushable sg ->
    chk AWitV0 (p2pkh_script (hash160 pk)) pk sg = true ->
    exists ss : bytes,
    witness_final v2 i = OcOk (ss, ser_witness [sg; pk]) /\
    nonempty ss = true /\
    read_witness (ser_witness [sg; pk]) = Some [sg; pk] /\
    satisfies chk commit (p2sh_script (hash160 (p2wpkh_script (hash160 pk)))) ss [sg; pk] = true.
Proof.
  intros chk commit v2 i pk sg Hs Hr Hw Ht Hk Hp Hc.
  destruct (p2wpkh_final chk commit v2 (set_redeem None i) pk sg Hs eq_refl Hw Ht Hk Hp Hc) as (Hf & Hrw & Hsat).
  destruct (nested_final chk commit v2 i _ _ _ Hr (native_p2wpkh _ (hash160_length pk)) Hf Hsat) as (ss & A & B & C).
  exists ss. auto.
Qed.
Print Assumptions C09_finalized_satisfies_p2sh_p2wpkh.

(* P2SH m-of-n multisig: every duplicate-free key set (ms_ok asks NoDup keys only; fix a3dd5d3),
   every m, every signing order (pks is any duplicate-free list of m signing keys, in the order
   they signed).  Two hypotheses on chk: it accepts sgf k for each signing key k, and it is
   EXCLUSIVE on the keys of the script: chk ... k (sgf k') = true -> k = k' (a signature is valid
   for one key of the script only; OP_CHECKMULTISIG's in-order matching needs it).  The redeem
   script must fit a push (520 bytes). *)
Theorem C09_finalized_satisfies_p2sh_multisig :
  forall (chk : salgo -> bytes -> bytes -> bytes -> bool) (commit : bytes -> bytes -> bytes -> bool)
    (v2 : bool) (i : pin) (m : N) (keys pks : list bytes) (sgf : bytes -> bytes),
    ms_ok m keys pks sgf ->
    pi_sigs i = ms_pairs sgf pks ->
    pi_redeem i = Some (multisig_script m keys) ->
    lenN (multisig_script m keys) <= 520 ->
    (forall k : bytes, In k pks -> sig_typed (expected_sht i) (sgf k)) ->
    (forall k : bytes, In k pks -> chk ALegacy (multisig_script m keys) k (sgf k) = true) ->
    (forall k k' : bytes,
    In k keys -> In k' keys -> chk ALegacy (multisig_script m keys) k (sgf k') = true -> k = k') ->
    exists ss : bytes,
    legacy_sigscript v2 i = OcOk ss /\
    satisfies chk commit (p2sh_script (hash160 (multisig_script m keys))) ss [] = true.
Proof. exact p2sh_ms_final. Qed.
Print Assumptions C09_finalized_satisfies_p2sh_multisig.

(* P2WSH m-of-n multisig: same hypotheses (acceptance of own signatures, exclusivity), witness
   [empty; signatures in key order; witness script] *)
Theorem C09_finalized_satisfies_p2wsh_multisig :
  forall (chk : salgo -> bytes -> bytes -> bytes -> bool) (commit : bytes -> bytes -> bytes -> bool)
    (v2 : bool) (i : pin) (m : N) (keys pks : list bytes) (sgf : bytes -> bytes),
    ms_ok m keys pks sgf ->
    pi_sigs i = ms_pairs sgf pks ->
    has_f v2 (pi_redeem i) = false ->
    pi_wscript i = Some (multisig_script m keys) ->
    (forall k : bytes, In k pks -> sig_typed (expected_sht i) (sgf k)) ->
    (forall k : bytes, In k pks -> chk AWitV0 (multisig_script m keys) k (sgf k) = true) ->
    (forall k k' : bytes,
    In k keys -> In k' keys -> chk AWitV0 (multisig_script m keys) k (sgf k') = true -> k = k') ->
    let w := [] :: ms_ordered sgf keys pks ++ [multisig_script m keys] in
    witness_final v2 i = OcOk ([], ser_witness w) /\
    read_witness (ser_witness w) = Some w /\
    satisfies chk commit (p2wsh_script (sha256 (multisig_script m keys))) [] w = true.
Proof. exact p2wsh_ms_final. Qed.
Print Assumptions C09_finalized_satisfies_p2wsh_multisig.

(* P2SH-P2WSH m-of-n multisig: same hypotheses; the scriptSig pushes the P2WSH program *)
Theorem C09_finalized_satisfies_p2sh_p2wsh_multisig :
  forall (chk : salgo -> bytes -> bytes -> bytes -> bool) (commit : bytes -> bytes -> bytes -> bool)
    (v2 : bool) (i : pin) (m : N) (keys pks : list bytes) (sgf : bytes -> bytes),
    ms_ok m keys pks sgf ->
    pi_sigs i = ms_pairs sgf pks ->
    pi_redeem i = Some (p2wsh_script (sha256 (multisig_script m keys))) ->
    pi_wscript i = Some (multisig_script m keys) ->
    (forall k : bytes, In k pks -> sig_typed (expected_sht i) (sgf k)) ->
    (forall k : bytes, In k pks -> chk AWitV0 (multisig_script m keys) k (sgf k) = true) ->
    (forall k k' : bytes,
    In k keys -> In k' keys -> chk AWitV0 (multisig_script m keys) k (sgf k') = true -> k = k') ->
    let w := [] :: ms_ordered sgf keys pks ++ [multisig_script m keys] in
    exists ss : bytes,
    witness_final v2 i = OcOk (ss, ser_witness w) /\
    nonempty ss = true /\
    read_witness (ser_witness w) = Some w /\
    satisfies chk commit (p2sh_script (hash160 (p2wsh_script (sha256 (multisig_script m keys))))) ss w =
    true.
Proof.
  intros chk commit v2 i m keys pks sgf Hok Hs Hr Hw Ht Hv Hex w.
  destruct (p2wsh_ms_final chk commit v2 (set_redeem None i) m keys pks sgf Hok Hs eq_refl Hw Ht Hv Hex) as (Hf & Hrw & Hsat).
  destruct (nested_final chk commit v2 i _ _ _ Hr (native_p2wsh _ (sha256_length _)) Hf Hsat) as (ss & A & B & C).
  exists ss. auto.
Qed.
Print Assumptions C09_finalized_satisfies_p2sh_p2wsh_multisig.

(* taproot key path (psetv2; fix 509b4c2: the signature carries the declared hash type, DEFAULT = ALL) *)
Theorem C09_finalized_satisfies_taproot_key :
  forall (chk : salgo -> bytes -> bytes -> bytes -> bool) (commit : bytes -> bytes -> bytes -> bool)
    (i : pin2) (q : list byte),
    is_final2 i = false ->
    nonempty (q_tapkeysig i) = true ->
    lenN (q_tapkeysig i) <= 65 ->
    tap_sig_ok (pi_sht (q_base i)) (q_tapkeysig i) = true ->
    length q = 32%nat ->
    chk ATapKey [] q (q_tapkeysig i) = true ->
    taproot_final i = OcOk (vector [q_tapkeysig i]) /\
    read_witness (vector [q_tapkeysig i]) = Some [q_tapkeysig i] /\
    satisfies chk commit (p2tr_script q) [] [q_tapkeysig i] = true.
Proof.
  intros chk commit i q Hf Hne Hl Hty Hq Hc. split; [|split].
  - unfold taproot_final. cbv zeta. rewrite Hf, Hne, Hty. reflexivity.
  - apply read_witness_ser; [repeat constructor; lia | cbn; lia].
  - rewrite satisfies_p2tr by exact Hq. exact Hc.
Qed.
Print Assumptions C09_finalized_satisfies_taproot_key.

(* taproot single-leaf script path (psetv2): leaf script <32-byte key> OP_CHECKSIG, one signature
   for that leaf; commit is the abstract control-block check (C16), assumed to hold for the leaf *)
Theorem C09_finalized_satisfies_taproot_leaf :
  forall (chk : salgo -> bytes -> bytes -> bytes -> bool) (commit : bytes -> bytes -> bytes -> bool)
    (i : pin2) (q : list byte) (l : tleaf) (pk sg : bytes),
    is_final2 i = false ->
    q_tapkeysig i = [] ->
    q_tapleafs i = [l] ->
    tl_script l = tapleaf_checksig_script pk ->
    length pk = 32%nat ->
    q_tapsigs i = [{| ts_pk := pk; ts_sig := sg; ts_leaf := tapleaf_hash l |}] ->
    tap_sig_ok (pi_sht (q_base i)) sg = true ->
    lenN sg <= 65 ->
    lenN (tl_cb l) <= 10000 ->
    length q = 32%nat ->
    commit (tl_cb l) (tl_script l) q = true ->
    chk ATapLeaf (tl_script l) pk sg = true ->
    let w := [sg; tl_script l; tl_cb l] in
    taproot_final i = OcOk (vector w) /\
    read_witness (vector w) = Some w /\ satisfies chk commit (p2tr_script q) [] w = true.
Proof. exact tap_leaf_final. Qed.
Print Assumptions C09_finalized_satisfies_taproot_leaf.

(* a successful taproot finalization used a key signature, or at least one signature made for the
   finalized leaf, all of the declared hash type: too few signatures / a contradictory hash type
   never finalize (fix 509b4c2) *)
Theorem C09_taproot_finalize_requires :
  forall (p : pset2) (k : nat) (p' : pset2) (i : pin2),
    finalize2 p k = (p', StOk) ->
    nth_error (q_ins p) k = Some i ->
    osome (pi_wu (q_base i)) && is_taproot i = true -> taproot_requires i.
Proof.
  unfold finalize2. intros p k p' i H Hi Ht. rewrite Hi, Ht in H.
  destruct (taproot_final i) as [w| |] eqn:E; try discriminate. exact (taproot_final_inv i w E).
Qed.
Print Assumptions C09_taproot_finalize_requires.

(* any permutation of the signing order gives the same ordered signatures *)
Theorem C09_signing_order_irrelevant :
  forall (m : N) (keys pks pks' : list bytes) (sgf : bytes -> bytes),
    Permutation pks pks' ->
    ms_ok m keys pks sgf ->
    extract_key_order (multisig_script m keys) (ms_pairs sgf pks') =
    extract_key_order (multisig_script m keys) (ms_pairs sgf pks).
Proof.
  intros m keys pks pks' sgf Hp Hok. rewrite (ms_order _ _ _ _ Hok), (ms_order _ _ _ _ (ms_ok_perm _ _ _ _ _ Hp Hok)).
  unfold ms_ordered. do 2 f_equal. apply filter_ext. intro k. symmetry. apply memb_perm, Hp.
Qed.
Print Assumptions C09_signing_order_irrelevant.

(* the v0 serialize/parse hop only permutes the partial signatures *)
Theorem C09_hop_is_a_permutation :
  forall l : list (bytes * bytes), Permutation (sort_pk l) l.
Proof.
  (* sort_pk is fold_right insert_pk [] written out *)
  exact (fold_insert_perm insert_pk insert_pk_perm).
Qed.
Print Assumptions C09_hop_is_a_permutation.

(* a successful v0 Finalize had exactly the required signatures, all of the declared hash type *)
Theorem C09_finalize_requires_v0 :
  forall (p : pset0) (k : nat) (p' : pset0) (i : pin),
    finalize0 p k = (p', StOk) ->
    nth_error (p0_ins p) k = Some i ->
    enough_sigs (deciding_script i) false (pi_sigs i) /\
    (forall pk sg : bytes, In (pk, sg) (pi_sigs i) -> sig_typed (expected_sht i) sg).
Proof. exact finalize0_requires. Qed.
Print Assumptions C09_finalize_requires_v0.

(* same for psetv2 (ECDSA templates) *)
Theorem C09_finalize_requires_v2 :
  forall (p : pset2) (k : nat) (p' : pset2) (i : pin2),
    finalize2 p k = (p', StOk) ->
    nth_error (q_ins p) k = Some i ->
    osome (pi_wu (q_base i)) && is_taproot i = false ->
    enough_sigs (deciding_script (q_base i)) true (pi_sigs (q_base i)) /\
    (forall pk sg : bytes, In (pk, sg) (pi_sigs (q_base i)) -> sig_typed (expected_sht (q_base i)) sg).
Proof. exact finalize2_requires. Qed.
Print Assumptions C09_finalize_requires_v2.

(* contrapositives.  Fewer partial signatures than the m of the deciding multisig script: Finalize
   does not succeed *)
Theorem C09_too_few_sigs_never_finalize_v0 :
  forall (p : pset0) (k : nat) (i : pin) (n m : N),
    nth_error (p0_ins p) k = Some i ->
    has_f false (deciding_script i) = true ->
    ms_stats (obytes (deciding_script i)) = Some (n, m) ->
    lenL (pi_sigs i) < m -> snd (finalize0 p k) <> StOk.
Proof.
  intros p k i n m Hi Hh Hms Hlt. apply never_ok. intros p' E.
  exact (too_few_sigs _ _ _ _ _ Hh Hms Hlt (proj1 (finalize0_requires p k p' i E Hi))).
Qed.
Print Assumptions C09_too_few_sigs_never_finalize_v0.

(* no partial signature at all on a single-key input *)
Theorem C09_no_sigs_never_finalize_v0 :
  forall (p : pset0) (k : nat) (i : pin),
    nth_error (p0_ins p) k = Some i ->
    pi_sigs i = [] -> has_f false (deciding_script i) = false -> snd (finalize0 p k) <> StOk.
Proof.
  intros p k i Hi Hs Hh. apply never_ok. intros p' E.
  apply (no_sigs _ _ Hh). rewrite <- Hs. exact (proj1 (finalize0_requires p k p' i E Hi)).
Qed.
Print Assumptions C09_no_sigs_never_finalize_v0.

(* the whole byte is compared: a difference in the 0x80 or 0x40 bit alone refuses *)
Theorem C09_sighash_mismatch_never_finalizes_v0 :
  forall (p : pset0) (k : nat) (i : pin) (pk sg : bytes) (b : byte),
    nth_error (p0_ins p) k = Some i ->
    In (pk, sg) (pi_sigs i) ->
    last_byte sg = Some b -> n8 b <> expected_sht i -> snd (finalize0 p k) <> StOk.
Proof.
  intros p k i pk sg b Hi Hin Hl Hne. apply never_ok. intros p' E.
  exact (sighash_mismatch _ _ _ Hl Hne (proj2 (finalize0_requires p k p' i E Hi) pk sg Hin)).
Qed.
Print Assumptions C09_sighash_mismatch_never_finalizes_v0.

(* the same two refusals for psetv2 (ECDSA templates) *)
Theorem C09_too_few_sigs_never_finalize_v2 :
  forall (p : pset2) (k : nat) (i : pin2) (n m : N),
    nth_error (q_ins p) k = Some i ->
    osome (pi_wu (q_base i)) && is_taproot i = false ->
    has_f true (deciding_script (q_base i)) = true ->
    ms_stats (obytes (deciding_script (q_base i))) = Some (n, m) ->
    lenL (pi_sigs (q_base i)) < m -> snd (finalize2 p k) <> StOk.
Proof.
  intros p k i n m Hi Htp Hh Hms Hlt. apply never_ok. intros p' E.
  exact (too_few_sigs _ _ _ _ _ Hh Hms Hlt (proj1 (finalize2_requires p k p' i E Hi Htp))).
Qed.
Print Assumptions C09_too_few_sigs_never_finalize_v2.

Theorem C09_sighash_mismatch_never_finalizes_v2 :
  forall (p : pset2) (k : nat) (i : pin2) (pk sg : bytes) (b : byte),
    nth_error (q_ins p) k = Some i ->
    osome (pi_wu (q_base i)) && is_taproot i = false ->
    In (pk, sg) (pi_sigs (q_base i)) ->
    last_byte sg = Some b -> n8 b <> expected_sht (q_base i) -> snd (finalize2 p k) <> StOk.
Proof.
  intros p k i pk sg b Hi Htp Hin Hl Hne. apply never_ok. intros p' E.
  exact (sighash_mismatch _ _ _ Hl Hne (proj2 (finalize2_requires p k p' i E Hi Htp) pk sg Hin)).
Qed.
Print Assumptions C09_sighash_mismatch_never_finalizes_v2.

(* v0: the extracted transaction equals the unsigned transaction in every field other than input
   scripts and witness data (strip_tx); no hypothesis *)
Theorem C09_extract_eq_unsigned_modulo_scripts_v0 :
  forall (p : pset0) (t : tx), extract0 p = OcOk t -> strip_tx t = strip_tx (p0_tx p).
Proof.
  intros p t H. apply extract0_inv in H as (ins & E & ->).
  unfold strip_tx. cbn [t_version t_flag t_locktime t_ins t_outs].
  rewrite (extract_ins_strip _ _ _ E). reflexivity.
Qed.
Print Assumptions C09_extract_eq_unsigned_modulo_scripts_v0.

(* input k of the extracted transaction carries the final script and decoded final witness of section k *)
Theorem C09_extract_input_v0 :
  forall (p : pset0) (t : tx) (k : nat) (ti : txin) (i : pin),
    extract0 p = OcOk t ->
    nth_error (t_ins (p0_tx p)) k = Some ti ->
    nth_error (p0_ins p) k = Some i ->
    exists ti' : txin, nth_error (t_ins t) k = Some ti' /\ set_in_final ti i = Some ti'.
Proof.
  intros p t k ti i H. apply extract0_inv in H as (ins & E & ->). exact (extract_ins_nth _ _ _ _ _ _ E).
Qed.
Print Assumptions C09_extract_input_v0.

(* the signature checks over the extracted transaction are those over the unsigned transaction.
   The digest is abstract; the HYPOTHESIS is its frame: it depends on the transaction through
   strip_tx only (no signature hash covers input scripts or witness data of the transaction signed) *)
Theorem C09_extracted_checks_as_signed_v0 :
  forall (verify : bytes -> bytes -> bytes -> bool)
    (digest : tx -> salgo -> N -> nat -> bytes -> bytes -> bytes),
    (forall t t' : tx, strip_tx t = strip_tx t' -> digest t = digest t') ->
    forall (p : pset0) (t : tx) (k : nat) (amount : bytes),
    extract0 p = OcOk t -> chk_dig verify digest t k amount = chk_dig verify digest (p0_tx p) k amount.
Proof.
  intros verify digest Hframe p t k amount H. unfold chk_dig.
  rewrite (Hframe t (p0_tx p) (C09_extract_eq_unsigned_modulo_scripts_v0 p t H)). reflexivity.
Qed.
Print Assumptions C09_extracted_checks_as_signed_v0.

(* v2 (fix 0eaca09): Extract equals UnsignedTx, the transaction the signatures are
   computed over, in every field other than input scripts and witness data, for every packet
   whose previous-output indices are outpoint indices (0xffffffff or at most 0x3fffffff; the
   range of wf_in in Model/Tx.v: UnsignedTx masks other values, Extract copies them) *)
Theorem C09_extract_eq_unsigned_modulo_scripts_v2 :
  forall (p : pset2) (t : tx),
    Forall outpoint_index_ok (q_ins p) ->
    extract2 p = OcOk t -> strip_tx t = strip_tx (unsigned_tx2 p).
Proof.
  intros p t Hf H. apply extract2_inv in H as (ins & E & ->).
  unfold strip_tx, unsigned_tx2. cbn [t_version t_flag t_locktime t_ins t_outs].
  rewrite (extract_ins2_strip _ _ Hf E), map_map. reflexivity.
Qed.
Print Assumptions C09_extract_eq_unsigned_modulo_scripts_v2.

(* and so, under the same frame hypothesis on the abstract digest, for the checks *)
Theorem C09_extracted_checks_as_signed_v2 :
  forall (verify : bytes -> bytes -> bytes -> bool)
    (digest : tx -> salgo -> N -> nat -> bytes -> bytes -> bytes),
    (forall t t' : tx, strip_tx t = strip_tx t' -> digest t = digest t') ->
    forall (p : pset2) (t : tx) (k : nat) (amount : bytes),
    Forall outpoint_index_ok (q_ins p) ->
    extract2 p = OcOk t -> chk_dig verify digest t k amount = chk_dig verify digest (unsigned_tx2 p) k amount.
Proof.
  intros verify digest Hframe p t k amount Ha H. unfold chk_dig.
  rewrite (Hframe t (unsigned_tx2 p) (C09_extract_eq_unsigned_modulo_scripts_v2 p t Ha H)). reflexivity.
Qed.
Print Assumptions C09_extracted_checks_as_signed_v2.

(* every sequence of distinct signers is admitted by addPartialSignature (v0) and the packet then
   holds their signatures in signing order; add_sigs0 folds add_partial_sig0 over the list *)
Theorem C09_signing_admitted_v0 :
  forall (ops : list (bytes * bytes)) (p : pset0) (k : nat) (i : pin),
    nth_error (p0_ins p) k = Some i -> sanity0 p = true ->
    NoDup (map fst ops) ->
    (forall pk : bytes, In pk (map fst ops) -> has_sig_for i pk = false) ->
    (forall pk sg : bytes, In (pk, sg) ops ->
       admit_checks i pk (osome (nth_error (t_ins (p0_tx p)) k))
         (match nth_error (t_ins (p0_tx p)) k with Some x => in_hash x | None => [] end)
         (match nth_error (t_ins (p0_tx p)) k with Some x => in_index x | None => 0 end) = OcOk tt) ->
    add_sigs0 p k ops = (with_in0 p k (fun i0 : pin => set_sigs (pi_sigs i0 ++ ops) i0), StOk).
Proof. exact signing_admitted0. Qed.
Print Assumptions C09_signing_admitted_v0.
