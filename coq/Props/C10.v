(* Props/C10.v — partial-signature validation (model of /repo with fixes a910e27, 9415d49, 1acccfe,
   2d9b577): what a valid verdict implies, which corruptions are never valid, no panic on
   parser-shaped packets. *)
From GE Require Import Lib.Bytes Lib.Sha256 Model.Tx Model.TxHash Model.SigValidate Proofs.SigValidate.
Open Scope N_scope.

(* the full statement (valid_only_if_statement) for every packet (v0 and v2): a valid verdict
   implies the input carries signatures, every partial signature is DER-shaped and verifies
   under its key the digest computed from the script and amount of the output actually spent
   (redeem / witness scripts being the committed pre-images), the key or its HASH160 is a data
   push of the script being satisfied, and a supplied previous transaction hashes to the
   outpoint txid.
   Hypotheses: only the sizes of the byte strings the key test compares. *)
Theorem C10_valid_only_if :
  forall digest parse_pk der_ok verify hash160,
    (forall pub ck, parse_pk pub = Some ck -> length ck = 33%nat) ->
    (forall b, length (hash160 b) = 20%nat) ->
    forall v p i, vs_validate_input digest parse_pk der_ok verify hash160 v p i = VOk true ->
      exists inp, nth_error (svp_ins p) i = Some inp /\ svi_sigs inp <> [] /\
        (forall s, In s (svi_sigs inp) -> sig_genuine digest parse_pk der_ok verify hash160 v p i inp s) /\
        prev_tx_matches v p i inp.
Proof. exact valid_only_if. Qed.
Print Assumptions C10_valid_only_if.

(* the key test is byte-exact: it holds iff some data push is the compressed key or the
   HASH160 of the key bytes *)
Theorem C10_key_test_exact :
  forall hash160 ck pub ts,
    vs_key_in_pushes hash160 ck pub ts = true <->
    exists op d, In (op, Some d) ts /\ (d = ck \/ d = hash160 pub).
Proof. exact key_test_exact. Qed.
Print Assumptions C10_key_test_exact.

(* ... and then those bytes occur contiguously in the script *)
Theorem C10_key_test_bytewise :
  forall hash160 script ts ck pub,
    vs_script_tokens script = Some ts -> vs_key_in_pushes hash160 ck pub ts = true ->
    exists k pre post, (k = ck \/ k = hash160 pub) /\ script = pre ++ k ++ post.
Proof.
  intros hash160 script ts ck pub Ht Hk. apply key_test_exact in Hk as (op & d & Hin & Hd).
  destruct (push_in_script _ _ _ _ _ Ht Hin) as (pre & post & Hs & _).
  exists d, pre, post. split; assumption.
Qed.
Print Assumptions C10_key_test_bytewise.

(* the same with no assumption on key / hash sizes, but a hypothesis on the packet: the
   classified script is not a malformed OP_0 program (address.GetScriptType does not look at
   script[1]) *)
Theorem C10_valid_only_if_partial :
  forall digest parse_pk der_ok verify hash160 v p i,
    vs_validate_input digest parse_pk der_ok verify hash160 v p i = VOk true ->
    exists inp, nth_error (svp_ins p) i = Some inp /\ svi_sigs inp <> [] /\
      prev_tx_matches v p i inp /\
      ((forall o, spent_output v p i inp = Some o -> wf_program (used_script inp o)) ->
       forall s, In s (svi_sigs inp) -> sig_genuine digest parse_pk der_ok verify hash160 v p i inp s).
Proof. exact valid_only_if_partial. Qed.
Print Assumptions C10_valid_only_if_partial.

(* with no hypothesis at all: the digest verified is the one vs_hash_and_script selects *)
Theorem C10_valid_only_if_checked :
  forall digest parse_pk der_ok verify hash160 v p i,
    vs_validate_input digest parse_pk der_ok verify hash160 v p i = VOk true ->
    exists inp, nth_error (svp_ins p) i = Some inp /\ svi_sigs inp <> [] /\
      (forall s, In s (svi_sigs inp) -> sig_checked digest parse_pk der_ok verify hash160 v p i inp s) /\
      prev_tx_matches v p i inp.
Proof. exact valid_only_if_checked. Qed.
Print Assumptions C10_valid_only_if_checked.

(* the conjunct on the previous transaction alone: a supplied non-witness UTXO hashes to the
   outpoint txid (v0 and v2, no hypothesis) *)
Theorem C10_prev_tx_matches :
  forall digest parse_pk der_ok verify hash160 v p i,
    vs_validate_input digest parse_pk der_ok verify hash160 v p i = VOk true ->
    exists inp, nth_error (svp_ins p) i = Some inp /\ prev_tx_matches v p i inp.
Proof.
  intros digest parse_pk der_ok verify hash160 v p i H.
  apply valid_only_if_checked in H as [inp [Hn [_ [_ Hp]]]]. exists inp. split; assumption.
Qed.
Print Assumptions C10_prev_tx_matches.

(* with neither the size hypotheses nor wf_program the abstract statement fails (toy 1-byte key) *)
Theorem C10_valid_only_if_refuted :
  ~ valid_only_if_statement toy_digest toy_parse_pk toy_der_ok toy_verify toy_hash160.
Proof.
  intro H. destruct valid_only_if_refuted_malformed_program as (_ & Hv & inp & s & Hn & Hin & Hng).
  destruct (H VsV2 pktM 0%nat Hv) as (inp' & Hn' & _ & Hg & _).
  rewrite Hn in Hn'. injection Hn' as <-. exact (Hng (Hg s Hin)).
Qed.
Print Assumptions C10_valid_only_if_refuted.

(* the packet behind it: the spent script OP_0 <01> <02> <19 bytes> is classified as P2WPKH; the
   verdict is valid, the signature is not over a digest of the output's script *)
Theorem C10_valid_only_if_refuted_malformed_program :
  vs_validate_input toy_digest toy_parse_pk toy_der_ok toy_verify toy_hash160 VsV0 pktM 0 = VOk true /\
  vs_validate_input toy_digest toy_parse_pk toy_der_ok toy_verify toy_hash160 VsV2 pktM 0 = VOk true /\
  exists inp s, nth_error (svp_ins pktM) 0 = Some inp /\ In s (svi_sigs inp) /\
    ~ sig_genuine toy_digest toy_parse_pk toy_der_ok toy_verify toy_hash160 VsV2 pktM 0 inp s.
Proof. exact valid_only_if_refuted_malformed_program. Qed.
Print Assumptions C10_valid_only_if_refuted_malformed_program.

(* four packets whose acceptance would contradict the statement are rejected (fixes a910e27,
   9415d49): previous transaction with another id; both utxo records with different amounts and
   a signature over the witness-utxo amount; a redeem script and a witness script that the spent
   script does not commit to *)
Theorem C10_former_witnesses_rejected :
  vs_validate_input toy_digest toy_parse_pk toy_der_ok toy_verify toy_hash160 VsV0 pkt1 0 = VErr /\
  vs_validate_input toy_digest toy_parse_pk toy_der_ok toy_verify toy_hash160 VsV0 pkt2 0 = VOk false /\
  vs_validate_input toy_digest toy_parse_pk toy_der_ok toy_verify toy_hash160 VsV2 pkt2 0 = VOk false /\
  vs_validate_input toy_digest toy_parse_pk toy_der_ok toy_verify toy_hash160 VsV0 pkt3 0 = VErr /\
  vs_validate_input toy_digest toy_parse_pk toy_der_ok toy_verify toy_hash160 VsV2 pkt3 0 = VErr /\
  vs_validate_input toy_digest toy_parse_pk toy_der_ok toy_verify toy_hash160 VsV0 pkt4 0 = VErr /\
  vs_validate_input toy_digest toy_parse_pk toy_der_ok toy_verify toy_hash160 VsV2 pkt4 0 = VErr.
Proof. exact former_witnesses_rejected. Qed.
Print Assumptions C10_former_witnesses_rejected.

(* ideal signatures: a signature produced for d0 only never validates once any other digest is selected *)
Theorem C10_corruption_rejected :
  forall digest parse_pk der_ok verify hash160 (signed : bytes -> bytes -> bytes -> Prop),
    (forall k m s, verify k m s = true -> signed k m s) ->
    forall v p i inp pub sg ck last rder d0,
      nth_error (svp_ins p) i = Some inp ->
      In (Some (mk_vsig (Some pub) sg)) (svi_sigs inp) ->
      parse_pk pub = Some ck -> rev sg = last :: rder ->
      (forall m, signed ck m (rev rder) -> m = d0) ->
      (forall d scr, vs_hash_and_script digest hash160 v p i inp (n8 last) = VOk (d, scr) -> d <> d0) ->
      vs_validate_input digest parse_pk der_ok verify hash160 v p i <> VOk true.
Proof. exact corruption_rejected. Qed.
Print Assumptions C10_corruption_rejected.

(* with, in addition, sensitivity of the digest as a hypothesis (C02's statement, not instantiated
   here): a signature made only for digest a0 t0 i0 c0 am0 ht0 that is accepted shows the validator
   hashing the same algorithm, input index, script code, amount and hash type over a transaction
   equal to t0 in every covered field *)
Theorem C10_corruption_rejected_fields :
  forall digest parse_pk der_ok verify hash160 (signed : bytes -> bytes -> bytes -> Prop),
    (forall k m s, verify k m s = true -> signed k m s) ->
    forall (same_covered : valgo -> N -> nat -> tx -> tx -> Prop),
    (forall a t i c am ht a' t' i' c' am' ht',
        digest a t i c am ht = digest a' t' i' c' am' ht' ->
        a = a' /\ i = i' /\ c = c' /\ am = am' /\ ht = ht' /\ same_covered a ht i t t') ->
    forall v p i inp pub sg ck last rder a0 t0 i0 c0 am0 ht0,
      nth_error (svp_ins p) i = Some inp ->
      In (Some (mk_vsig (Some pub) sg)) (svi_sigs inp) ->
      parse_pk pub = Some ck -> rev sg = last :: rder ->
      (forall m, signed ck m (rev rder) -> m = digest a0 t0 i0 c0 am0 ht0) ->
      vs_validate_input digest parse_pk der_ok verify hash160 v p i = VOk true ->
      exists scr, vs_hash_and_script digest hash160 v p i inp (n8 last) = VOk (digest a0 t0 i0 c0 am0 ht0, scr) /\
        i = i0 /\ n8 last = ht0 /\ same_covered a0 ht0 i0 t0 (svp_tx p) /\
        digest a0 t0 i0 c0 am0 ht0 = digest a0 (svp_tx p) i c0 am0 (n8 last).
Proof. exact corruption_rejected_fields. Qed.
Print Assumptions C10_corruption_rejected_fields.

(* a substituted previous transaction with another id, lower or higher, is rejected (v0 and v2) *)
Theorem C10_substituted_prev_rejected :
  forall digest parse_pk der_ok verify hash160 v p i inp prev h idx,
    nth_error (svp_ins p) i = Some inp -> svi_nonwit inp = Some prev ->
    outpoint_of v p i inp = Some (h, idx) -> txid prev <> h ->
    vs_validate_input digest parse_pk der_ok verify hash160 v p i <> VOk true.
Proof.
  intros digest parse_pk der_ok verify hash160 v p i inp prev h idx Hn Hp Ho Hne H.
  apply valid_only_if_checked in H as [inp' [Hn' [_ [_ Hc]]]]. rewrite Hn in Hn'. injection Hn' as <-.
  destruct (Hc prev Hp) as (h' & idx' & Ho' & Ht). rewrite Ho in Ho'. injection Ho' as <- <-.
  contradiction.
Qed.
Print Assumptions C10_substituted_prev_rejected.

(* a valid verdict of the loop over all inputs is a valid verdict for each input *)
Theorem C10_validate_all_only_if :
  forall digest parse_pk der_ok verify hash160 v p,
    vs_validate_all digest parse_pk der_ok verify hash160 v p = VOk true ->
    forall j, (j < length (svp_ins p))%nat ->
      vs_validate_input digest parse_pk der_ok verify hash160 v p j = VOk true.
Proof.
  intros digest parse_pk der_ok verify hash160 v p H j Hj.
  apply (validate_from_true digest parse_pk der_ok verify hash160 v p _ 0%nat H). lia.
Qed.
Print Assumptions C10_validate_all_only_if.

(* no panic on parser-shaped packets, in full *)
Theorem C10_no_panic_on_accepted_packets :
  forall digest parse_pk der_ok verify hash160 v p i,
    accepted p -> (i < length (svp_ins p))%nat ->
    forall site, vs_validate_input digest parse_pk der_ok verify hash160 v p i <> VPanic site.
Proof. exact no_panic_on_accepted_packets. Qed.
Print Assumptions C10_no_panic_on_accepted_packets.

(* packets on unguarded-looking index and slice expressions give an error or "invalid", not a panic
   (fixes a910e27, 1acccfe): outpoint index past the outputs, P2WPKH described by the previous
   transaction only, empty signature, empty spent script, the one-byte script OP_0 *)
Theorem C10_former_panics_are_errors :
  vs_validate_input toy_digest toy_parse_pk toy_der_ok toy_verify toy_hash160 VsV0 pkt5 0 = VErr /\
  vs_validate_input toy_digest toy_parse_pk toy_der_ok toy_verify toy_hash160 VsV2 pkt5 0 = VErr /\
  vs_validate_input toy_digest toy_parse_pk toy_der_ok toy_verify toy_hash160 VsV0 pkt6 0 = VOk false /\
  vs_validate_input toy_digest toy_parse_pk toy_der_ok toy_verify toy_hash160 VsV2 pkt6 0 = VOk false /\
  vs_validate_input toy_digest toy_parse_pk toy_der_ok toy_verify toy_hash160 VsV2
    (mk_vpacket (tx_of [in_of [] 0] []) [mk_vinput None None None None [Some (mk_vsig (Some kA) [])] [] 0]) 0 = VErr /\
  vs_validate_input toy_digest toy_parse_pk toy_der_ok toy_verify toy_hash160 VsV0 (pkt7 []) 0 = VErr /\
  vs_validate_input toy_digest toy_parse_pk toy_der_ok toy_verify toy_hash160 VsV2 (pkt7 []) 0 = VErr /\
  vs_validate_input toy_digest toy_parse_pk toy_der_ok toy_verify toy_hash160 VsV0 (pkt7 [x00]) 0 = VErr /\
  vs_validate_input toy_digest toy_parse_pk toy_der_ok toy_verify toy_hash160 VsV2 (pkt7 [x00]) 0 = VErr.
Proof. exact former_panics_are_errors. Qed.
Print Assumptions C10_former_panics_are_errors.
