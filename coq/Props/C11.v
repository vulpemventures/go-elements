(* Props/C11.v — property theorems only. *)
From Coq Require Import List NArith ZArith Bool.
From GE Require Import Model.Roles Proofs.Roles.
Import ListNotations.
Import R11.
Open Scope N_scope.

(* after any operation history from any packet the creator builds: declared counts = actual numbers *)
Theorem C11_counts_match : forall ins outs fb p0 ops, init ins outs fb = IOk p0 ->
  let p := run p0 ops in
  g_nin p = N.of_nat (length (p_cores p)) /\ g_nout p = N.of_nat (length (p_outs p)).
Proof. exact counts_match. Qed.
Print Assumptions C11_counts_match.

(* ... no two inputs spend the same outpoint *)
Theorem C11_no_duplicate_outpoints : forall ins outs fb p0 ops, init ins outs fb = IOk p0 ->
  NoDup (map outpoint (p_cores (run p0 ops))).
Proof. exact no_duplicate_outpoints. Qed.
Print Assumptions C11_no_duplicate_outpoints.

(* from ANY packet, by ANY operation: nothing is added while the matching modifiable flag is clear *)
Theorem C11_modifiable_respected : forall p o,
  (inputs_modifiable p = false -> p_cores (fst (step p o)) = p_cores p)
  /\ (outputs_modifiable p = false -> length (p_outs (fst (step p o))) = length (p_outs p)).
Proof. exact modifiable_respected. Qed.
Print Assumptions C11_modifiable_respected.

(* the locktime kind is always selectable: never a time-only input next to a height-only one *)
Theorem C11_kinds_compatible : forall ins outs fb p0 ops, init ins outs fb = IOk p0 ->
  forall x y, In x (p_cores (run p0 ops)) -> In y (p_cores (run p0 ops)) ->
  time_only x = true -> height_only y = true -> False.
Proof. exact kinds_compatible. Qed.
Print Assumptions C11_kinds_compatible.

(* Locktime() is the largest required locktime of the kind BIP-370 selects, else the fallback: every packet *)
Theorem C11_locktime_is_max_of_selected_kind : forall p, locktime p = spec_locktime p.
Proof. exact locktime_is_max_of_selected_kind. Qed.
Print Assumptions C11_locktime_is_max_of_selected_kind.

(* all-or-nothing: a multi-part operation that returns an error leaves the packet unchanged (any packet; adding
   inputs/outputs, issuance, reissuance, the three signers, the blinder, finalize-all) *)
Theorem C11_multi_part_ops_atomic : forall p o,
  snd (step p o) = Err -> is_multi_part o = true -> fst (step p o) = p.
Proof. exact multi_part_ops_atomic. Qed.
Print Assumptions C11_multi_part_ops_atomic.

(* an already finalized input is never altered: any packet, every multi-part operation and every finalizer *)
Theorem C11_finalized_inputs_frozen : forall p o n a,
  frozen_scope o = true -> nth_error (p_auxs p) n = Some a -> finalized a = true ->
  nth_error (p_auxs (fst (step p o))) n = Some a.
Proof. exact finalized_inputs_frozen. Qed.
Print Assumptions C11_finalized_inputs_frozen.

(* after any operation history (the caller's TxModifiable values are three bits, the scalars the blinder's generator
   returns are fresh) the packet serialises and re-parses to itself *)
Theorem C11_reachable_roundtrips : forall ins outs fb p0 ops,
  init ins outs fb = IOk p0 -> good_run p0 ops -> rt (run p0 ops) = true.
Proof. exact reachable_roundtrips. Qed.
Print Assumptions C11_reachable_roundtrips.

(* the side condition on the flags is needed *)
Theorem C11_reachable_roundtrips_needs_three_bit_flags :
  exists p0, init [] [] None = IOk p0 /\ rt (fst (step p0 (OSetMod (Some 8)))) = false.
Proof. eexists; split; [vm_compute; reflexivity|vm_compute; reflexivity]. Qed.
Print Assumptions C11_reachable_roundtrips_needs_three_bit_flags.

(* AddInputs never moves the locktime of a packet that carries partial signatures (any packet, any arguments) *)
Theorem C11_signed_locktime_fixed : forall p l, signed p = true -> locktime (fst (step p (OAddInputs l))) = locktime p.
Proof. exact signed_locktime_fixed. Qed.
Print Assumptions C11_signed_locktime_fixed.
