(* Props/C12.v — C12: the decoders accept no strict prefix of a valid encoding, check every length
   against the input before use, and do not panic.  One block per decoder family: transaction / header /
   block first, then PSET v0, PSET v2, merkle blocks, output descriptors, taproot control blocks. *)
From GE Require Import Lib.Bytes Lib.Varint Model.Tx Model.Block Proofs.TxCodec Proofs.BlockCodec Proofs.Decoders.
Open Scope N_scope.

(* acceptance is stable under extension of the input *)
Theorem C12_tx_decoder_stable : forall bs t r s, parse_tx bs = Some (t, r) -> parse_tx (bs ++ s) = Some (t, r ++ s).
Proof. exact stable_parse_tx. Qed.
Print Assumptions C12_tx_decoder_stable.

Theorem C12_block_decoder_stable : forall bs b r s, parse_block bs = Some (b, r) -> parse_block (bs ++ s) = Some (b, r ++ s).
Proof. exact stable_parse_block. Qed.
Print Assumptions C12_block_decoder_stable.

(* no strict prefix of a valid encoding is accepted *)
Theorem C12_tx_strict_prefix_rejected : forall t pre suf, wf_tx t = true ->
  ser_full t = pre ++ suf -> suf <> [] -> parse_tx pre = None.
Proof.
  intros t pre suf W E. apply (stable_strict_prefix _ _ _ (norm_tx t) stable_parse_tx).
  rewrite <- E, <- (app_nil_r (ser_full t)). apply tx_parse_ser, W.
Qed.
Print Assumptions C12_tx_strict_prefix_rejected.

(* the same for any input accepted as complete (the proof gives parse_tx pre = None) *)
Theorem C12_tx_no_strict_prefix_of_accepted : forall bs t pre suf,
  parse_tx bs = Some (t, []) -> bs = pre ++ suf -> suf <> [] -> forall t', parse_tx pre <> Some (t', []).
Proof.
  intros bs t pre suf H -> Hs t'. rewrite (stable_strict_prefix _ _ _ _ stable_parse_tx H Hs).
  discriminate.
Qed.
Print Assumptions C12_tx_no_strict_prefix_of_accepted.

Theorem C12_header_strict_prefix_rejected : forall h pre suf, wf_header h = true ->
  ser_header false h = pre ++ suf -> suf <> [] -> parse_header pre = None.
Proof.
  intros h pre suf W E. apply (stable_strict_prefix _ _ _ h stable_parse_header).
  rewrite <- E, <- (app_nil_r (ser_header false h)). apply header_parse_ser, W.
Qed.
Print Assumptions C12_header_strict_prefix_rejected.

Theorem C12_block_strict_prefix_rejected : forall b pre suf, wf_block b = true ->
  ser_block b = pre ++ suf -> suf <> [] -> parse_block pre = None.
Proof.
  intros b pre suf W E. apply (stable_strict_prefix _ _ _ (norm_block b) stable_parse_block).
  rewrite <- E, <- (app_nil_r (ser_block b)). apply block_parse_ser, W.
Qed.
Print Assumptions C12_block_strict_prefix_rejected.

(* takeN, through which every length-prefixed slice is read, hands out a slice only after comparing its
   length with the bytes present; and an accepted value is as large as the bytes consumed (for the
   transaction whatever the flag byte: the hypothesis canonical_flag is not used) *)
Theorem C12_slice_bounded : forall n bs x r, takeN n bs = Some (x, r) -> n <= lenN bs /\ lenN x = n.
Proof.
  intros n bs x r H. apply takeN_inv in H as [-> L].
  split; [rewrite lenN_app; unfold lenN in *; lia | exact L].
Qed.
Print Assumptions C12_slice_bounded.

Theorem C12_tx_accepted_size : forall bs t rest, parse_tx bs = Some (t, rest) -> canonical_flag t = true ->
  lenN (ser_full t) + lenN rest = lenN bs.
Proof. intros bs t rest H _. apply (parse_tx_any_flag bs t rest H). Qed.
Print Assumptions C12_tx_accepted_size.

Theorem C12_header_accepted_size : forall bs h rest, parse_header bs = Some (h, rest) ->
  lenN (ser_header false h) + lenN rest = lenN bs.
Proof.
  intros bs h rest H. destruct (header_ser_parse bs h rest H) as [<- _]. rewrite lenN_app.
  reflexivity.
Qed.
Print Assumptions C12_header_accepted_size.

(* ---------- PSET v0 decoder (model: Model/PsetV0.v, proofs: Proofs/PsetV0Dec.v) ----------
   v0_parse_rest is deserialize(r io.Reader) as a stream parser (packet, unread bytes); v0_parse is
   NewPsetFromHex / NewPsetFromBase64, which never look at the bytes left in the reader;
   valid_pk / valid_sig are the external btcec predicates, arbitrary here. *)
From GE Require Import Model.PsetV0 Proofs.PsetV0Dec.

(* acceptance is stable under extension of the input (the section loop's fuel included) *)
Theorem C12_psetv0_decoder_stable : forall valid_pk valid_sig bs p rest ext,
  v0_parse_rest valid_pk valid_sig bs = Some (p, rest) ->
  v0_parse_rest valid_pk valid_sig (bs ++ ext) = Some (p, rest ++ ext).
Proof. exact psetv0_decoder_stable. Qed.
Print Assumptions C12_psetv0_decoder_stable.

(* the whole-input decoder never looks at what follows the last section: an accepted input followed
   by anything is accepted with the same packet *)
Theorem C12_psetv0_whole_input_ignores_tail : forall valid_pk valid_sig bs p ext,
  v0_parse valid_pk valid_sig bs = Some p -> v0_parse valid_pk valid_sig (bs ++ ext) = Some p.
Proof.
  intros valid_pk valid_sig bs p ext. unfold v0_parse.
  destruct (v0_parse_rest valid_pk valid_sig bs) as [[q r]|] eqn:E; [|discriminate].
  rewrite (psetv0_decoder_stable _ _ _ _ _ ext E). intro H. exact H.
Qed.
Print Assumptions C12_psetv0_whole_input_ignores_tail.

(* no strict prefix of what ToHex / ToBase64 write is accepted by the whole-input decoder *)
Theorem C12_psetv0_strict_prefix_rejected : forall valid_pk valid_sig p bs pre suf,
  v0_wf valid_pk valid_sig p = true -> v0_ser p = Some bs -> bs = pre ++ suf -> suf <> [] ->
  v0_parse valid_pk valid_sig pre = None.
Proof. exact psetv0_strict_prefix_rejected. Qed.
Print Assumptions C12_psetv0_strict_prefix_rejected.

(* more generally, an input that the stream decoder consumes entirely has no accepted strict prefix *)
Theorem C12_psetv0_no_strict_prefix_of_complete : forall valid_pk valid_sig bs p pre suf,
  v0_parse_rest valid_pk valid_sig bs = Some (p, []) -> bs = pre ++ suf -> suf <> [] ->
  v0_parse_rest valid_pk valid_sig pre = None /\ v0_parse valid_pk valid_sig pre = None.
Proof. exact psetv0_no_strict_prefix_of_complete. Qed.
Print Assumptions C12_psetv0_no_strict_prefix_of_complete.

(* the serialization of a packet in the wire domain is consumed entirely *)
Theorem C12_psetv0_valid_encoding_consumed : forall valid_pk valid_sig p bs,
  v0_wf valid_pk valid_sig p = true -> v0_ser p = Some bs ->
  v0_parse_rest valid_pk valid_sig bs = Some (v0_norm p, []).
Proof. exact psetv0_valid_encoding_consumed. Qed.
Print Assumptions C12_psetv0_valid_encoding_consumed.

(* every length field is compared with its cap and with the remaining input before bytes are taken *)
Theorem C12_psetv0_key_bounded : forall bs k r, v0_p_key bs = Some (Some k, r) ->
  1 <= lenN k /\ lenN k <= v0_MaxKeyLen /\ lenN k < lenN bs /\
  exists n r0, p_varint bs = Some (n, r0) /\ n = lenN k /\ n <= lenN r0.
Proof.
  intros bs k r H. apply Proofs.PsetV0.v0_p_key_inv in H as (-> & K1 & K2).
  destruct (var_slice_bounded k r) as [A B]; [unfold v0_MaxKeyLen, two64 in *; lia|]. repeat split; assumption.
Qed.
Print Assumptions C12_psetv0_key_bounded.

Theorem C12_psetv0_value_bounded : forall bs v r, v0_p_val bs = Some (v, r) ->
  lenN v <= v0_MaxValLen /\ lenN v < lenN bs /\
  exists n r0, p_varint bs = Some (n, r0) /\ n = lenN v /\ n <= lenN r0.
Proof.
  intros bs v r H. apply Proofs.PsetV0.v0_p_val_inv in H as (-> & V1).
  destruct (var_slice_bounded v r) as [A B]; [unfold v0_MaxValLen, two64 in *; lia|]. repeat split; assumption.
Qed.
Print Assumptions C12_psetv0_value_bounded.

Theorem C12_psetv0_key_length_checked : forall n r, n < two64 ->
  v0_MaxKeyLen < n \/ lenN r < n -> v0_p_key (varint n ++ r) = None.
Proof.
  intros n r Hn H. unfold v0_p_key, bind. rewrite p_varint_app by exact Hn.
  destruct (N.eqb_spec n 0) as [->|]; [unfold v0_MaxKeyLen in H; lia|].
  destruct (N.ltb_spec v0_MaxKeyLen n); [reflexivity|].
  destruct H as [H|H]; [lia|]. rewrite (takeN_short n r H). reflexivity.
Qed.
Print Assumptions C12_psetv0_key_length_checked.

Theorem C12_psetv0_value_length_checked : forall n r, n < two64 ->
  v0_MaxValLen < n \/ lenN r < n -> v0_p_val (varint n ++ r) = None.
Proof.
  intros n r Hn H. unfold v0_p_val, bind. rewrite p_varint_app by exact Hn.
  destruct (N.ltb_spec v0_MaxValLen n); [reflexivity|].
  destruct H as [H|H]; [lia | apply (takeN_short n r H)].
Qed.
Print Assumptions C12_psetv0_value_length_checked.

(* what is accepted was consumed from the front of the input; the unread bytes are a proper suffix *)
Theorem C12_psetv0_consumed_prefix : forall valid_pk valid_sig bs p rest,
  v0_parse_rest valid_pk valid_sig bs = Some (p, rest) -> exists used, bs = used ++ rest /\ lenN rest < lenN bs.
Proof.
  intros valid_pk valid_sig bs p rest H.
  apply Proofs.PsetV0.v0_parse_rest_inv in H as (v & gk & inl & outl & -> & _). eexists. split; [reflexivity|].
  unfold Proofs.PsetV0.v0_stream. rewrite !lenN_app. change (lenN v0_magic) with 5. lia.
Qed.
Print Assumptions C12_psetv0_consumed_prefix.

(* ---------- PSET v2 (model: Model/PsetV2.v; parse_pset_rest also returns the bytes left unread in the
   bytes.Buffer; parse_pset = NewPsetFromBuffer / NewPsetFromBase64 after base64 decoding, which drop them) ---------- *)
From GE Require Import Model.PsetV2 Proofs.PsetV2 Proofs.PsetV2Ex Proofs.PsetV2Inv Proofs.PsetV2Dec.

(* the whole-input decoder accepts exactly when the stream decoder does, with any remainder *)
Theorem C12_psetv2_whole_input_decoder : forall pk der xo canon bs p,
  parse_pset pk der xo canon bs = ROk p <-> exists rest, parse_pset_rest pk der xo canon bs = ROk (p, rest).
Proof. exact parse_pset_accepts. Qed.
Print Assumptions C12_psetv2_whole_input_decoder.

(* acceptance is stable under extension of the input *)
Theorem C12_psetv2_decoder_stable : forall pk der xo canon bs p r ext,
  parse_pset_rest pk der xo canon bs = ROk (p, r) -> parse_pset_rest pk der xo canon (bs ++ ext) = ROk (p, r ++ ext).
Proof. exact psetv2_parse_stable. Qed.
Print Assumptions C12_psetv2_decoder_stable.

(* ... and depends on the consumed bytes only *)
Theorem C12_psetv2_consumed_exact : forall pk der xo canon bs p rest,
  parse_pset_rest pk der xo canon bs = ROk (p, rest) ->
  exists c, bs = c ++ rest /\ forall r', parse_pset_rest pk der xo canon (c ++ r') = ROk (p, r').
Proof. exact psetv2_consumed_exact. Qed.
Print Assumptions C12_psetv2_consumed_exact.

(* the whole-input decoder never looks at what follows the last output section (pset.go deserialize
   has no end-of-buffer test): an accepted input stays accepted with the same packet whatever is appended.
   So the literal "accepts bs => rejects every strict prefix of bs" is false of it (witness below); what
   holds is: no prefix that stops short of the consumed bytes is accepted, in particular an input consumed
   completely has no accepted strict prefix, and no strict prefix of the serialization of a well-formed
   packet is accepted.  The parser never panics, so "not accepted" is "rejected with an error". *)
Theorem C12_psetv2_trailing_ignored : forall pk der xo canon bs p ext,
  parse_pset pk der xo canon bs = ROk p -> parse_pset pk der xo canon (bs ++ ext) = ROk p.
Proof.
  intros pk der xo canon bs p ext H. apply parse_pset_accepts in H as [r H]. apply parse_pset_accepts. exists (r ++ ext).
  apply psetv2_parse_stable. exact H.
Qed.
Print Assumptions C12_psetv2_trailing_ignored.

(* the witness: a serialization followed by one byte, and the serialization as its strict prefix *)
Theorem C12_psetv2_strict_prefix_literal_refuted :
  exists bs pre suf p, parse_pset o_true o_true o_true o_id bs = ROk p /\ bs = pre ++ suf /\ suf <> [] /\
                       parse_pset o_true o_true o_true o_id pre = ROk p.
Proof.
  destruct (pset_parse_ser_nil o_true o_true o_true o_id ex_pset ex_pset_wf) as (b & S & P).
  exists (b ++ [x00]), b, [x00], (norm_pset ex_pset).
  split; [apply C12_psetv2_trailing_ignored; exact P|]. split; [reflexivity|]. split; [discriminate | exact P].
Qed.
Print Assumptions C12_psetv2_strict_prefix_literal_refuted.

Theorem C12_psetv2_short_prefix_rejected : forall pk der xo canon bs p rest pre suf,
  parse_pset_rest pk der xo canon bs = ROk (p, rest) -> bs = pre ++ suf -> (length rest < length suf)%nat ->
  parse_pset pk der xo canon pre = RErr.
Proof. exact psetv2_short_prefix_rejected. Qed.
Print Assumptions C12_psetv2_short_prefix_rejected.

Theorem C12_psetv2_strict_prefix_rejected : forall pk der xo canon bs p pre suf,
  parse_pset_rest pk der xo canon bs = ROk (p, []) -> bs = pre ++ suf -> suf <> [] ->
  parse_pset pk der xo canon pre = RErr.
Proof.
  intros pk der xo canon bs p pre suf H E Hs. apply (psetv2_short_prefix_rejected pk der xo canon bs p [] pre suf H E).
  destruct suf; [congruence | cbn; lia].
Qed.
Print Assumptions C12_psetv2_strict_prefix_rejected.

Theorem C12_psetv2_ser_strict_prefix_rejected : forall pk der xo canon p bs pre suf,
  wf_pset pk der xo canon p = true -> ser_pset p = ROk bs -> bs = pre ++ suf -> suf <> [] ->
  parse_pset pk der xo canon pre = RErr.
Proof.
  intros pk der xo canon p bs pre suf W S. apply (C12_psetv2_strict_prefix_rejected pk der xo canon bs (norm_pset p)).
  rewrite <- (app_nil_r bs). apply (psetv2_accepted_size pk der xo canon p bs [] W S).
Qed.
Print Assumptions C12_psetv2_ser_strict_prefix_rejected.

(* every byte string is accepted or rejected with an error *)
Theorem C12_psetv2_no_panic : forall pk der xo canon bs, parse_pset pk der xo canon bs <> RPanic.
Proof. exact parse_pset_no_panic. Qed.
Print Assumptions C12_psetv2_no_panic.

(* sizes: the serialization of a well-formed packet is consumed exactly; for an arbitrary accepted
   input the re-serialization of the packet is consumed exactly (premise pset_ext of C07); bytes consumed
   and length of the re-serialization differ in general, in both directions (always-written fields that
   the input omitted; zero values and ignored key data that the input carried) *)
Theorem C12_psetv2_accepted_size : forall pk der xo canon p bs rest,
  wf_pset pk der xo canon p = true -> ser_pset p = ROk bs ->
  parse_pset_rest pk der xo canon (bs ++ rest) = ROk (norm_pset p, rest).
Proof. exact psetv2_accepted_size. Qed.
Print Assumptions C12_psetv2_accepted_size.

Theorem C12_psetv2_reser_size : forall pk der xo canon bs p rest,
  parse_pset_rest pk der xo canon bs = ROk (p, rest) -> pset_ext pk canon p ->
  exists bs', ser_pset p = ROk bs' /\ forall r', parse_pset_rest pk der xo canon (bs' ++ r') = ROk (norm_pset p, r').
Proof.
  intros pk der xo canon bs p rest H X. apply pset_parse_ser_rest, (parsed_wf pk der xo canon bs p); [|exact X].
  apply parse_pset_accepts. exists rest. exact H.
Qed.
Print Assumptions C12_psetv2_reser_size.

Theorem C12_psetv2_size_not_preserved :
  size_check (ex_stream_sparse []) true = true /\
  exists extra, size_check (ex_stream_sparse extra) false = true.
Proof. split; [exact ex_reser_longer | eexists; exact ex_reser_shorter]. Qed.
Print Assumptions C12_psetv2_size_not_preserved.

(* every key pair handed to a section decoder was checked against the bytes present and the key-length limit *)
Theorem C12_psetv2_keypair_bounded : forall bs k r, read_kp bs = KGot k r -> bs = ser_kp k ++ r /\ frame_ok k = true.
Proof. intros bs k r H. pose proof (read_kp_inv bs) as R. rewrite H in R. exact R. Qed.
Print Assumptions C12_psetv2_keypair_bounded.

(* merkle blocks: block.NewMerkleBlockFromBuffer / FromHex and MerkleBlock.ExtractMatches (models Model/Merkle.v,
   Model/MerkleIx.v; proofs Proofs/MerkleDecoder.v) *)
From GE Require Import Lib.Sha256 Model.Merkle Model.MerkleIx Proofs.MerkleDecoder.

(* acceptance of the blob parser is stable under extension of the input *)
Theorem C12_merkle_decoder_stable : forall bs m r s,
  parse_merkle_block bs = Some (m, r) -> parse_merkle_block (bs ++ s) = Some (m, r ++ s).
Proof. exact stable_parse_merkle_block. Qed.
Print Assumptions C12_merkle_decoder_stable.

(* the whole-input decoder leaves trailing bytes in the buffer, unlooked at ... *)
Theorem C12_merkle_decode_ignores_trailing : forall m rest,
  wf_mb m -> decode_merkle_block (ser_merkle_block m ++ rest) = Some m.
Proof. intros m rest W. rewrite decode_eq_parse. rewrite parse_ser_wf by exact W. reflexivity. Qed.
Print Assumptions C12_merkle_decode_ignores_trailing.

(* ... accepts only inputs that start with the complete encoding of what it returns ... *)
Theorem C12_merkle_accepted_is_complete : forall bs m,
  decode_merkle_block bs = Some m -> exists rest, bs = ser_merkle_block m ++ rest /\ wf_mb m.
Proof.
  intros bs m. rewrite decode_eq_parse. destruct (parse_merkle_block bs) as [[m' r]|] eqn:P; [|discriminate].
  intro E. injection E as <-. exists r. apply parse_merkle_block_inv. exact P.
Qed.
Print Assumptions C12_merkle_accepted_is_complete.

(* ... and so rejects every strict prefix of a valid encoding *)
Theorem C12_merkleblock_strict_prefix_rejected : forall m pre suf,
  wf_mb m -> ser_merkle_block m = pre ++ suf -> suf <> [] -> decode_merkle_block pre = None.
Proof.
  intros m pre suf W E Hs. rewrite decode_eq_parse.
  rewrite (stable_strict_prefix _ pre suf m stable_parse_merkle_block); [reflexivity| |exact Hs].
  rewrite <- E, <- (app_nil_r (ser_merkle_block m)). exact (parse_ser_wf m [] W).
Qed.
Print Assumptions C12_merkleblock_strict_prefix_rejected.

(* an accepted value occupies exactly the bytes consumed: both counts are backed by input *)
Theorem C12_merkle_accepted_size : forall bs m r,
  parse_merkle_block bs = Some (m, r) ->
  84 + varint_size (lenL (mb_hashes m)) + 32 * lenL (mb_hashes m) +
  varint_size (lenN (mb_flags m)) + lenN (mb_flags m) + lenN r = lenN bs.
Proof. exact merkleblock_accepted_size. Qed.
Print Assumptions C12_merkle_accepted_size.

(* counts are compared with their caps before anything is reserved *)
Theorem C12_merkle_hash_count_checked : forall hd cnt nh r,
  length hd = 80%nat -> cnt < two32 -> nh < two64 -> wire_max_hashes < nh ->
  parse_merkle_block (hd ++ le_enc 4 cnt ++ varint nh ++ r) = None /\
  alloc_merkle_block (hd ++ le_enc 4 cnt ++ varint nh ++ r) = 0.
Proof.
  intros hd cnt nh r Hh Hc Hn Hm. apply N.ltb_lt in Hm.
  rewrite alloc_eq, parse_front, alloc_btcd_front, Hm by assumption.
  split; [reflexivity|]. destruct (hash_count_exceeds _); reflexivity.
Qed.
Print Assumptions C12_merkle_hash_count_checked.

(* ... the flag-byte count too: only the hashes already read were reserved *)
Theorem C12_merkle_flag_count_checked : forall m nf r,
  wf_mb m -> nf < two64 -> wire_max_flags < nf ->
  let bs := mb_header m ++ le_enc 4 (mb_count m) ++ varint (lenL (mb_hashes m)) ++ concat (mb_hashes m) ++ varint nf ++ r in
  parse_merkle_block bs = None /\ alloc_merkle_block bs = 40 * lenL (mb_hashes m).
Proof. exact merkle_flag_count_checked. Qed.
Print Assumptions C12_merkle_flag_count_checked.

(* the count check of fix c4c5793 (hash count against the bytes behind it, before btcd is called) refuses
   nothing the decoder would accept ... *)
Theorem C12_merkle_count_check_keeps_acceptance : forall bs,
  decode_merkle_block bs = match parse_merkle_block bs with Some (m, _) => Some m | None => None end.
Proof. exact decode_eq_parse. Qed.
Print Assumptions C12_merkle_count_check_keeps_acceptance.

(* ... and refuses, without reserving anything, every count the remaining input cannot hold *)
Theorem C12_merkle_hash_count_vs_input : forall hd cnt nh r,
  length hd = 80%nat -> nh < two64 -> lenN r / 32 < nh ->
  decode_merkle_block (hd ++ le_enc 4 cnt ++ varint nh ++ r) = None /\
  alloc_merkle_block (hd ++ le_enc 4 cnt ++ varint nh ++ r) = 0.
Proof.
  intros hd cnt nh r Hh Hn Hx. unfold decode_merkle_block, alloc_merkle_block. rewrite check_value by assumption.
  destruct (N.ltb_spec (lenN r / 32) nh); [split; reflexivity|lia].
Qed.
Print Assumptions C12_merkle_hash_count_vs_input.

(* memory requested: proportional to the input when accepted; for every input at most the flag-byte cap
   (alloc_const_bound = wire_max_flags = 50000 bytes, the one reservation btcd makes against a constant
   rather than the input; within the oracle's allowance) plus nine times the input *)
Theorem C12_merkle_alloc_accepted : forall bs m r,
  parse_merkle_block bs = Some (m, r) ->
  alloc_merkle_block bs = 96 * lenL (mb_hashes m) + 9 * lenN (mb_flags m) /\
  alloc_merkle_block bs <= 9 * lenN bs.
Proof. exact alloc_accepted_proportional. Qed.
Print Assumptions C12_merkle_alloc_accepted.

Theorem C12_merkle_alloc_bounded : forall bs, alloc_merkle_block bs <= wire_max_flags + 9 * lenN bs.
Proof. exact alloc_bounded. Qed.
Print Assumptions C12_merkle_alloc_bounded.

(* a rejected input: twice the input plus the flag-byte cap *)
Theorem C12_merkle_alloc_rejected_bounded : forall bs,
  decode_merkle_block bs = None -> alloc_merkle_block bs <= wire_max_flags + 2 * lenN bs.
Proof.
  intros bs D. unfold alloc_merkle_block. destruct (hash_count_exceeds bs) eqn:Hc; [lia|].
  rewrite D. pose proof (alloc_btcd_backed bs Hc). lia.
Qed.
Print Assumptions C12_merkle_alloc_rejected_bounded.

(* ExtractMatches with its cursors as indices and every index expression partial: it computes what the
   model of C20 computes, so it ends in a value or an error, never in an index out of range *)
Theorem C12_merkle_extract_ix_refines : forall (A : Type) (H : A -> A -> A) (eqA : A -> A -> bool) n hashes vbits,
  extract_ix A H eqA n hashes vbits =
  match extract A H eqA n hashes vbits with Some r => IxOk r | None => IxErr end.
Proof. exact extract_ix_refines. Qed.
Print Assumptions C12_merkle_extract_ix_refines.

Theorem C12_merkleblock_extract_no_panic : forall bs, decode_extract_ix bs <> IxPanic.
Proof.
  intro bs. unfold decode_extract_ix. destruct (decode_merkle_block bs); [|discriminate].
  unfold extract_mb_ix. apply extract_ix_no_panic.
Qed.
Print Assumptions C12_merkleblock_extract_no_panic.

Theorem C12_merkle_extract_no_panic_any_tree : forall (A : Type) (H : A -> A -> A) (eqA : A -> A -> bool) n hashes vbits,
  extract_ix A H eqA n hashes vbits <> IxPanic.
Proof. exact extract_ix_no_panic. Qed.
Print Assumptions C12_merkle_extract_no_panic_any_tree.

(* the decoder of this file is the one the correspondence check of C20 runs against the implementation *)
Theorem C12_merkle_decode_extract_is_run_proof : forall bs,
  decode_extract_ix bs =
  match run_proof bs with PParseErr => IxErr | PExtractErr _ => IxErr | POk _ root ms => IxOk (root, ms) end.
Proof.
  intro bs. unfold decode_extract_ix, run_proof. rewrite decode_eq_parse.
  destruct (parse_merkle_block bs) as [[m r]|]; [|reflexivity].
  unfold extract_mb_ix, extract_mb. rewrite extract_ix_refines.
  destruct (extract bytes node_hash bytes_eqb (mb_count m) (mb_hashes m) (bits_of_bytes (mb_flags m))) as [[root ms]|]; reflexivity.
Qed.
Print Assumptions C12_merkle_decode_extract_is_run_proof.

(* the guard in front of TxHashes[hashUsed] is what the theorem rests on: weaken it (seeded change
   hashUsed > len) and the same walk indexes out of range *)
Theorem C12_merkle_weaker_guard_panics :
  extract_gen bytes node_hash bytes_eqb Nat.ltb 1 [] (bits_of_bytes [x00]) = IxPanic.
Proof. vm_compute. reflexivity. Qed.
Print Assumptions C12_merkle_weaker_guard_panics.

(* output descriptors: descriptor.Parse and the wallet it returns (model Model/Descriptor.v, compared with the
   implementation by the correspondence family desc).  Text is the list of bytes of the Go string; the answers of
   btcec.ParsePubKey, btcutil.DecodeWIF and hdkeychain are the record `o`, universally quantified.  Names are
   qualified (Desc = model, DescP = Proofs/Descriptor.v) and the block is a module, so that nothing is shadowed
   for what follows. *)
From GE Require Import Model.Descriptor Proofs.Descriptor.
Require Coq.Strings.String.
Module C12Desc.
Import Coq.Strings.String.   (* string literals for the example texts; local to this module *)

(* every index and slice expression of the parser is guarded: a wallet or an error, never a run-time panic *)
Theorem C12_descriptor_parse_no_panic : forall o d, Desc.parse o d <> Desc.PPanic.
Proof. intros o d. apply DescP.parse_gen_no_panic. discriminate. Qed.
Print Assumptions C12_descriptor_parse_no_panic.

(* ... which rests on the guard of commit a950a3e: with the slicing test it replaced, the same parser panics *)
Theorem C12_descriptor_parse_before_a950a3e_panics :
  Desc.parse_before_a950a3e DescP.o_none (DescP.txt "elwpkh(]x)") = Desc.PPanic.
Proof. exact DescP.DescEx1.parse_before_a950a3e_panics. Qed.
Print Assumptions C12_descriptor_parse_before_a950a3e_panics.

(* a value or an error, never neither *)
Theorem C12_descriptor_parse_value_or_error : forall o d, Desc.parse o d <> Desc.PNilNil.
Proof. intros o d. apply DescP.parse_gen_value_or_error. discriminate. Qed.
Print Assumptions C12_descriptor_parse_value_or_error.

(* ... the shape before commit 8813a4b: (nil, nil) for every name the switch knows but does not implement *)
Theorem C12_descriptor_parse_before_8813a4b_nilnil :
  forallb (fun name => match Desc.parse_before_8813a4b DescP.o_none (name ++ DescP.txt "(x)") with Desc.PNilNil => true | _ => false end)
          Desc.unsupported_names = true.
Proof. exact DescP.DescEx2.parse_before_8813a4b_nilnil. Qed.
Print Assumptions C12_descriptor_parse_before_8813a4b_nilnil.

(* white space in front of the checksum separator is irrelevant *)
Theorem C12_descriptor_whitespace_irrelevant : forall o a c b,
  Desc.is_space c = true -> DescP.cnt "#"%byte a = O -> Desc.parse o (a ++ c :: b) = Desc.parse o (a ++ b).
Proof. exact DescP.descriptor_whitespace_irrelevant. Qed.
Print Assumptions C12_descriptor_whitespace_irrelevant.

(* without a checksum part, removing all white space first gives the same answer *)
Theorem C12_descriptor_parse_stripped : forall o d,
  DescP.cnt "#"%byte d = O -> Desc.parse o (Desc.strip_spaces d) = Desc.parse o d.
Proof.
  intros o d H. unfold Desc.parse.
  rewrite (DescP.parse_gen_no_hash _ _ _ d H), (DescP.parse_gen_no_hash _ _ _ (Desc.strip_spaces d) (DescP.cnt_filter_zero _ _ _ H)).
  apply DescP.pse_strip, DescP.strip_spaces_idem.
Qed.
Print Assumptions C12_descriptor_parse_stripped.

(* ... but inside or behind the checksum it counts towards the length that is checked (before white space is removed) *)
Theorem C12_descriptor_whitespace_in_checksum_matters :
  DescP.is_ok (Desc.parse DescP.o_none (DescP.txt "elwpkh(xpub)#12345678")) = true /\
  DescP.is_err (Desc.parse DescP.o_none (DescP.txt "elwpkh(xpub)#12345678" ++ [x0a])) = true /\
  DescP.is_ok (Desc.parse DescP.o_none (DescP.txt "elwpkh(xpub)" ++ [x0a])) = true /\
  DescP.is_err (Desc.parse DescP.o_none (DescP.txt "elwpkh(xpub)#1234 5678")) = true /\
  DescP.is_ok (Desc.parse DescP.o_none (DescP.txt "elwpkh(xpub)#        ")) = true.
Proof. exact DescP.DescEx3.whitespace_in_checksum_matters. Qed.
Print Assumptions C12_descriptor_whitespace_in_checksum_matters.

(* what an accepted text looks like: an optional `#` + 8 characters; in front of it, after removal of white space,
   `elwpkh(` inner `)` where the closing parenthesis is the last one of the text, and inner is a key expression *)
Theorem C12_descriptor_accepted_shape : forall o d w, Desc.parse o d = Desc.POk w ->
  exists body inner pre post,
    (d = body \/ exists ck, d = body ++ "#"%byte :: ck /\ List.length ck = 8%nat /\ DescP.cnt "#"%byte ck = O) /\
    DescP.cnt "#"%byte body = O /\
    Desc.strip_spaces body = pre ++ Desc.Lit.elwpkh ++ "("%byte :: inner ++ ")"%byte :: post /\
    inner <> [] /\ DescP.cnt ")"%byte post = O /\
    Desc.parse_key_expression false o inner = Desc.Ok w.
Proof. exact DescP.descriptor_accepted_shape. Qed.
Print Assumptions C12_descriptor_accepted_shape.

(* exactly one of the three key fields of an accepted wallet is set, and it passed its test *)
Theorem C12_descriptor_accepted_one_key : forall o d w, Desc.parse o d = Desc.POk w -> DescP.one_key o w.
Proof. exact DescP.descriptor_accepted_one_key. Qed.
Print Assumptions C12_descriptor_accepted_one_key.

(* path components: the number written (math/big syntax, base prefixes, separators), plus 2^31 when marked hardened,
   checked against MaxUint32 - 2^31 resp. MaxUint32, so the uint32 addition does not wrap *)
Theorem C12_descriptor_path_component_exact : forall c v, Desc.parse_component c = Desc.Ok v ->
  exists base text z, (base = 0 \/ base = Desc.hardened_key_start) /\ Desc.int_set_string0 text = Some z /\
                      (0 <= z)%Z /\ v = base + Z.to_N z /\ v <= u32max.
Proof.
  intros c v H. destruct (DescP.parse_component_eq c) as (base & text & HB & E). rewrite E in H.
  apply DescP.component_ok in H as (z & H); [exists base, text, z; tauto|].
  destruct HB as [-> | ->]; discriminate.
Qed.
Print Assumptions C12_descriptor_path_component_exact.

(* strict prefixes.  Nothing without a closing parenthesis is accepted ... *)
Theorem C12_descriptor_no_close_paren_rejected : forall o d, DescP.cnt ")"%byte d = O -> Desc.parse o d = Desc.PErr.
Proof. exact DescP.descriptor_no_close_paren_rejected. Qed.
Print Assumptions C12_descriptor_no_close_paren_rejected.

(* ... so for a descriptor whose only closing parenthesis is its last character every strict prefix is refused; *)
Theorem C12_descriptor_strict_prefix_rejected : forall o b p,
  DescP.cnt ")"%byte b = O -> DescP.strict_prefix p (b ++ [")"%byte]) -> Desc.parse o p = Desc.PErr.
Proof. exact DescP.descriptor_strict_prefix_rejected. Qed.
Print Assumptions C12_descriptor_strict_prefix_rejected.

(* a cut inside the checksum is refused (any checksum part whose length is not 8 is, whatever stands in front); *)
Theorem C12_descriptor_bad_checksum_length_rejected : forall o body c,
  List.length c <> 8%nat -> Desc.parse o (body ++ "#"%byte :: c) = Desc.PErr.
Proof. exact DescP.descriptor_bad_checksum_length_rejected. Qed.
Print Assumptions C12_descriptor_bad_checksum_length_rejected.

(* the checksum is optional by format: cutting it off whole leaves the same answer ... *)
Theorem C12_descriptor_checksum_optional : forall o body ck,
  DescP.cnt "#"%byte body = O -> DescP.cnt "#"%byte ck = O -> List.length ck = 8%nat ->
  Desc.parse o (body ++ "#"%byte :: ck) = Desc.parse o body.
Proof.
  intros o body ck C1 C2 L. unfold Desc.parse.
  rewrite (DescP.parse_gen_one_hash _ _ _ _ _ C1 C2), (DescP.parse_gen_no_hash _ _ _ _ C1), L. reflexivity.
Qed.
Print Assumptions C12_descriptor_checksum_optional.

(* ... and that is the only strict prefix of `text)#checksum` that can be accepted *)
Theorem C12_descriptor_strict_prefixes_with_checksum : forall o b ck p,
  DescP.cnt ")"%byte b = O -> List.length ck = 8%nat ->
  DescP.strict_prefix p (b ++ ")"%byte :: "#"%byte :: ck) -> Desc.parse o p <> Desc.PErr -> p = b ++ [")"%byte].
Proof. exact DescP.descriptor_strict_prefixes_with_checksum. Qed.
Print Assumptions C12_descriptor_strict_prefixes_with_checksum.

(* hence the literal clause (no strict prefix of an accepted text is accepted) fails, by format *)
Theorem C12_descriptor_strict_prefix_literal_refuted :
  exists o s p, DescP.strict_prefix p s /\ DescP.accepted o s /\ DescP.accepted o p.
Proof. exact DescP.DescEx3.strict_prefix_literal_refuted. Qed.
Print Assumptions C12_descriptor_strict_prefix_literal_refuted.

(* the expression is searched for, not anchored (regexp FindStringSubmatch): text behind the last closing parenthesis
   and text without word characters in front are not looked at *)
Theorem C12_descriptor_trailing_text_ignored : forall o s t,
  DescP.cnt "#"%byte s = O -> DescP.cnt "#"%byte t = O -> DescP.cnt ")"%byte t = O ->
  Desc.parse o ((s ++ [")"%byte]) ++ t) = Desc.parse o (s ++ [")"%byte]).
Proof. exact DescP.descriptor_trailing_text_ignored. Qed.
Print Assumptions C12_descriptor_trailing_text_ignored.

Theorem C12_descriptor_leading_text_ignored : forall o t s,
  DescP.cnt "#"%byte t = O -> forallb (fun c => negb (Desc.is_word c)) t = true -> Desc.parse o (t ++ s) = Desc.parse o s.
Proof. exact DescP.descriptor_leading_text_ignored. Qed.
Print Assumptions C12_descriptor_leading_text_ignored.

(* the model of the regular expression: a reported match has the shape word+ ( inner ) with inner running to the
   last closing parenthesis, and a subject that contains such a shape gets some match reported *)
Theorem C12_descriptor_regexp_sound : forall s whole f inner, Desc.find_submatch s = Some [whole; f; inner] ->
  exists pre post, s = pre ++ f ++ "("%byte :: inner ++ ")"%byte :: post /\ f <> [] /\ forallb Desc.is_word f = true /\
                   inner <> [] /\ DescP.cnt ")"%byte post = O.
Proof. exact DescP.find_submatch_sound. Qed.
Print Assumptions C12_descriptor_regexp_sound.

Theorem C12_descriptor_regexp_complete : forall pre f inner post,
  f <> [] -> forallb Desc.is_word f = true -> inner <> [] ->
  Desc.find_submatch (pre ++ f ++ "("%byte :: inner ++ ")"%byte :: post) <> None.
Proof.
  intros pre f inner post N F I E. exact (DescP.match_at_complete f inner post N F I (DescP.find_submatch_none _ _ E)).
Qed.
Print Assumptions C12_descriptor_regexp_complete.

(* follow-up calls.  Script never panics: any wallet value, any options a caller can build (nil, WithIndex, WithRange,
   the zero value), any answer of hdkeychain *)
Theorem C12_descriptor_script_no_panic : forall o w opts, Desc.script o w opts <> Desc.Panic.
Proof. exact DescP.descriptor_script_no_panic. Qed.
Print Assumptions C12_descriptor_script_no_panic.

(* the zero value of the options behaves like nil options *)
Theorem C12_descriptor_script_zero_options : forall o w, Desc.script o w Desc.OZero = Desc.script o w Desc.ONil.
Proof. intros o w. unfold Desc.script, Desc.script_gen. destruct (Desc.is_range w); reflexivity. Qed.
Print Assumptions C12_descriptor_script_zero_options.

(* ... before commit 84bb833 the zero value dereferenced a nil pointer on range descriptors *)
Theorem C12_descriptor_script_zero_options_before_84bb833 :
  exists w, Desc.parse DescP.o_none (DescP.txt "elwpkh(xpub/1/*)") = Desc.POk w /\
            Desc.script_before_84bb833 DescP.o_none w Desc.OZero = Desc.Panic /\ Desc.script DescP.o_none w Desc.OZero <> Desc.Panic.
Proof. exact DescP.DescEx3.script_zero_options_before_84bb833. Qed.
Print Assumptions C12_descriptor_script_zero_options_before_84bb833.

(* an accepted public-key or WIF wallet always yields its one script (the key passed the same test at parse time) *)
Theorem C12_descriptor_script_of_pubkey : forall o d w k opts, Desc.parse o d = Desc.POk w -> Desc.ki_pub w = Some k ->
  exists raw, Desc.hex_decode k = Some raw /\ Desc.script o w opts = Desc.Ok [([], Desc.wpkh_script raw)].
Proof. exact DescP.descriptor_script_of_pubkey. Qed.
Print Assumptions C12_descriptor_script_of_pubkey.

Theorem C12_descriptor_script_of_wif : forall o d w k opts, Desc.parse o d = Desc.POk w -> Desc.ki_wif w = Some k ->
  exists pub, Desc.o_wif o k = Some pub /\ Desc.script o w opts = Desc.Ok [([], Desc.wpkh_script pub)].
Proof. exact DescP.descriptor_script_of_wif. Qed.
Print Assumptions C12_descriptor_script_of_wif.

(* WithRange(n) on an accepted range wallet: n scripts or an error *)
Theorem C12_descriptor_script_range_count : forall o d w n l, Desc.parse o d = Desc.POk w -> Desc.is_range w = true ->
  Desc.script o w (Desc.ORange n) = Desc.Ok l  -> List.length l = Z.to_nat n.
Proof. exact DescP.descriptor_script_range_count. Qed.
Print Assumptions C12_descriptor_script_range_count.

(* laxities that are outside the clauses of the property, recorded as they are: text around the expression is ignored,
   the inner text runs to the last closing parenthesis, an extended key is recognised by its first four characters *)
Theorem C12_descriptor_unanchored_and_prefix_only :
  DescP.is_ok (Desc.parse DescP.o_none (DescP.txt "!!elwpkh(xpubgarbage)zz")) = true /\
  DescP.is_ok (Desc.parse DescP.o_none (DescP.txt "elwpkh(xpubAAA)/1)")) = true /\
  DescP.is_err (Desc.parse DescP.o_none (DescP.txt "a(b)elwpkh(xpub)")) = true /\
  DescP.is_err (Desc.parse DescP.o_none (DescP.txt "xelwpkh(xpub)")) = true.
Proof. exact DescP.DescEx3.unanchored_and_prefix_only. Qed.
Print Assumptions C12_descriptor_unanchored_and_prefix_only.

End C12Desc.

(* ---------- taproot control blocks (model Model/Taproot.v, parse_cb; codec theorems under C16) ---------- *)
Module C12ControlBlock.
From GE Require Import Model.Taproot Proofs.ControlBlockDec.

(* accepted byte strings are 33 + 32 k bytes long with k <= 128 *)
Theorem C12_controlblock_accepts_shape : forall liftable bs cb,
  GE.Model.Taproot.parse_cb liftable bs = Some cb -> exists k, (k <= 128)%nat /\ length bs = (33 + 32 * k)%nat.
Proof. exact parse_cb_accepts_shape. Qed.
Print Assumptions C12_controlblock_accepts_shape.

(* the format is not prefix-free: a strict prefix of an accepted control block is accepted only at a node boundary *)
Theorem C12_controlblock_prefix_only_at_node_boundary : forall liftable pre suf cb cb',
  GE.Model.Taproot.parse_cb liftable (pre ++ suf) = Some cb -> GE.Model.Taproot.parse_cb liftable pre = Some cb' ->
  (length suf mod 32 = 0)%nat.
Proof. exact controlblock_prefix_only_at_node_boundary. Qed.
Print Assumptions C12_controlblock_prefix_only_at_node_boundary.

(* every other cut is rejected *)
Theorem C12_controlblock_prefix_rejected : forall liftable pre suf cb,
  GE.Model.Taproot.parse_cb liftable (pre ++ suf) = Some cb -> (length suf mod 32 <> 0)%nat ->
  GE.Model.Taproot.parse_cb liftable pre = None.
Proof.
  intros liftable pre suf cb A H. destruct (GE.Model.Taproot.parse_cb liftable pre) as [cb'|] eqn:B; [|reflexivity].
  destruct (H (controlblock_prefix_only_at_node_boundary liftable pre suf cb cb' A B)).
Qed.
Print Assumptions C12_controlblock_prefix_rejected.
End C12ControlBlock.
