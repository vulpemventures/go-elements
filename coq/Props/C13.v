(* Props/C13.v — property theorems only.  C13: issuance ids follow the Elements derivation, and the updaters
   of both PSET versions use them consistently (outputs, input fields, transaction fields). *)
From GE Require Import Lib.Bytes Lib.Sha256 Model.Tx Model.Issuance Spec.Issuance Proofs.Issuance Proofs.IssuanceJson.
From Coq Require Import Sorting.Permutation.
Open Scope N_scope.

(* the three id functions are the Elements derivation, for every outpoint, contract hash, entropy, flag *)
Theorem C13_ids_refine_spec : forall hash n chash e confidential,
  length hash = 32%nat -> length chash = 32%nat -> length e = 32%nat ->
  compute_entropy hash n chash = Some (spec_entropy hash n chash) /\
  compute_asset e = Some (spec_asset e) /\
  compute_token e (iss_flag_of confidential) = Some (spec_token e confidential).
Proof. exact ids_refine_spec. Qed.
Print Assumptions C13_ids_refine_spec.

(* exactly which inputs the entropy function refuses: an outpoint hash or a contract hash that is not 32 bytes *)
Theorem C13_compute_entropy_error_iff : forall hash n chash,
  compute_entropy hash n chash = None <-> length hash <> 32%nat \/ length chash <> 32%nat.
Proof. exact compute_entropy_error_iff. Qed.
Print Assumptions C13_compute_entropy_error_iff.

(* in particular a contract hash of any other length (a short one would make the mid-state helper return the
   SHA-256 initial state for every outpoint) *)
Theorem C13_compute_entropy_rejects_bad_contract_hash : forall hash n chash,
  length chash <> 32%nat -> compute_entropy hash n chash = None.
Proof. intros hash n chash H. apply compute_entropy_error_iff. right. exact H. Qed.
Print Assumptions C13_compute_entropy_rejects_bad_contract_hash.

(* asset id and the two token ids are pairwise distinct (ideal compression function) *)
Theorem C13_ids_pairwise_distinct : forall (cmp : bytes -> bytes),
  (forall a b, length a = 64%nat -> length b = 64%nat -> cmp a = cmp b -> a = b) ->
  forall e, length e = 32%nat ->
    asset_of cmp e <> token_of cmp e false /\
    asset_of cmp e <> token_of cmp e true /\
    token_of cmp e false <> token_of cmp e true.
Proof. exact ids_pairwise_distinct. Qed.
Print Assumptions C13_ids_pairwise_distinct.

(* so the token id tells the flag it was derived with *)
Theorem C13_token_id_flag_iff : forall (cmp : bytes -> bytes),
  (forall a b, length a = 64%nat -> length b = 64%nat -> cmp a = cmp b -> a = b) ->
  forall e c, length e = 32%nat -> (token_of cmp e c = token_of cmp e true <-> c = true).
Proof.
  intros cmp Hcmp e c He. split; [|intros ->; reflexivity]. destruct c; [reflexivity|].
  intro E. exfalso. exact (proj2 (proj2 (ids_pairwise_distinct cmp Hcmp e He)) E).
Qed.
Print Assumptions C13_token_id_flag_iff.

(* different outpoints or contract hashes never share an entropy (ideal compression function and hash) *)
Theorem C13_entropy_injective : forall (cmp : bytes -> bytes),
  (forall a b, length a = 64%nat -> length b = 64%nat -> cmp a = cmp b -> a = b) ->
  forall (H : bytes -> bytes) h n ch h' n' ch',
    (forall x, length (H x) = 32%nat) -> (forall x y, H x = H y -> x = y) ->
    length h = 32%nat -> length h' = 32%nat -> n < 2 ^ 32 -> n' < 2 ^ 32 -> length ch = 32%nat -> length ch' = 32%nat ->
    entropy_of cmp H h n ch = entropy_of cmp H h' n' ch' -> h = h' /\ n = n' /\ ch = ch'.
Proof. exact entropy_injective. Qed.
Print Assumptions C13_entropy_injective.

(* contract hash: key-sorted JSON, independent of the order of the fields.  Two families of orders first
   (every rotation, the reverse); they are instances of the full statement that follows *)
Theorem C13_contract_json_key_order_partial : forall c k,
  ser_json 3 (JObj (iss_rotate k (contract_fields c))) = contract_json c /\
  ser_json 3 (JObj (rev (contract_fields c))) = contract_json c.
Proof.
  intros c k. split; apply contract_json_key_order.
  - unfold iss_rotate. rewrite Permutation_app_comm, firstn_skipn. reflexivity.
  - apply Permutation_sym, Permutation_rev.
Qed.
Print Assumptions C13_contract_json_key_order_partial.

(* the full statement: every permutation of the six fields gives the same key-sorted JSON and the same hash *)
Theorem C13_contract_json_key_order : forall c l,
  Permutation l (contract_fields c) -> ser_json 3 (JObj l) = contract_json c.
Proof. exact contract_json_key_order. Qed.
Print Assumptions C13_contract_json_key_order.

Theorem C13_contract_hash_key_order : forall c l,
  Permutation l (contract_fields c) -> sha256 (ser_json 3 (JObj l)) = contract_hash c.
Proof. intros c l P. unfold contract_hash. rewrite (contract_json_key_order c l P). reflexivity. Qed.
Print Assumptions C13_contract_hash_key_order.

(* psetv2 AddInIssuance: outputs pay the ids derived from the target input's outpoint; token flag = BlindedIssuance *)
Theorem C13_v2_issuance_outputs_pay_derived_ids : forall p idx a p',
  v2_add_in_issuance p idx a = (true, p') ->
  exists input entropy asset token,
    let k := Z.to_nat idx in
    let bidx := Z.to_N idx mod 4294967296 in
    (0 <= idx)%Z /\ nth_error (v2_ins p) k = Some input /\ vi_entropy input = None /\
    compute_entropy (vi_txid input) (vi_index input) (chash_of (ia_contract a)) = Some entropy /\
    compute_asset entropy = Some asset /\
    compute_token entropy (iss_flag_of (ia_blinded a)) = Some token /\
    v2_outs p' = v2_outs p ++
                 v2_new_output asset (ia_asset a) (ia_aaddr a) bidx bidx ::
                 (if 0 <? ia_token a then [v2_new_output token (ia_token a) (ia_taddr a) bidx bidx] else []) /\
    v2_ins p' = iss_set_nth k (fun _ => v2_issued_input input a) (v2_ins p) /\
    nth_error (v2_ins p') k = Some (v2_issued_input input a) /\
    ia_precision a <= 8.
Proof. exact v2_issuance_outputs_pay_derived_ids. Qed.
Print Assumptions C13_v2_issuance_outputs_pay_derived_ids.

(* the derived-id getters of the updated input return the ids those outputs pay *)
Theorem C13_v2_getters_agree_with_outputs : forall input a entropy asset token,
  compute_entropy (vi_txid input) (vi_index input) (chash_of (ia_contract a)) = Some entropy ->
  compute_asset entropy = Some asset ->
  compute_token entropy (iss_flag_of (ia_blinded a)) = Some token ->
  (0 < ia_asset a \/ 0 < ia_token a) ->
  get_issuance_asset_hash (v2_issued_input input a) = Some asset /\
  get_issuance_keys_hash (v2_issued_input input a) = Some token.
Proof. exact v2_getters_agree_with_outputs. Qed.
Print Assumptions C13_v2_getters_agree_with_outputs.

(* psetv2 AddInReissuance: ids from the given entropy (byte-reversed hex), token always the confidential one;
   the input records blinding nonce and entropy *)
Theorem C13_v2_reissuance_outputs_pay_derived_ids : forall p idx a p',
  v2_add_in_reissuance p idx a = (true, p') ->
  exists input eh asset token,
    let k := Z.to_nat idx in
    let bidx := Z.to_N idx mod 4294967296 in
    let entropy := rev eh in
    (0 <= idx)%Z /\ nth_error (v2_ins p) k = Some input /\ vi_entropy input = None /\
    r2_entropy a = Some eh /\ length entropy = 32%nat /\
    length (r2_blinder a) = 32%nat /\ r2_blinder a <> zero32b /\ 0 < r2_asset a /\ 0 < r2_token a /\
    compute_asset entropy = Some asset /\
    compute_token entropy 1 = Some token /\
    v2_outs p' = v2_outs p ++ [v2_new_output asset (r2_asset a) (r2_aaddr a) 0 bidx;
                               v2_new_output token (r2_token a) (r2_taddr a) 0 bidx] /\
    v2_ins p' = iss_set_nth k (fun _ => v2_reissued_input input a entropy) (v2_ins p) /\
    nth_error (v2_ins p') k = Some (v2_reissued_input input a entropy).
Proof. exact v2_reissuance_outputs_pay_derived_ids. Qed.
Print Assumptions C13_v2_reissuance_outputs_pay_derived_ids.

(* issuance fields of UnsignedTx and Extract versus the packet: every input, zero amounts included *)
Theorem C13_tx_issuance_fields_agree_with_packet : forall i,
  vi_vcommit i = None -> vi_kcommit i = None ->
  unsigned_issuance i = expected_issuance i /\ extract_issuance i = expected_issuance i.
Proof. exact tx_issuance_fields_agree_with_packet. Qed.
Print Assumptions C13_tx_issuance_fields_agree_with_packet.

(* UnsignedTx and Extract build the issuance of an input by the same rules; Model/Issuance.v writes those rules
   once (tx_issuance_of) and defines both views by it, so this holds by definition and adds nothing to the
   theorem above.  Whether the two Go functions follow the same rules is a matter of the correspondence of the
   model with /repo, not of this theorem. *)
Theorem C13_unsigned_and_extract_agree : forall i, unsigned_issuance i = extract_issuance i.
Proof. intro i. reflexivity. Qed.
Print Assumptions C13_unsigned_and_extract_agree.

(* a new issuance as AddInIssuance leaves it: 32-zero nonce, contract hash as entropy, amount encodings *)
Theorem C13_v2_new_issuance_tx_fields : forall input a,
  vi_vcommit input = None -> vi_kcommit input = None ->
  let want := Some (mk_iss zero32b (chash_of (ia_contract a)) (spec_amount (ia_asset a)) (spec_amount (ia_token a))) in
  expected_issuance (v2_issued_input input a) = want /\
  unsigned_issuance (v2_issued_input input a) = want /\
  extract_issuance (v2_issued_input input a) = want.
Proof.
  intros input a Hv Hk. cbv zeta.
  destruct (tx_issuance_fields_agree_with_packet (v2_issued_input input a) Hv Hk) as [-> ->].
  repeat split.
Qed.
Print Assumptions C13_v2_new_issuance_tx_fields.

(* a reissuance as AddInReissuance leaves it: blinding nonce, entropy, asset amount, null token amount.
   `0 < r2_asset a` is what a successful call guarantees; the equations hold without it and the proof
   does not use it *)
Theorem C13_v2_reissuance_tx_fields : forall input a entropy,
  vi_vcommit input = None -> vi_kcommit input = None -> vi_keys input = 0 -> 0 < r2_asset a ->
  let i := v2_reissued_input input a entropy in
  unsigned_issuance i = Some (mk_iss (r2_blinder a) entropy (spec_amount (r2_asset a)) [x00]) /\
  extract_issuance i = unsigned_issuance i /\ expected_issuance i = unsigned_issuance i.
Proof.
  intros input a entropy Hv Hk Hz _. cbv zeta.
  destruct (tx_issuance_fields_agree_with_packet (v2_reissued_input input a entropy) Hv Hk) as [-> ->].
  unfold expected_issuance, v2_reissued_input. cbn [vi_entropy vi_nonce vi_value vi_keys iss_obytes]. rewrite Hz.
  repeat split.
Qed.
Print Assumptions C13_v2_reissuance_tx_fields.

(* pset v0 AddIssuance: the first input without an issuance issues; outputs, input fields, and the entropy the
   library derives back from the finished input *)
Theorem C13_v0_issuance_outputs_pay_derived_ids : forall p a p',
  v0_add_issuance p a = (true, p') ->
  exists idx i entropy asset token,
    find_empty (t_ins (v0_tx p)) 0 = Some (idx, i) /\ nth_error (t_ins (v0_tx p)) idx = Some i /\
    compute_entropy (in_hash i) (in_index i) (chash_of (ia_contract a)) = Some entropy /\
    compute_asset entropy = Some asset /\
    compute_token entropy (iss_flag_of (ad_conf (ia_aaddr a))) = Some token /\
    t_outs (v0_tx p') = t_outs (v0_tx p) ++
      (if 0 <? ia_asset a then [new_tx_output (explicit_asset asset) (spec_amount (ia_asset a)) (ad_script (ia_aaddr a))] else []) ++
      (if 0 <? ia_token a then [new_tx_output (explicit_asset token) (spec_amount (ia_token a)) (ad_script (ia_taddr a))] else []) /\
    t_ins (v0_tx p') = iss_set_nth idx (fun x => set_in_iss x (v0_issued_issuance a)) (t_ins (v0_tx p)) /\
    nth_error (t_ins (v0_tx p')) idx = Some (set_in_iss i (v0_issued_issuance a)) /\
    option_map (fun ie => iss_entropy (ie_iss ie)) (new_from_input (in_hash i) (in_index i) (v0_issued_issuance a)) = Some entropy /\
    (0 < ia_token a -> ad_present (ia_aaddr a) = true -> ad_conf (ia_aaddr a) = ad_conf (ia_taddr a)).
Proof. exact v0_issuance_outputs_pay_derived_ids. Qed.
Print Assumptions C13_v0_issuance_outputs_pay_derived_ids.

(* pset v0 AddReissuance: a new input spending the token prevout is appended (the packet keeps one Input per
   transaction input: first hypothesis) *)
Theorem C13_v0_reissuance_outputs_pay_derived_ids : forall p a p',
  v0_nin p = lenL (t_ins (v0_tx p)) ->
  v0_add_reissuance p a = (true, p') ->
  exists hh eh asset token,
    let entropy := rev eh in
    rva_hash a = Some hh /\ length hh = 32%nat /\ rva_entropy a = Some eh /\ length entropy = 32%nat /\
    0 < rva_asset a /\ 0 < rva_token a /\ length (rva_blinder a) = 32%nat /\
    compute_asset entropy = Some asset /\
    compute_token entropy 1 = Some token /\
    t_outs (v0_tx p') = t_outs (v0_tx p) ++
      [new_tx_output (explicit_asset asset) (spec_amount (rva_asset a)) (ad_script (rva_aaddr a));
       new_tx_output (explicit_asset token) (spec_amount (rva_token a)) (ad_script (rva_taddr a))] /\
    t_ins (v0_tx p') = t_ins (v0_tx p) ++
      [set_in_iss (new_tx_input (rev hh) (rva_index a))
                  (mk_iss (rva_blinder a) entropy (spec_amount (rva_asset a)) [x00])].
Proof. exact v0_reissuance_outputs_pay_derived_ids. Qed.
Print Assumptions C13_v0_reissuance_outputs_pay_derived_ids.

(* histories: over any sequence of calls on one updater, an issuance or reissuance once attached to an
   input is never replaced (so the outputs earlier calls added keep the input that issues them) *)
Theorem C13_v0_history_keeps_issuances : forall ops p, v0_inv p ->
  v0_keeps p (fold_left v0_step ops p) /\ v0_inv (fold_left v0_step ops p).
Proof. exact v0_history_keeps_issuances. Qed.
Print Assumptions C13_v0_history_keeps_issuances.

(* once every input issues, AddIssuance is refused and changes nothing *)
Theorem C13_v0_add_issuance_needs_a_free_input : forall p a,
  (forall x, In x (t_ins (v0_tx p)) -> in_iss x <> None) -> v0_add_issuance p a = (false, p).
Proof. exact v0_add_issuance_needs_a_free_input. Qed.
Print Assumptions C13_v0_add_issuance_needs_a_free_input.

Theorem C13_v2_history_keeps_issuances : forall ops p, v2_keeps p (fold_left v2_step ops p).
Proof. exact v2_history_keeps_issuances. Qed.
Print Assumptions C13_v2_history_keeps_issuances.

(* a refused v2 call returns the packet as it was *)
Theorem C13_v2_refused_calls_change_nothing : forall p idx,
  (forall a p', v2_add_in_issuance p idx a = (false, p') -> p' = p) /\
  (forall a p', v2_add_in_reissuance p idx a = (false, p') -> p' = p).
Proof. intros p idx. split; intros a p'; [apply v2_add_in_issuance_refused | apply v2_add_in_reissuance_refused]. Qed.
Print Assumptions C13_v2_refused_calls_change_nothing.

(* the peg-in flag and the issuance of an input reach the transaction independently of each other *)
Theorem C13_pegin_input_keeps_its_issuance : forall i,
  vi_vcommit i = None -> vi_kcommit i = None ->
  unsigned_pegin i = vi_pegin i /\ extract_pegin i = vi_pegin i /\
  unsigned_issuance i = expected_issuance i /\ extract_issuance i = expected_issuance i.
Proof. intros i Hv Hk. repeat split; apply tx_issuance_fields_agree_with_packet; assumption. Qed.
Print Assumptions C13_pegin_input_keeps_its_issuance.
