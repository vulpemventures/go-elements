(* Props/C14.v — property theorems only.  C14: addresses round-trip and agree across their forms.
   `ext_laws` bundles the round-trip laws of the EXTERNAL codecs (btcutil base58check, bech32,
   bech32.ConvertBits) and is a hypothesis.  `regroup_law` / `regroup_back_law` are the regrouping laws of the
   repository's own blech32.ConvertBits; they are theorems (C14_regroup_law, C14_regroup_back_law).  Three
   theorems are stated twice: once with such a law as a premise (which the proof does not use) and once
   without it (`_closed`); the two say the same. *)
From GE Require Import Lib.Bytes Model.Blech32 Proofs.Blech32 Proofs.Regroup Model.Address Proofs.Address Proofs.AddressRegroup.
Import B32 Addr.
Open Scope N_scope.

(* network constants of today's source: version bytes and prefixes never collide *)
Theorem C14_version_bytes_disjoint : forall n1 n2 v, In n1 nets -> In n2 nets ->
  In v (versions n1) -> In v (versions n2) -> n1 = n2.
Proof. exact version_bytes_disjoint. Qed.
Print Assumptions C14_version_bytes_disjoint.

(* the six human-readable parts: pairwise different at a position both have (so none is a prefix of another),
   lower case, at least two characters, all passing char_ok, none of them the separator *)
Theorem C14_hrps_disjoint :
  forallb (fun a => forallb (fun b => bytes_eqb a b || differ_within a b) all_hrps) all_hrps = true /\
  forallb (fun a => (2 <=? length a)%nat && forallb char_ok a && bytes_eqb (map to_lower a) a &&
                    forallb (fun c => negb (beqb c sep)) a) all_hrps = true /\
  NoDup all_hrps.
Proof.
  split; [reflexivity|]. split; [reflexivity|].
  repeat (constructor; [cbn; intros H; repeat (destruct H as [H|H]; [vm_compute in H; discriminate H|]); exact H|]).
  constructor.
Qed.
Print Assumptions C14_hrps_disjoint.

Section WithCodecs.
Variables (b58enc : bytes -> byte -> bytes) (b58dec : bytes -> option (bytes * byte))
  (bech_dec : bytes -> option (bytes * bytes * bool)) (bech_enc : bool -> bytes -> bytes -> option bytes)
  (bcb : bytes -> N -> N -> bool -> option bytes).
Hypothesis L : ext_laws b58enc b58dec bech_dec bech_enc bcb.

(* base58 and confidential base58: decode(encode) and encode(decode), layout prefix | key | hash *)
Theorem C14_base58_roundtrip : forall v d, length d = 20%nat ->
  from_base58 b58dec (to_base58 b58enc v d) = Ok (v, d).
Proof. exact (from_to_base58 _ _ _ _ _ L). Qed.
Theorem C14_base58_reencode : forall s v d, from_base58 b58dec s = Ok (v, d) -> to_base58 b58enc v d = s.
Proof. exact (to_from_base58 _ _ _ _ _ L). Qed.
Theorem C14_base58_conf_roundtrip : forall cv v key d, length key = 33%nat -> length d = 20%nat ->
  from_base58_conf b58dec (to_base58_conf b58enc cv v key d) = Ok (cv, v, key, d).
Proof. exact (from_to_base58_conf _ _ _ _ _ L). Qed.
Theorem C14_base58_conf_reencode : forall s cv v key d,
  from_base58_conf b58dec s = Ok (cv, v, key, d) -> to_base58_conf b58enc cv v key d = s.
Proof. exact (to_from_base58_conf _ _ _ _ _ L). Qed.

(* every network x {P2PKH, P2SH} x payload: network, type, confidentiality flag and script *)
Theorem C14_base58_forms : forall n pkh d, In n nets -> length d = 20%nat ->
  let s := to_base58 b58enc (ver_of n pkh) d in
  network_for_address b58dec s = Ok n /\ decode_type b58dec bech_dec bcb s = Ok (is_pkh_type pkh) /\
  is_confidential b58dec bech_dec bcb s = Ok false /\
  to_output_script b58dec bech_dec bcb s = of_opt (script_of pkh d).
Proof. exact (type_of_base58 _ _ _ _ _ L). Qed.
Theorem C14_base58_conf_forms : forall n pkh key d, In n nets -> length key = 33%nat -> length d = 20%nat ->
  let s := to_base58_conf b58enc (n_conf n) (ver_of n pkh) key d in
  network_for_address b58dec s = Ok n /\ decode_type b58dec bech_dec bcb s = Ok (is_cpkh_type pkh) /\
  is_confidential b58dec bech_dec bcb s = Ok true /\
  to_output_script b58dec bech_dec bcb s = of_opt (script_of pkh d).
Proof. exact (type_of_base58_conf _ _ _ _ _ L). Qed.

(* every network x {P2WPKH, P2WSH, P2TR} x program: encode, decode back, network, type, script *)
Theorem C14_bech32_forms : forall n tr prog, In n nets -> seg_ok tr prog ->
  exists s, to_bech32 bech_enc bcb (n_bech32 n) (seg_ver tr) prog = Ok s /\
    from_bech32 bech_dec bcb s = Ok (n_bech32 n, seg_ver tr, prog) /\
    network_for_address b58dec s = Ok n /\ decode_type b58dec bech_dec bcb s = Ok (seg_type tr prog) /\
    is_confidential b58dec bech_dec bcb s = Ok false /\
    to_output_script b58dec bech_dec bcb s = of_opt (script_segwit (seg_ver tr) prog).
Proof. exact (bech32_forms _ _ _ _ _ L). Qed.

(* ... and their confidential (blech32 / blech32m) forms with a 33-byte blinding key *)
Theorem C14_blech32_forms : regroup_law -> forall n tr key prog, In n nets -> seg_ok tr prog -> length key = 33%nat ->
  exists s, to_blech32 (n_blech32 n) (seg_ver tr) key prog = Ok s /\
    from_blech32 s = Ok (n_blech32 n, seg_ver tr, key, prog) /\
    network_for_address b58dec s = Ok n /\ decode_type b58dec bech_dec bcb s = Ok (cseg_type tr prog) /\
    is_confidential b58dec bech_dec bcb s = Ok true /\
    to_output_script b58dec bech_dec bcb s = of_opt (script_segwit (seg_ver tr) prog).
Proof using L. exact (fun _ => blech32_forms b58dec bech_dec bcb). Qed.

(* confidential <-> unconfidential preserves address, key and script (= the payment builder's script) *)
Theorem C14_conf_unconf_base58 : forall n pkh key d scr, In n nets -> length key = 33%nat -> length d = 20%nat ->
  script_of pkh d = Some scr ->
  let u := to_base58 b58enc (ver_of n pkh) d in
  let c := to_base58_conf b58enc (n_conf n) (ver_of n pkh) key d in
  to_confidential b58enc b58dec bech_dec bcb u key = Ok c /\
  from_confidential b58enc b58dec bech_dec bech_enc bcb c = Ok (u, key, scr).
Proof. exact (conf_unconf_base58 _ _ _ _ _ L). Qed.
Theorem C14_conf_unconf_segwit : regroup_law -> forall n tr key prog, In n nets -> seg_ok tr prog -> length key = 33%nat ->
  exists u c scr, to_bech32 bech_enc bcb (n_bech32 n) (seg_ver tr) prog = Ok u /\
    to_blech32 (n_blech32 n) (seg_ver tr) key prog = Ok c /\
    script_segwit (seg_ver tr) prog = Some scr /\
    to_output_script b58dec bech_dec bcb u = Ok scr /\ to_output_script b58dec bech_dec bcb c = Ok scr /\
    to_confidential b58enc b58dec bech_dec bcb u key = Ok c /\
    from_confidential b58enc b58dec bech_dec bech_enc bcb c = Ok (u, key, scr).
Proof. exact (fun _ => conf_unconf_segwit _ _ _ _ _ L). Qed.

(* C14_blech32_forms and C14_conf_unconf_segwit without the regrouping premise *)
Theorem C14_blech32_forms_closed : forall n tr key prog, In n nets -> seg_ok tr prog -> length key = 33%nat ->
  exists s, to_blech32 (n_blech32 n) (seg_ver tr) key prog = Ok s /\
    from_blech32 s = Ok (n_blech32 n, seg_ver tr, key, prog) /\
    network_for_address b58dec s = Ok n /\ decode_type b58dec bech_dec bcb s = Ok (cseg_type tr prog) /\
    is_confidential b58dec bech_dec bcb s = Ok true /\
    to_output_script b58dec bech_dec bcb s = of_opt (script_segwit (seg_ver tr) prog).
Proof using L. exact (blech32_forms b58dec bech_dec bcb). Qed.
Theorem C14_conf_unconf_segwit_closed : forall n tr key prog, In n nets -> seg_ok tr prog -> length key = 33%nat ->
  exists u c scr, to_bech32 bech_enc bcb (n_bech32 n) (seg_ver tr) prog = Ok u /\
    to_blech32 (n_blech32 n) (seg_ver tr) key prog = Ok c /\
    script_segwit (seg_ver tr) prog = Some scr /\
    to_output_script b58dec bech_dec bcb u = Ok scr /\ to_output_script b58dec bech_dec bcb c = Ok scr /\
    to_confidential b58enc b58dec bech_dec bcb u key = Ok c /\
    from_confidential b58enc b58dec bech_dec bech_enc bcb c = Ok (u, key, scr).
Proof. exact (conf_unconf_segwit _ _ _ _ _ L). Qed.

(* version-0 programs only with the bech32 constant, version-1 programs only with bech32m:
   the same program under the constant of the other version is rejected (fix e7c9f3c) *)
Theorem C14_other_constant_rejected : forall n tr prog s', In n nets -> seg_ok tr prog ->
  (forall c, bcb prog 8 5 true = Some c -> bech_enc (negb tr) (n_bech32 n) (seg_ver tr :: c) = Some s') ->
  from_bech32 bech_dec bcb s' = Err /\ decode_type b58dec bech_dec bcb s' = Err.
Proof. exact (other_constant_rejected _ _ _ _ _ L). Qed.

(* any string FromBech32 accepts with version 0 or 1 (all that DecodeType recognises), in either case
   spelling, re-encodes to its lower-case spelling *)
Theorem C14_bech32_recognised_reencodes : forall s p v prog,
  from_bech32 bech_dec bcb s = Ok (p, v, prog) -> n8 v <= 1 ->
  to_bech32 bech_enc bcb p v prog = Ok (map to_lower s).
Proof. exact (bech32_recognised_reencodes _ _ _ _ _ L). Qed.
(* DecodeType recognises a bech32 string only with witness version 0 or 1 *)
Theorem C14_recognised_bech32_versions : forall s t, decode_bech32 bech_dec bcb s = Ok t ->
  exists p v prog, from_bech32 bech_dec bcb s = Ok (p, v, prog) /\ n8 v <= 1.
Proof using L.
  intros s t. unfold decode_bech32. destruct (from_bech32 bech_dec bcb s) as [[[p v] prog]| |]; try discriminate.
  unfold decode_segwit_type. intro H. exists p, v, prog. split; [reflexivity|].
  destruct (N.eqb_spec (n8 v) 0); [lia|]. destruct (N.eqb_spec (n8 v) 1); [lia | discriminate].
Qed.

(* the payment builder's address methods are these encoders *)
Theorem C14_payment_addresses : forall n hash whash tap key, hash <> [] -> whash <> [] -> length tap = 32%nat ->
  pay_address b58enc bech_enc bcb 0 n hash whash tap key = Ok (to_base58 b58enc (n_pkh n) hash) /\
  pay_address b58enc bech_enc bcb 1 n hash whash tap key = Ok (to_base58_conf b58enc (n_conf n) (n_pkh n) key hash) /\
  pay_address b58enc bech_enc bcb 2 n hash whash tap key = Ok (to_base58 b58enc (n_sh n) hash) /\
  pay_address b58enc bech_enc bcb 3 n hash whash tap key = Ok (to_base58_conf b58enc (n_conf n) (n_sh n) key hash) /\
  pay_address b58enc bech_enc bcb 4 n hash whash tap key = swallow (to_bech32 bech_enc bcb (n_bech32 n) x00 whash) /\
  pay_address b58enc bech_enc bcb 5 n hash whash tap key = to_blech32 (n_blech32 n) x00 key whash /\
  pay_address b58enc bech_enc bcb 6 n hash whash tap key = to_bech32 bech_enc bcb (n_bech32 n) x00 whash /\
  pay_address b58enc bech_enc bcb 7 n hash whash tap key = swallow (to_blech32 (n_blech32 n) x00 key whash) /\
  pay_address b58enc bech_enc bcb 8 n hash whash tap key = to_bech32 bech_enc bcb (n_bech32 n) x01 tap /\
  pay_address b58enc bech_enc bcb 9 n hash whash tap key = swallow (to_blech32 (n_blech32 n) x01 key tap).
Proof.
  intros n hash whash tap key H1 H2 H3. unfold pay_address, lenb. rewrite H3.
  destruct hash as [|h0 hr]; [congruence|]. destruct whash as [|w0 wr]; [congruence|].
  repeat split; reflexivity.
Qed.
End WithCodecs.

Print Assumptions C14_base58_roundtrip.
Print Assumptions C14_base58_reencode.
Print Assumptions C14_base58_conf_roundtrip.
Print Assumptions C14_base58_conf_reencode.
Print Assumptions C14_base58_forms.
Print Assumptions C14_base58_conf_forms.
Print Assumptions C14_bech32_forms.
Print Assumptions C14_blech32_forms.
Print Assumptions C14_conf_unconf_base58.
Print Assumptions C14_conf_unconf_segwit.
Print Assumptions C14_blech32_forms_closed.
Print Assumptions C14_conf_unconf_segwit_closed.
Print Assumptions C14_other_constant_rejected.
Print Assumptions C14_bech32_recognised_reencodes.
Print Assumptions C14_recognised_bech32_versions.
Print Assumptions C14_payment_addresses.

(* any string FromBlech32 accepts, in either case spelling, re-encodes to its lower-case spelling (blech32
   Decode/Encode of C15 and the 5->8->5 regrouping of blech32.ConvertBits; the premise regroup_back_law is
   C14_regroup_back_law below and the proof does not use it: C14_blech32_recognised_reencodes_closed) *)
Theorem C14_blech32_recognised_reencodes : forall s p v k pr, regroup_back_law ->
  from_blech32 s = Ok (p, v, k, pr) -> to_blech32 p v k pr = Ok (map to_lower s).
Proof. exact (fun s p v k pr _ => blech32_recognised_reencodes s p v k pr). Qed.
Print Assumptions C14_blech32_recognised_reencodes.

(* the regrouping laws of blech32.ConvertBits, for all byte lists (Proofs/Regroup.v) *)
Theorem C14_regroup_law : forall d, exists c, convert_bits d 8 5 true = Some c /\
  Forall (fun b => n8 b < 32) c /\ convert_bits c 5 8 false = Some d /\ (length c <= 2 * length d)%nat.
Proof. exact regroup_roundtrip. Qed.
Print Assumptions C14_regroup_law.

Theorem C14_regroup_back_law : forall c d, Forall (fun b => n8 b < 32) c ->
  convert_bits c 5 8 false = Some d -> convert_bits d 8 5 true = Some c.
Proof. exact regroup_back. Qed.
Print Assumptions C14_regroup_back_law.

(* ... hence, without premise: whatever FromBlech32 accepts re-encodes to its lower-case spelling *)
Theorem C14_blech32_recognised_reencodes_closed : forall s p v k pr,
  from_blech32 s = Ok (p, v, k, pr) -> to_blech32 p v k pr = Ok (map to_lower s).
Proof. exact blech32_recognised_reencodes. Qed.
Print Assumptions C14_blech32_recognised_reencodes_closed.

(* network attribution is exclusive for EVERY string (the whole human-readable part is compared, fix
   233bf85): the network NetworkForAddress names is the only one whose prefix / version fits *)
Theorem C14_attribution_exclusive : forall (b58dec : bytes -> option (bytes * byte)) s n,
  network_for_address b58dec s = Ok n ->
  In n nets /\
  ((In (segwit_prefix s) (hrps n) /\ forall n', In n' nets -> In (segwit_prefix s) (hrps n') -> n' = n) \/
   (net_by_hrp s = None /\ exists d v, b58dec s = Some (d, v) /\ In v (versions n) /\
      forall n', In n' nets -> In v (versions n') -> n' = n)).
Proof. exact attribution_exclusive. Qed.
Print Assumptions C14_attribution_exclusive.

(* a confidential segwit string recognised under network n IS the canonical encoding of
   (n, version, blinding key, program): same prefix, and ToBlech32 gives back the very string *)
Theorem C14_blech32_recognised_canonical : forall s n p v k pr, In n nets ->
  is_hrp s (n_blech32 n) = true -> from_blech32 s = Ok (p, v, k, pr) ->
  p = n_blech32 n /\ to_blech32 (n_blech32 n) v k pr = Ok s.
Proof. exact blech32_recognised_canonical. Qed.
Print Assumptions C14_blech32_recognised_canonical.

(* a confidential base58 address is recognised only when the inner address prefix (p2pkh / p2sh) belongs to
   the network of the outer confidential prefix: hybrids of two networks are never recognised *)
Theorem C14_conf_base58_inner_prefix : forall (b58dec : bytes -> option (bytes * byte))
  (bech_dec : bytes -> option (bytes * bytes * bool)) (bcb : bytes -> N -> N -> bool -> option bytes) s t,
  decode_type b58dec bech_dec bcb s = Ok t -> t = ConfidentialP2Pkh \/ t = ConfidentialP2Sh ->
  exists n p rest, network_for_address b58dec s = Ok n /\ In n nets /\
    b58dec s = Some (p :: rest, n_conf n) /\ length (p :: rest) = 54%nat /\
    ((p = n_pkh n /\ t = ConfidentialP2Pkh) \/ (p = n_sh n /\ t = ConfidentialP2Sh)).
Proof. exact conf_base58_inner_prefix. Qed.
Print Assumptions C14_conf_base58_inner_prefix.
