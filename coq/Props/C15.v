(* Props/C15.v — property theorems only.  C15: the blech32 checksum detects every substitution of one or two
   characters of an accepted string, the constant is bound to the witness version, and the case rules hold. *)
From GE Require Import Lib.Bytes Model.Blech32 Proofs.Blech32 Proofs.Blech32Hrp.
Import B32.
Open Scope N_scope.

(* GF(2)-linearity of one polymod step and of the whole fold *)
Theorem C15_polymod_step_linear : forall c c' v v',
  polymod_step (N.lxor c c') (N.lxor v v') = N.lxor (polymod_step c v) (polymod_step c' v').
Proof. exact polymod_step_linear. Qed.
Print Assumptions C15_polymod_step_linear.

Theorem C15_polymod_linear : forall vs ws c d, length vs = length ws ->
  polymod_from (N.lxor c d) (xor_list vs ws) = N.lxor (polymod_from c vs) (polymod_from d ws).
Proof. exact polymod_linear. Qed.
Print Assumptions C15_polymod_linear.

(* int64 never overflows: the N model of the words is exact *)
Theorem C15_polymod_no_overflow : forall vs c, c < 2 ^ 60 -> Forall (fun v => v < 2 ^ 60) vs ->
  polymod_from c vs < 2 ^ 60.
Proof. exact polymod_from_bound. Qed.
Print Assumptions C15_polymod_no_overflow.

(* verify (data ++ create_checksum data) for every hrp, data and constant *)
Theorem C15_checksum_correct : forall hrp data enc, enc < 2 ^ 60 ->
  verify_checksum hrp (data ++ create_checksum hrp data enc) enc = true.
Proof. exact checksum_correct. Qed.
Print Assumptions C15_checksum_correct.

(* the finite core, over the generator constants of Gen/Blech32Consts.v: for the 31 non-zero error values and
   the 1000 distances from the end that the decoder admits, all single-symbol syndromes are non-zero and pairwise
   distinct, and a version flip (error value 1 at the version symbol) never produces BM = BLECH32 xor BLECH32M,
   alone or with a second error nearer to the end.  Behind both: the step is injective, and a scan evaluated in
   the kernel finds that no syndrome, shifted further, is a single symbol again or meets a version flip. *)
Theorem C15_syndromes_distinct : forall d1 v1 d2 v2,
  (d1 < NMAX)%nat -> (d2 < NMAX)%nat -> In v1 vals -> In v2 vals ->
  shift d1 v1 <> 0 /\ (shift d1 v1 = shift d2 v2 -> d1 = d2 /\ v1 = v2).
Proof. intros d1 v1 d2 v2 H1 H2 V1 V2. split; [apply syndrome_nonzero; assumption | apply syndromes_distinct; assumption]. Qed.
Print Assumptions C15_syndromes_distinct.

Theorem C15_version_flip_syndromes : forall d d2 v2, (d < NMAX)%nat -> (d2 < d)%nat -> In v2 vals ->
  shift d 1 <> BM /\ N.lxor (shift d 1) (shift d2 v2) <> BM.
Proof. intros d d2 v2 H1 H2 V. split; [apply flip_not_BM; assumption | apply flip_pair_not_BM; assumption]. Qed.
Print Assumptions C15_version_flip_syndromes.

(* every accepted string is, in lower case, hrp ++ "1" ++ chars(symbols) *)
Theorem C15_accepted_shape : forall s hrp data, decode s = DOk hrp data ->
  exists syms cs, to_chars syms = Some cs /\ map to_lower s = hrp ++ sep :: cs /\
                  map to_lower hrp = hrp /\ data = firstn (length syms - 12) syms.
Proof. exact accepted_shape. Qed.
Print Assumptions C15_accepted_shape.

(* any accepted string (any hrp, any length) with ONE symbol of the data part
   (version, payload or checksum) replaced by a different symbol is rejected *)
Theorem C15_detects_one : forall hrp syms cs data i x y cs',
  map to_lower hrp = hrp -> to_chars syms = Some cs ->
  decode (hrp ++ sep :: cs) = DOk hrp data ->
  nth_error syms i = Some y -> x <> y -> to_chars (upd syms i x) = Some cs' ->
  decode (hrp ++ sep :: cs') = DErr.
Proof. exact detects_one. Qed.
Print Assumptions C15_detects_one.

(* the same with TWO symbols at different positions replaced *)
Theorem C15_detects_two : forall hrp syms cs data i1 x1 y1 i2 x2 y2 cs',
  map to_lower hrp = hrp -> to_chars syms = Some cs ->
  decode (hrp ++ sep :: cs) = DOk hrp data ->
  i1 <> i2 ->
  nth_error syms i1 = Some y1 -> x1 <> y1 ->
  nth_error syms i2 = Some y2 -> x2 <> y2 ->
  to_chars (upd (upd syms i1 x1) i2 x2) = Some cs' ->
  decode (hrp ++ sep :: cs') = DErr.
Proof. exact detects_two. Qed.
Print Assumptions C15_detects_two.

(* substitutions inside the human-readable part (the three network prefixes of Gen/NetConsts.v: lq, tlq, el),
   for every length the decoder admits, the new character being any of the 32 of the alphabet: ONE character
   of the prefix; TWO; ONE of the prefix and ONE symbol of the data part *)
Theorem C15_detects_hrp_one : forall h syms cs data p c0 c,
  In h std_hrps -> to_chars syms = Some cs -> decode (h ++ sep :: cs) = DOk h data ->
  nth_error h p = Some c0 -> In c charset -> c <> c0 ->
  decode (upd h p c ++ sep :: cs) = DErr.
Proof. exact detects_hrp_one. Qed.
Print Assumptions C15_detects_hrp_one.

Theorem C15_detects_hrp_two : forall h syms cs data p1 c01 c1 p2 c02 c2,
  In h std_hrps -> to_chars syms = Some cs -> decode (h ++ sep :: cs) = DOk h data ->
  p1 <> p2 ->
  nth_error h p1 = Some c01 -> In c1 charset -> c1 <> c01 ->
  nth_error h p2 = Some c02 -> In c2 charset -> c2 <> c02 ->
  decode (upd (upd h p1 c1) p2 c2 ++ sep :: cs) = DErr.
Proof. exact detects_hrp_two. Qed.
Print Assumptions C15_detects_hrp_two.

Theorem C15_detects_hrp_and_data : forall h syms cs data p c0 c i x y cs',
  In h std_hrps -> to_chars syms = Some cs -> decode (h ++ sep :: cs) = DOk h data ->
  nth_error h p = Some c0 -> In c charset -> c <> c0 ->
  nth_error syms i = Some y -> x <> y -> to_chars (upd syms i x) = Some cs' ->
  decode (upd h p c ++ sep :: cs') = DErr.
Proof. exact detects_hrp_and_data. Qed.
Print Assumptions C15_detects_hrp_and_data.

(* the separator replaced by a character of the alphabet (with any other changes that leave no "1") *)
Theorem C15_no_separator_rejected : forall s, Forall (fun c => beqb c sep = false) s -> decode s = DErr.
Proof. exact no_separator_rejected. Qed.
Print Assumptions C15_no_separator_rejected.

(* the structural fact behind the substitution theorems: polymod steps with input 0 are injective on 60-bit words *)
Theorem C15_shift_injective : forall j a b, a < 2 ^ 60 -> b < 2 ^ 60 -> shift j a = shift j b -> a = b.
Proof. exact shift_inj. Qed.
Print Assumptions C15_shift_injective.

(* DecodeGeneric does not look at the checksum: it returns whatever prefix is spelled *)
Theorem C15_decode_generic_ignores_checksum : forall hrp syms cs, to_chars syms = Some cs -> map to_lower hrp = hrp ->
  pre hrp (length syms) = true ->
  decode_generic (hrp ++ sep :: cs) = GOk hrp (firstn (length syms - 12) syms) (skipn (length syms - 12) syms).
Proof. exact decode_generic_ignores_checksum. Qed.
Print Assumptions C15_decode_generic_ignores_checksum.

(* the constant is selected by the witness version *)
Theorem C15_constant_selected_by_version : forall s hrp data, decode s = DOk hrp data ->
  exists v r chk, data = v :: r /\ length chk = 12%nat /\
    ((n8 v = 0 /\ polymod (hrp_expand hrp ++ ints (data ++ chk)) = BLECH32) \/
     (n8 v = 1 /\ polymod (hrp_expand hrp ++ ints (data ++ chk)) = BLECH32M)).
Proof. exact constant_selected_by_version. Qed.
Print Assumptions C15_constant_selected_by_version.

(* data checksummed with the constant of the other witness version is rejected *)
Theorem C15_wrong_constant_rejected : forall hrp v r e e' cs,
  map to_lower hrp = hrp ->
  encoding_of_version v = Some e -> (e' = BLECH32 \/ e' = BLECH32M) -> e' <> e ->
  to_chars ((v :: r) ++ create_checksum hrp (v :: r) e') = Some cs ->
  decode (hrp ++ sep :: cs) = DErr.
Proof. exact wrong_constant_rejected. Qed.
Print Assumptions C15_wrong_constant_rejected.

(* Encode then Decode: symbols within the length limits, with the constant of their version, come back *)
Theorem C15_encode_decode : forall hrp v r e,
  map to_lower hrp = hrp -> pre hrp (length (v :: r) + 12) = true ->
  Forall (fun b => n8 b < 32) (v :: r) -> encoding_of_version v = Some e ->
  exists s, encode hrp (v :: r) e = Some s /\ decode s = DOk hrp (v :: r).
Proof. exact encode_decode. Qed.
Print Assumptions C15_encode_decode.

(* Decode then Encode: an accepted string re-encodes to its lower-case spelling *)
Theorem C15_decode_encode : forall s hrp data, decode s = DOk hrp data ->
  exists v r e, data = v :: r /\ encoding_of_version v = Some e /\ encode hrp data e = Some (map to_lower s).
Proof. exact decode_encode. Qed.
Print Assumptions C15_decode_encode.

(* case rules: a lower-case and an upper-case letter in one string are rejected; the two spellings decode alike;
   an accepted string is accepted in both spellings with the same result *)
Theorem C15_mixed_case_rejected : forall s a b,
  In a s -> is_lower_letter a = true -> In b s -> is_upper_letter b = true -> decode s = DErr.
Proof. exact mixed_case_rejected. Qed.
Print Assumptions C15_mixed_case_rejected.

Theorem C15_case_insensitive : forall s, decode (map to_upper s) = decode (map to_lower s).
Proof. exact case_insensitive. Qed.
Print Assumptions C15_case_insensitive.

Theorem C15_accepted_case_spellings : forall s hrp data, decode s = DOk hrp data ->
  decode (map to_lower s) = DOk hrp data /\ decode (map to_upper s) = DOk hrp data.
Proof. exact accepted_case_spellings. Qed.
Print Assumptions C15_accepted_case_spellings.
