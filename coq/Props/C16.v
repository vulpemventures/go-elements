(* Props/C16.v — taproot: every leaf of an assembled tree proves the root and its control block
   verifies against the output key with the right parity; control-block bytes round-trip; any
   altered block fails under ideal hashes and an ideal group; the tweaked private key matches
   the output key. *)
From GE Require Import Lib.Bytes Lib.Sha256 Model.Taproot Proofs.Taproot.
From Coq Require Import Permutation.
Open Scope nat_scope.

(* the branch hash is commutative BECAUSE of the lexicographic ordering: no hypothesis *)
Theorem C16_branch_hash_commutative : forall (BHR : bytes -> bytes -> bytes) a b,
  branch BHR a b = branch BHR b a.
Proof. exact branch_comm. Qed.
Print Assumptions C16_branch_hash_commutative.

(* every leaf count, every shape the assembler builds: the proof accumulated for each leaf
   recomputes the root; no panic, the merge loop terminates; the tree holds exactly the leaves.
   Only hypothesis on the hashes: digests are 32 bytes (the proofs are flat byte strings). *)
Theorem C16_every_leaf_proves_root :
  forall (LH : tapleaf -> bytes) (BHR : bytes -> bytes -> bytes),
  (forall l, length (LH l) = 32) -> (forall a b, length (BHR a b) = 32) ->
  forall ls, NoDup (map LH ls) -> ls <> [] ->
  exists root st,
    assemble LH BHR ls = Done (Some root, st) /\
    tnode_hash root = tap_hash LH BHR root /\ Permutation (tleaves root) ls /\ length st = length ls /\
    forall i l, nth_error ls i = Some l ->
      exists e, nth_error st i = Some e /\ pe_leaf e = l /\
        (exists k, length (pe_proof e) = 32 * k) /\
        proof_root BHR (pe_proof e) (LH l) = tnode_hash root.
Proof.
  intros LH BHR LH_len BHR_len ls Hnd Hne.
  destruct (every_leaf_proves_root LH BHR LH_len BHR_len ls Hnd Hne) as (root & st & E & Hwf & Hrest).
  exists root, st. split; [exact E|]. split; [|exact Hrest]. apply wf_tap_hash. exact Hwf.
Qed.
Print Assumptions C16_every_leaf_proves_root.

(* the same for the executable Elements tagged SHA-256 hashes: no hypothesis at all *)
Theorem C16_every_leaf_proves_root_sha256 :
  forall ls, NoDup (map leaf_hash ls) -> ls <> [] ->
  exists root st, assembled leaf_hash branch_hash_raw ls root st.
Proof. exact every_leaf_proves_root_sha. Qed.
Print Assumptions C16_every_leaf_proves_root_sha256.

(* each leaf's control block verifies against the one output key of the tree with the
   correct parity bit, and ParseControlBlock (ToBytes cb) = cb *)
Theorem C16_every_leaf_verifies :
  forall (point : Type) (padd : point -> point -> point) (mulG : Z -> point)
    (lift_x : bytes -> option point) (xonly : point -> bytes) (odd_y : point -> bool)
    (TS : bytes -> bytes -> Z) (LH : tapleaf -> bytes) (BHR : bytes -> bytes -> bytes),
  (forall l, length (LH l) = 32) -> (forall a b, length (BHR a b) = 32) ->
  forall (ls : list tapleaf) (p : point), NoDup (map LH ls) -> ls <> [] ->
  exists root st, assembled LH BHR ls root st /\
    forall q, output_key point padd mulG lift_x xonly TS p (tnode_hash root) = Some q ->
    forall i l, nth_error ls i = Some l ->
      exists e cb, nth_error st i = Some e /\ pe_leaf e = l /\
        to_control_block point padd mulG lift_x xonly odd_y TS e p (tnode_hash root) = Some cb /\
        cb_odd cb = odd_y q /\
        verify_commitment point padd mulG lift_x xonly odd_y TS LH BHR cb (xonly q) (tlf_script l) = Some true /\
        forall liftable, wf_cb liftable cb -> parse_cb liftable (ser_cb cb) = Some cb.
Proof. exact every_leaf_verifies. Qed.
Print Assumptions C16_every_leaf_verifies.

(* for one proof entry: ToControlBlock records the parity of the output key, carries the internal
   key, and the block verifies against the output key *)
Theorem C16_parity_bit_correct :
  forall (point : Type) (padd : point -> point -> point) (mulG : Z -> point)
    (lift_x : bytes -> option point) (xonly : point -> bytes) (odd_y : point -> bool)
    (TS : bytes -> bytes -> Z) (LH : tapleaf -> bytes) (BHR : bytes -> bytes -> bytes)
    e p root q,
  proof_root BHR (pe_proof e) (LH (pe_leaf e)) = root ->
  output_key point padd mulG lift_x xonly TS p root = Some q ->
  exists cb, to_control_block point padd mulG lift_x xonly odd_y TS e p root = Some cb /\
    cb_odd cb = odd_y q /\ cb_key cb = xonly p /\
    verify_commitment point padd mulG lift_x xonly odd_y TS LH BHR cb (xonly q) (tlf_script (pe_leaf e)) = Some true.
Proof. exact parity_bit_correct. Qed.
Print Assumptions C16_parity_bit_correct.

(* control-block bytes round-trip (32-byte liftable key, leaf version with bit 0 clear,
   at most 128 proof nodes) *)
Theorem C16_control_block_roundtrip : forall liftable c,
  wf_cb liftable c -> parse_cb liftable (ser_cb c) = Some c.
Proof. exact parse_ser_cb. Qed.
Print Assumptions C16_control_block_roundtrip.

(* what the bytes do to an odd leaf version (fine in memory, see C16_every_leaf_verifies):
   bit 0 is the parity flag, the parsed block carries version & 0xfe and parity = true *)
Theorem C16_control_block_odd_version : forall liftable c,
  length (cb_key c) = 32 -> liftable (cb_key c) = true ->
  (exists k, length (cb_proof c) = 32 * k /\ k <= 128) ->
  N.testbit (n8 (cb_version c)) 0%N = true ->
  parse_cb liftable (ser_cb c) =
  Some (mk_cblock (cb_key c) true (b8 (N.land (n8 (cb_version c)) 0xfe%N)) (cb_proof c)).
Proof. intros liftable c Hk Hl Hp Hv. rewrite (parse_ser_cb_gen liftable c Hk Hl Hp), Hv. reflexivity. Qed.
Print Assumptions C16_control_block_odd_version.

(* the depth bound: 128 nodes (4129 bytes) is accepted by the theorem above, anything longer
   is refused by ParseControlBlock *)
Theorem C16_control_block_max_size : forall liftable bs,
  cb_max_size < length bs -> parse_cb liftable bs = None.
Proof.
  intros liftable bs H. unfold parse_cb. destruct (length bs <? cb_base_size); [reflexivity|].
  apply Nat.ltb_lt in H. rewrite H. reflexivity.
Qed.
Print Assumptions C16_control_block_max_size.

(* the PSET input key pair of a tap leaf script round-trips *)
Theorem C16_pset_tapleaf_roundtrip : forall liftable l c,
  wf_cb liftable c -> cb_version c = tlf_version l ->
  parse_tapleaf_kv liftable (fst (tapleaf_kv l c)) (snd (tapleaf_kv l c)) = KvOk l c.
Proof. exact tapleaf_kv_roundtrip. Qed.
Print Assumptions C16_pset_tapleaf_roundtrip.

(* anything else fails.  Hypotheses of the first two theorems: injective leaf and branch hashes, a
   collision-free tweak commitment, cancellation in the group, a point determined by its x
   coordinate and parity.  Another script or another leaf version under the same block: *)
Theorem C16_other_script_or_version_fails :
  forall (point : Type) (padd : point -> point -> point) (mulG : Z -> point)
    (lift_x : bytes -> option point) (xonly : point -> bytes) (odd_y : point -> bool)
    (TS : bytes -> bytes -> Z) (LH : tapleaf -> bytes) (BHR : bytes -> bytes -> bytes),
  (forall a b, LH a = LH b -> a = b) ->
  (forall a b c d, BHR a b = BHR c d -> a = c /\ b = d) ->
  (forall k r r', mulG (TS k r) = mulG (TS k r') -> r = r') ->
  (forall p a b, padd p a = padd p b -> a = b) ->
  (forall a b, xonly a = xonly b -> odd_y a = odd_y b -> a = b) ->
  forall c prog s v' s',
  mk_tapleaf v' s' <> mk_tapleaf (cb_version c) s ->
  verify_commitment point padd mulG lift_x xonly odd_y TS LH BHR c prog s = Some true ->
  verify_commitment point padd mulG lift_x xonly odd_y TS LH BHR
    (mk_cblock (cb_key c) (cb_odd c) v' (cb_proof c)) prog s' <> Some true.
Proof. exact other_script_or_version_fails. Qed.
Print Assumptions C16_other_script_or_version_fails.

(* exactly one 32-byte node of the inclusion proof replaced by another *)
Theorem C16_altered_node_fails :
  forall (point : Type) (padd : point -> point -> point) (mulG : Z -> point)
    (lift_x : bytes -> option point) (xonly : point -> bytes) (odd_y : point -> bool)
    (TS : bytes -> bytes -> Z) (LH : tapleaf -> bytes) (BHR : bytes -> bytes -> bytes),
  (forall a b c d, BHR a b = BHR c d -> a = c /\ b = d) ->
  (forall k r r', mulG (TS k r) = mulG (TS k r') -> r = r') ->
  (forall p a b, padd p a = padd p b -> a = b) ->
  (forall a b, xonly a = xonly b -> odd_y a = odd_y b -> a = b) ->
  forall c prog s p1 x x' p2 j m,
  cb_proof c = p1 ++ x ++ p2 -> length p1 = 32 * j -> length x = 32 -> length x' = 32 ->
  length p2 = 32 * m -> x' <> x ->
  verify_commitment point padd mulG lift_x xonly odd_y TS LH BHR c prog s = Some true ->
  verify_commitment point padd mulG lift_x xonly odd_y TS LH BHR
    (mk_cblock (cb_key c) (cb_odd c) (cb_version c) (p1 ++ x' ++ p2)) prog s <> Some true.
Proof. exact altered_node_fails. Qed.
Print Assumptions C16_altered_node_fails.

(* the parity bit flipped: fails with no hypothesis on hashes or group (the recomputed output key
   is the same point, its parity is compared) *)
Theorem C16_wrong_parity_fails :
  forall (point : Type) (padd : point -> point -> point) (mulG : Z -> point)
    (lift_x : bytes -> option point) (xonly : point -> bytes) (odd_y : point -> bool)
    (TS : bytes -> bytes -> Z) (LH : tapleaf -> bytes) (BHR : bytes -> bytes -> bytes) c prog s,
  verify_commitment point padd mulG lift_x xonly odd_y TS LH BHR c prog s = Some true ->
  verify_commitment point padd mulG lift_x xonly odd_y TS LH BHR
    (mk_cblock (cb_key c) (negb (cb_odd c)) (cb_version c) (cb_proof c)) prog s <> Some true.
Proof.
  intros point padd mulG lift_x xonly odd_y TS LH BHR c prog s H1 H2.
  apply verify_inv in H1 as (q & Q1 & _ & P1). apply verify_inv in H2 as (q' & Q2 & _ & P2).
  change (output_key_x point padd mulG lift_x xonly TS (cb_key c) (cb_root LH BHR c s) = Some q') in Q2.
  cbn [cb_odd] in P2. destruct (cb_odd c); cbn in P2; congruence.
Qed.
Print Assumptions C16_wrong_parity_fails.

(* another witness program (output key): likewise no hypothesis *)
Theorem C16_other_output_key_fails :
  forall (point : Type) (padd : point -> point -> point) (mulG : Z -> point)
    (lift_x : bytes -> option point) (xonly : point -> bytes) (odd_y : point -> bool)
    (TS : bytes -> bytes -> Z) (LH : tapleaf -> bytes) (BHR : bytes -> bytes -> bytes) c prog prog' s,
  prog' <> prog ->
  verify_commitment point padd mulG lift_x xonly odd_y TS LH BHR c prog s = Some true ->
  verify_commitment point padd mulG lift_x xonly odd_y TS LH BHR c prog' s <> Some true.
Proof.
  intros point padd mulG lift_x xonly odd_y TS LH BHR c prog prog' s Hne H1 H2.
  apply verify_inv in H1 as (q & Q1 & X1 & _). apply verify_inv in H2 as (q' & Q2 & X2 & _).
  congruence.
Qed.
Print Assumptions C16_other_output_key_fails.

(* d*G of either parity: (tweaked private key)*G is the output key of d*G and the same root *)
Theorem C16_tweaked_priv_matches_output_key :
  forall (point : Type) (padd : point -> point -> point) (pneg : point -> point)
    (mulG : Z -> point) (lift_x : bytes -> option point) (xonly : point -> bytes)
    (odd_y : point -> bool) (TS : bytes -> bytes -> Z),
  (forall d, lift_x (xonly (mulG d)) = Some (if odd_y (mulG d) then pneg (mulG d) else mulG d)) ->
  (forall d, xonly (pneg (mulG d)) = xonly (mulG d)) ->
  (forall a b, mulG ((a + b) mod tap_n)%Z = padd (mulG a) (mulG b)) ->
  (forall a, mulG ((tap_n - a) mod tap_n)%Z = pneg (mulG a)) ->
  forall d root,
  output_key point padd mulG lift_x xonly TS (mulG d) root =
  Some (mulG (fst (tweak_priv_ec point mulG xonly odd_y TS d root))).
Proof. exact tweaked_priv_matches_output_key. Qed.
Print Assumptions C16_tweaked_priv_matches_output_key.

(* tweaking leaves the caller's key unchanged (second component = the caller's scalar after
   the call): every tweak function, either parity, every key and root; and at curve level.
   The model returns that component by definition (the code works on a copy, fix fefe606); that
   the call writes to the copy only is the heap-level statement of C18 (Proofs/Alias.v) *)
Theorem C16_tweak_preserves_caller_key : forall TS pk_odd pkx d root,
  snd (tweak_priv_with TS pk_odd pkx d root) = d.
Proof. exact tweak_preserves_caller_key. Qed.
Print Assumptions C16_tweak_preserves_caller_key.

Theorem C16_tweak_ec_preserves_caller_key :
  forall (point : Type) (mulG : Z -> point) (xonly : point -> bytes) (odd_y : point -> bool)
    (TS : bytes -> bytes -> Z) d root,
  snd (tweak_priv_ec point mulG xonly odd_y TS d root) = d.
Proof. reflexivity. Qed.
Print Assumptions C16_tweak_ec_preserves_caller_key.
