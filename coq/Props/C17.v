(* Props/C17.v — property theorems only.  C17: the blinding-scalar helpers compute exact arithmetic modulo the
   group order n and never write to their arguments.  `okscalar` is the domain: absent, or 32 bytes below n. *)
From GE Require Import Lib.Bytes Model.Scalar Proofs.Scalar.
Open Scope Z_scope.

(* offset = value * assetBlinder + valueBlinder (mod n): every 64-bit value, every scalar that is
   absent or 32 bytes below n; the call always answers *)
Theorem C17_calc_offset_total : forall v ab vb, (v < 2 ^ 64)%N -> okscalar ab -> okscalar vb ->
  exists r, calc_offset v ab vb = SOOk r /\ okscalar r /\ sval r = modn (Z.of_N v * sval ab + sval vb).
Proof. exact calc_offset_total. Qed.
Print Assumptions C17_calc_offset_total.

(* accumulation = scalar + value * assetBlinder + valueBlinder (mod n) *)
Theorem C17_add_offset_total : forall s v ab vb, (v < 2 ^ 64)%N -> okscalar s -> okscalar ab -> okscalar vb ->
  exists r, add_offset s v ab vb = SOOk r /\ okscalar r /\
            sval r = modn (sval s + Z.of_N v * sval ab + sval vb).
Proof. exact add_offset_total. Qed.
Print Assumptions C17_add_offset_total.

(* subtraction = a - b (mod n), equal operands included *)
Theorem C17_sub_scalars_total : forall a b, okscalar a -> okscalar b ->
  exists r, sub_scalars a b = SOOk r /\ okscalar r /\ sval r = modn (sval a - sval b).
Proof. exact sub_scalars_total. Qed.
Print Assumptions C17_sub_scalars_total.

(* hence no helper returns an error inside the domain *)
Theorem C17_never_refuse_in_domain : forall s v ab vb, (v < 2 ^ 64)%N -> okscalar s -> okscalar ab -> okscalar vb ->
  calc_offset v ab vb <> SOErr /\ sub_scalars ab vb <> SOErr /\ add_offset s v ab vb <> SOErr.
Proof.
  intros s v ab vb Hv Hs Ha Hb.
  destruct (calc_offset_total v ab vb Hv Ha Hb) as (r1 & E1 & _).
  destruct (sub_scalars_total ab vb Ha Hb) as (r2 & E2 & _).
  destruct (add_offset_total s v ab vb Hv Hs Ha Hb) as (r3 & E3 & _).
  rewrite E1, E2, E3. repeat split; discriminate.
Qed.
Print Assumptions C17_never_refuse_in_domain.

(* what is refused lies outside the property's domain: exact regions over all byte strings *)
Theorem C17_sub_scalars_error_iff_general : forall a b,
  sub_scalars a b = SOErr <->
  exists y, b = Some y /\
    match a with
    | None => length y <> 32%nat
    | Some x => x <> y /\ (length y <> 32%nat \/ length x <> 32%nat \/ modn (sc x - sc y) = 0)
    end.
Proof. exact sub_scalars_error_iff_general. Qed.
Print Assumptions C17_sub_scalars_error_iff_general.

Theorem C17_calc_offset_error_iff_general : forall v ab vb, (v < 2 ^ 64)%N ->
  (calc_offset v ab vb = SOErr <->
   exists x, ab = Some x /\ (0 < v)%N /\
     (length x <> 32%nat \/
      exists y, vb = Some y /\
        (length y <> 32%nat \/ (secp_n <= sc y /\ modn (sc x * Z.of_N v + sc y) <> 0)))).
Proof. exact calc_offset_error_iff_general. Qed.
Print Assumptions C17_calc_offset_error_iff_general.

(* no helper ever writes to an argument (or to any memory it did not allocate): all inputs *)
Theorem C17_arguments_never_written :
  (forall v ab vb, snd (go_calc_offset v ab vb) = []) /\
  (forall a b, snd (go_sub_scalars a b) = []) /\
  (forall s v ab vb, snd (go_add_offset s v ab vb) = []).
Proof. exact scalar_helpers_leave_arguments_alone. Qed.
Print Assumptions C17_arguments_never_written.
