(* Props/C18.v — property theorems only.  C18: values are independent: deep copies, read-only arguments
   (spare capacity included), package-level values never written, the shared free list under every schedule. *)
From GE Require Import Lib.Bytes Lib.Heap Lib.Sched Model.Tx Model.Alias Model.FreeList Proofs.Alias Proofs.FreeList.
Import Al.

(* Transaction.Copy.  On the pure values of Model/Tx.v, where a value has no identity, the copy can only be
   equal (and so serializes identically); independence is the heap-level statements that follow *)
Theorem C18_copy_eq : forall t, copy_tx t = t.
Proof. exact copy_eq. Qed.
Print Assumptions C18_copy_eq.

Theorem C18_ser_copy : forall t,
  ser_full (copy_tx t) = ser_full t /\ ser_txid (copy_tx t) = ser_txid t /\ ser_wtxid (copy_tx t) = ser_wtxid t.
Proof. exact ser_copy. Qed.
Print Assumptions C18_ser_copy.

(* heap level: every byte slice of the copy reads the same bytes ... *)
Theorem C18_copy_equal_contents : forall h l, Forall (wf_slice h) l ->
  read_all (fst (copy_all h l)) (snd (copy_all h l)) = read_all h l.
Proof. exact copy_equal. Qed.
Print Assumptions C18_copy_equal_contents.

(* ... lives in its own array, shared neither with the original nor with another copied slice ... *)
Theorem C18_copy_shares_no_array : forall h l, Forall (wf_slice h) l ->
  NoDup (map s_arr (snd (copy_all h l))) /\
  forall d s, In d (snd (copy_all h l)) -> In s l -> s_arr d <> s_arr s.
Proof. exact copy_shares_no_array. Qed.
Print Assumptions C18_copy_shares_no_array.

(* ... so no later write to either is visible in the other *)
Theorem C18_write_to_copy_invisible_in_original : forall h l a pos d, Forall (wf_slice h) l ->
  length h <= a -> read_all (wr (fst (copy_all h l)) a pos d) l = read_all h l.
Proof. exact write_to_copy_invisible_in_original. Qed.
Print Assumptions C18_write_to_copy_invisible_in_original.

(* ... nor the other way round *)
Theorem C18_write_to_original_invisible_in_copy : forall h l a pos d, Forall (wf_slice h) l ->
  a < length h -> read_all (wr (fst (copy_all h l)) a pos d) (snd (copy_all h l)) = read_all h l.
Proof. exact write_to_original_invisible_in_copy. Qed.
Print Assumptions C18_write_to_original_invisible_in_copy.

(* read-only arguments, including the spare capacity behind a slice:
   every modelled call site, every growth policy, every heap, every argument configuration,
   every SEQUENCE of calls: the heap that existed before is a prefix of the heap afterwards *)
Theorem C18_calls_only_allocate : forall g h cs, firstn (length h) (fold_left (run_call g) cs h) = h.
Proof. exact calls_only_allocate. Qed.
Print Assumptions C18_calls_only_allocate.

(* what the caller can see of its arguments (the whole array of each) is the same before and after a call *)
Theorem C18_args_and_spare_capacity_unchanged : forall g h c args,
  Forall (fun s => s_arr s < length h) args -> caller_view (run_call g h c) args = caller_view h args.
Proof. exact args_and_spare_capacity_unchanged. Qed.
Print Assumptions C18_args_and_spare_capacity_unchanged.

(* the same for one argument, read over its length and over its whole capacity *)
Theorem C18_spare_capacity_unchanged : forall g h c s, s_arr s < length h ->
  rd_cap (run_call g h c) s = rd_cap h s /\ rd (run_call g h c) s = rd h s.
Proof.
  intros g h c s W. split.
  - eapply rd_cap_ext; [apply run_call_step, ext_self | exact W].
  - eapply rd_ext; [apply run_call_step, ext_self | exact W].
Qed.
Print Assumptions C18_spare_capacity_unchanged.

(* Input.GetUtxo hands out a new object: the stored UTXO objects are untouched (fix 7d6e201) *)
Theorem C18_get_utxo_frame : forall os i, firstn (length os) (fst (get_utxo os i)) = os.
Proof.
  intros os i. unfold get_utxo. destruct (pick_utxo i) as [|p|]; cbn [fst]; try apply firstn_all.
  destruct (nth_error os p); cbn [fst]; [|apply firstn_all].
  apply firstn_app_exact. reflexivity.
Qed.
Print Assumptions C18_get_utxo_frame.

(* the append semantics the theorems above are about *)
Theorem C18_append_in_place_writes : forall g h s d, wf_slice h s -> s_len s + length d <= s_cap s ->
  arr (fst (go_append g h s d)) (s_arr s) =
  firstn (s_off s + s_len s) (arr h (s_arr s)) ++ d ++ skipn (s_off s + s_len s + length d) (arr h (s_arr s)).
Proof.
  intros g h s d (W1 & W2 & W3) C. destruct (go_append_cases g h s d) as [[_ ->]|[C' _]]; [|lia].
  cbn [fst]. rewrite arr_wr_same by exact W1. apply splice_spec. lia.
Qed.
Print Assumptions C18_append_in_place_writes.

(* the PSET v2 tap emitters produce pubkey ++ leaf hash for every pair, read after all were built *)
Theorem C18_tap_script_sigs_reads : forall g sigs h,
  Forall (fun p => wf_slice h (fst p) /\ wf_slice h (snd p)) sigs ->
  map (rd (fst (tap_script_sigs g h sigs))) (snd (tap_script_sigs g h sigs)) =
  map (fun p => rd h (fst p) ++ rd h (snd p)) sigs.
Proof.
  intros g sigs h W. destruct (tap_script_sigs g h sigs) as [h' kds] eqn:E.
  exact (tap_script_sigs_spec g sigs h h h' kds (ext_self h) W E).
Qed.
Print Assumptions C18_tap_script_sigs_reads.

(* package-level values are never written; an argument reads the same after any sequence of calls *)
Theorem C18_constants_never_written : forall g rest cs,
  firstn (length pkg_globals) (fold_left (run_call g) cs (pkg_globals ++ rest)) = pkg_globals.
Proof. exact constants_never_written. Qed.
Print Assumptions C18_constants_never_written.

Theorem C18_arguments_read_the_same_after_any_calls : forall g h cs s, s_arr s < length h ->
  rd (fold_left (run_call g) cs h) s = rd h s.
Proof. intros g h cs s W. eapply rd_ext; [apply run_calls_step, ext_self | exact W]. Qed.
Print Assumptions C18_arguments_read_the_same_after_any_calls.

(* the shared free list of internal/bufferutil under every goroutine schedule *)
Theorem C18_exclusive_ownership : forall cap progs sch,
  let st := FL.run_sched false cap (FL.init progs) sch in
  NoDup (FL.chan st) /\
  (forall i t b, nth_error (FL.threads st) i = Some t -> FL.holds (FL.t_pc t) = Some b -> ~ In b (FL.chan st)) /\
  (forall i j ti tj b, i <> j -> nth_error (FL.threads st) i = Some ti -> nth_error (FL.threads st) j = Some tj ->
     FL.holds (FL.t_pc ti) = Some b -> FL.holds (FL.t_pc tj) = Some b -> False).
Proof. exact exclusive_ownership. Qed.
Print Assumptions C18_exclusive_ownership.

(* the free list never holds more buffers than its capacity *)
Theorem C18_free_list_bounded : forall cap progs sch,
  length (FL.chan (FL.run_sched false cap (FL.init progs) sch)) <= cap.
Proof.
  intros cap progs sch. destruct (reachable_inv cap progs sch) as [(_ & _ & _ & L & _) _]. exact L.
Qed.
Print Assumptions C18_free_list_bounded.

(* every goroutine writes the encoding of its own values, in program order, and reads back what it consumed *)
Theorem C18_each_write_emits_its_own_value : forall cap progs sch i t,
  nth_error (FL.threads (FL.run_sched false cap (FL.init progs) sch)) i = Some t ->
  (exists p, nth_error progs i = Some p /\ FL.t_done t ++ FL.t_todo t = fst p) /\
  (FL.t_out t = FL.spec_out (FL.t_done t) \/
   exists n v r, FL.t_todo t = FL.Put n v :: r /\ FL.t_out t = FL.spec_out (FL.t_done t ++ [FL.Put n v])) /\
  Forall res_ok (FL.t_res t).
Proof. exact each_write_emits_its_own_value. Qed.
Print Assumptions C18_each_write_emits_its_own_value.

(* returning the buffer before its last use (tstep true) is refuted by a schedule: goroutine 0 reads 0x1234
   from its stream and returns goroutine 1's 0xBEEF *)
Theorem C18_early_return_refuted :
  exists sch,
    let st := FL.run_sched true FL.flist_cap (FL.init [([FL.Get 2], [x34; x12]); ([FL.Put 2 0xBEEF%N], [])]) sch in
    exists t, nth_error (FL.threads st) 0 = Some t /\ FL.t_res t = [([x34; x12], Some 0xBEEF%N)] /\
              le_dec [x34; x12] = 0x1234%N.
Proof. exact early_return_breaks_read_value. Qed.
Print Assumptions C18_early_return_refuted.
