(* Props/C19.v — C19: the reported sizes are the lengths of the serializations; weight, virtual size and
   their discounted forms follow from them by the stated arithmetic. *)
From GE Require Import Lib.Bytes Lib.Varint Model.Tx Proofs.TxSize.
Open Scope N_scope.

(* SerializeSize(allowWitness,false) = len of the serialization, with and without witness data, for
   transactions with the widths the formulas hard-code (fixed_widths: 32-byte outpoint hashes, issuance
   nonces and entropies) *)
Theorem C19_size_eq_length : forall aw zf t,
  fixed_widths t = true -> size_tx aw false t = lenN (ser_tx aw zf false false t).
Proof. exact size_eq_length. Qed.
Print Assumptions C19_size_eq_length.

(* the signature form without witness data; wrp stands for the withRangeProofs argument, which the size
   formula does not know: the equation is for wrp = false *)
Theorem C19_size_eq_length_sig : forall zf wrp t,
  fixed_widths t = true -> wrp = false -> size_tx false true t = lenN (ser_tx false zf true wrp t).
Proof. intros zf wrp t F ->. apply size_tx_length; [exact F | reflexivity]. Qed.
Print Assumptions C19_size_eq_length_sig.

Theorem C19_weight_def : forall t, weight t = 3 * size_tx false false t + size_tx true false t.
Proof. exact weight_def. Qed.
Print Assumptions C19_weight_def.

Theorem C19_weight_as_lengths : forall t, fixed_widths t = true ->
  weight t = 3 * lenN (ser_tx false false false false t) + lenN (ser_full t).
Proof.
  intros t F. rewrite weight_def, (size_eq_length false false t F), (size_eq_length true false t F).
  reflexivity.
Qed.
Print Assumptions C19_weight_as_lengths.

Theorem C19_vsize_ceil : forall t, 4 * vsize t >= weight t /\ 4 * vsize t < weight t + 4.
Proof. exact vsize_ceil. Qed.
Print Assumptions C19_vsize_ceil.

Theorem C19_discount_le : forall t, (discount_weight t <= Z.of_N (weight t))%Z.
Proof. exact discount_le. Qed.
Print Assumptions C19_discount_le.

Theorem C19_discount_vsize_le : forall t, (discount_vsize t <= Z.of_N (vsize t))%Z.
Proof. intro t. rewrite vsize_Z. pose proof (discount_le t). apply Z.div_le_mono; lia. Qed.
Print Assumptions C19_discount_vsize_le.

Theorem C19_discount_eq_when_no_confidential : forall t,
  forallb (fun o => negb (is_conf_out o)) (t_outs t) = true -> discount_weight t = Z.of_N (weight t).
Proof. exact discount_eq_when_no_confidential. Qed.
Print Assumptions C19_discount_eq_when_no_confidential.

(* each confidential output is charged like an explicit one *)
Theorem C19_discount_rule : forall t,
  forallb conf_shape (t_outs t) = true ->
  has_witness t = true -> has_witness (explicitise t) = true ->
  discount_weight t = Z.of_N (weight (explicitise t)).
Proof. exact discount_rule. Qed.
Print Assumptions C19_discount_rule.

(* the discounted virtual size is the discounted weight divided by four, rounded up *)
Theorem C19_discount_vsize_ceil : forall t,
  (4 * discount_vsize t >= discount_weight t /\ 4 * discount_vsize t < discount_weight t + 4)%Z.
Proof. intro t. unfold discount_vsize. lia. Qed.
Print Assumptions C19_discount_vsize_ceil.

(* it coincides with the undiscounted virtual size when no output is confidential *)
Theorem C19_discount_vsize_eq_when_no_confidential : forall t,
  forallb (fun o => negb (is_conf_out o)) (t_outs t) = true -> discount_vsize t = Z.of_N (vsize t).
Proof.
  intros t H. unfold discount_vsize. rewrite (discount_eq_when_no_confidential t H), vsize_Z.
  reflexivity.
Qed.
Print Assumptions C19_discount_vsize_eq_when_no_confidential.

(* and is the virtual size of the transaction with every confidential output made explicit *)
Theorem C19_discount_vsize_rule : forall t,
  forallb conf_shape (t_outs t) = true ->
  has_witness t = true -> has_witness (explicitise t) = true ->
  discount_vsize t = Z.of_N (vsize (explicitise t)).
Proof.
  intros t Hs HW HW'. unfold discount_vsize. rewrite (discount_rule t Hs HW HW'), vsize_Z.
  reflexivity.
Qed.
Print Assumptions C19_discount_vsize_rule.

(* the division as Go performs it (truncation towards zero) gives the same number there *)
Theorem C19_discount_vsize_go_rule : forall t,
  forallb conf_shape (t_outs t) = true ->
  has_witness t = true -> has_witness (explicitise t) = true ->
  discount_vsize_go t = Z.of_N (vsize (explicitise t)).
Proof.
  intros t Hs HW HW'. rewrite discount_vsize_go_eq; [apply C19_discount_vsize_rule; assumption|].
  rewrite (discount_rule t Hs HW HW'). lia.
Qed.
Print Assumptions C19_discount_vsize_go_rule.
