(* Props/C20.v — property theorems only.  C20: the Go extractor accepts Bitcoin's partial merkle tree with the
   block's root and the matched ids, reports only ids of the block, rejects altered or surplus data; peg-in
   claims are built on an accepted proof and their outputs add up to the pegged amount. *)
From GE Require Import Lib.Bytes Lib.Varint Lib.Sha256 Spec.PartialMerkle Model.Tx Model.Merkle Model.Pegin
  Proofs.Merkle Proofs.Pegin Model.MerkleHist Proofs.MerkleHist.
Open Scope N_scope.

(* completeness: every count 1..limit (odd widths at every level), every match subset, distinct ids,
   collision-free node hash: Bitcoin's partial tree is accepted with the block's root and exactly
   the matched ids in block order *)
Theorem C20_extract_build : forall (A : Type) (H : A -> A -> A) (eqA : A -> A -> bool),
  (forall a b, eqA a b = true <-> a = b) ->
  (forall a b c d, H a b = H c d -> a = c /\ b = d) ->
  forall l : list (A * bool),
  l <> [] -> lenL l <= max_txs -> NoDup (map fst l) ->
  exists t bits hashes,
    tree_of A l = Some t /\ build A H l = Some (bits, hashes) /\
    extract A H eqA (lenL l) hashes bits = Some (thash A H t, matched A l).
Proof. exact extract_build. Qed.
Print Assumptions C20_extract_build.

(* the same for the executable instance (double SHA-256 over 32-byte ids), no hash assumption:
   holds whenever no two sibling subtrees of the block's tree have the same hash *)
Theorem C20_extract_build_sha256 : forall (l : list (bytes * bool)) t bits hashes,
  l <> [] -> lenL l <= max_txs -> tree_of bytes l = Some t -> sib_ok bytes node_hash t ->
  build bytes node_hash l = Some (bits, hashes) ->
  extract bytes node_hash bytes_eqb (lenL l) hashes bits = Some (thash bytes node_hash t, matched bytes l).
Proof. exact (extract_build_sib bytes node_hash bytes_eqb bytes_eqb_eq). Qed.
Print Assumptions C20_extract_build_sha256.

(* byte level: the serialized merkle block (Bitcoin's builder, flag bits packed into bytes, wire layout)
   goes through NewMerkleBlockFromBuffer + ExtractMatches; trailing bytes are ignored *)
Theorem C20_run_proof_build : forall (header : bytes) (l : list (bytes * bool)) t bits hashes rest,
  l <> [] -> lenL l <= max_txs -> tree_of bytes l = Some t -> sib_ok bytes node_hash t ->
  build bytes node_hash l = Some (bits, hashes) ->
  length header = 80%nat -> Forall (fun h => length h = 32%nat) hashes ->
  lenN (flags_of_bits bits) <= wire_max_flags ->
  let m := mk_mb header (lenL l) hashes (flags_of_bits bits) in
  run_proof (ser_merkle_block m ++ rest) = POk m (thash bytes node_hash t) (matched bytes l).
Proof. exact run_proof_build. Qed.
Print Assumptions C20_run_proof_build.

(* the tree hash is the block's merkle root computed level by level *)
Theorem C20_tree_hash_is_merkle_root : forall (A : Type) (H : A -> A -> A) (l : list (A * bool)) t,
  l <> [] -> tree_of A l = Some t -> merkle_root A H (map fst l) = Some (thash A H t).
Proof. exact merkle_root_is_tree_hash. Qed.
Print Assumptions C20_tree_hash_is_merkle_root.

(* soundness: an accepted proof whose root is the block's root reports only block ids, in block order *)
Theorem C20_matches_are_leaves : forall (A : Type) (H : A -> A -> A) (eqA : A -> A -> bool),
  (forall a b, eqA a b = true <-> a = b) ->
  (forall a b c d, H a b = H c d -> a = c /\ b = d) ->
  forall n hashes bits root ms (l : list (A * bool)) t,
  extract A H eqA n hashes bits = Some (root, ms) ->
  lenL l = n -> tree_of A l = Some t -> root = thash A H t ->
  subseq A ms (map fst l).
Proof. exact matches_are_leaves. Qed.
Print Assumptions C20_matches_are_leaves.

(* altered hashes: rejected or a different root *)
Theorem C20_altered_hash_changes_root_or_rejects : forall (A : Type) (H : A -> A -> A) (eqA : A -> A -> bool),
  (forall a b c d, H a b = H c d -> a = c /\ b = d) ->
  forall n hs1 hs2 bits root m1 m2,
  extract A H eqA n hs1 bits = Some (root, m1) -> extract A H eqA n hs2 bits = Some (root, m2) -> hs1 = hs2.
Proof. exact altered_hash_changes_root_or_rejects. Qed.
Print Assumptions C20_altered_hash_changes_root_or_rejects.

(* surplus hashes behind an accepted proof: rejected *)
Theorem C20_surplus_hashes_rejected : forall (A : Type) (H : A -> A -> A) (eqA : A -> A -> bool) n hs bits res eh,
  extract A H eqA n hs bits = Some res -> eh <> [] -> extract A H eqA n (hs ++ eh) bits = None.
Proof. exact surplus_hashes_rejected. Qed.
Print Assumptions C20_surplus_hashes_rejected.

(* one or more surplus flag bytes (8 bits each) *)
Theorem C20_surplus_bits_rejected : forall (A : Type) (H : A -> A -> A) (eqA : A -> A -> bool) n hs bits res eb,
  extract A H eqA n hs bits = Some res -> (8 <= length eb)%nat -> extract A H eqA n hs (bits ++ eb) = None.
Proof. exact surplus_bits_rejected. Qed.
Print Assumptions C20_surplus_bits_rejected.

(* a transaction count of 0 or above the limit *)
Theorem C20_count_out_of_range_rejected : forall (A : Type) (H : A -> A -> A) (eqA : A -> A -> bool) n hs bits,
  n = 0 \/ max_txs < n -> extract A H eqA n hs bits = None.
Proof.
  intros A H eqA n hs bits Hn. rewrite extract_eq. destruct (pre_ok n hs bits) eqn:P; [|reflexivity].
  apply pre_ok_spec in P. lia.
Qed.
Print Assumptions C20_count_out_of_range_rejected.

(* clauses of the statement that do not hold of the format (nor of this code):
   an in-range altered count, a padding bit, a height-0 flag bit can leave the root unchanged *)
Theorem C20_altered_count_refuted :
  exists n n' hashes bits root ms,
    n <> n' /\ extract term Hn term_eqb n hashes bits = Some (root, ms) /\
    extract term Hn term_eqb n' hashes bits = Some (root, ms).
Proof.
  (* the root does not commit to the count; 4 -> 3 keeps the shape of this walk *)
  exists 4, 3, [T 1; T 2; Hn (T 3) (T 4)], [true; true; true; false; false; false; false; false],
    (Hn (Hn (T 1) (T 2)) (Hn (T 3) (T 4))), [T 1].
  split; [discriminate|]. split; vm_compute; reflexivity.
Qed.
Print Assumptions C20_altered_count_refuted.

(* a padding bit of the last flag byte *)
Theorem C20_altered_padding_bit_refuted :
  exists n hashes bits bits' root ms,
    bits <> bits' /\ length bits = length bits' /\
    extract term Hn term_eqb n hashes bits = Some (root, ms) /\
    extract term Hn term_eqb n hashes bits' = Some (root, ms).
Proof.
  (* the padding bits of the last flag byte are never looked at *)
  exists 4, [T 1; T 2; Hn (T 3) (T 4)], [true; true; true; false; false; false; false; false],
    [true; true; true; false; false; false; false; true], (Hn (Hn (T 1) (T 2)) (Hn (T 3) (T 4))), [T 1].
  split; [discriminate|]. split; [reflexivity|]. split; vm_compute; reflexivity.
Qed.
Print Assumptions C20_altered_padding_bit_refuted.

(* the flag bit of a height-0 node: same root, another list of matches *)
Theorem C20_altered_leaf_bit_refuted :
  exists n hashes bits bits' root ms ms',
    bits <> bits' /\ length bits = length bits' /\ ms <> ms' /\
    extract term Hn term_eqb n hashes bits = Some (root, ms) /\
    extract term Hn term_eqb n hashes bits' = Some (root, ms').
Proof.
  (* the flag of a height-0 node: same root, one more (or one fewer) reported match *)
  exists 4, [T 1; T 2; Hn (T 3) (T 4)], [true; true; true; false; false; false; false; false],
    [true; true; true; true; false; false; false; false], (Hn (Hn (T 1) (T 2)) (Hn (T 3) (T 4))), [T 1], [T 1; T 2].
  split; [discriminate|]. split; [reflexivity|]. split; [discriminate|]. split; vm_compute; reflexivity.
Qed.
Print Assumptions C20_altered_leaf_bit_refuted.

(* peg-in claim: proven outpoint with the peg-in flag, six witness elements in order *)
Theorem C20_claim_shape : forall asset genesis cs proof bv fee_of t,
  claim asset genesis cs proof bv fee_of = PgOk t ->
  exists mb rest v idx amount a0 tail i,
    parse_merkle_block proof = Some (mb, rest) /\
    extract_mb mb = Some (header_root (mb_header mb), [bv_txid v]) /\
    bv = Some v /\
    nth_error (bv_outs v) i = Some (amount, bv_main_script v) /\ idx = N.of_nat i mod two32 /\
    asset = a0 :: tail /\
    t_version t = 2 /\ t_locktime t = 0 /\
    t_ins t = [pegin_input (bv_txid v) idx
                 [le_enc 8 amount; tail; rev genesis; cs; bv_stripped v; proof]] /\
    (exists v0 v1, t_outs t = [claim_out0 asset cs v0; claim_out1 asset v1]) /\
    t = claim_tx (pegin_input (bv_txid v) idx [le_enc 8 amount; tail; rev genesis; cs; bv_stripped v; proof])
                 asset cs amount fee_of.
Proof. exact claim_shape. Qed.
Print Assumptions C20_claim_shape.

(* the claim's input carries the peg-in flag, and with it bit 30 of the outpoint index as serialized *)
Theorem C20_pegin_flag_on_wire : forall hash idx wit,
  in_pegin (pegin_input hash idx wit) = true /\ N.testbit (raw_index (pegin_input hash idx wit)) 30 = true.
Proof.
  intros hash idx wit. split; [reflexivity|]. unfold raw_index, pegin_input. cbn [in_iss in_pegin in_index].
  rewrite N.lor_spec. replace (N.testbit OutpointPeginFlag 30) with true by reflexivity.
  apply orb_true_r.
Qed.
Print Assumptions C20_pegin_flag_on_wire.

(* the outputs of every accepted claim sum to the pegged amount *)
Theorem C20_claim_outputs_sum : forall asset genesis cs proof bv fee_of t,
  claim asset genesis cs proof bv fee_of = PgOk t ->
  exists input amount,
    create_pegin_input asset genesis cs proof bv = PgOk (input, amount) /\ outs_sum t = amount.
Proof. exact claim_outputs_sum. Qed.
Print Assumptions C20_claim_outputs_sum.

(* ... and a claim is produced exactly when the amount is a non-negative int64 and the fee does not exceed it *)
Theorem C20_claim_succeeds_iff : forall asset genesis cs proof bv fee_of input amount,
  create_pegin_input asset genesis cs proof bv = PgOk (input, amount) ->
  (exists t, claim asset genesis cs proof bv fee_of = PgOk t) <->
  (amount < 0x8000000000000000 /\ claim_fee input asset cs amount fee_of <= amount).
Proof. exact claim_succeeds_iff. Qed.
Print Assumptions C20_claim_succeeds_iff.

(* in particular a fee above the pegged amount is refused: no output value wraps modulo 2^64 *)
Theorem C20_claim_refuses_excess_fee : forall asset genesis cs proof bv fee_of input amount,
  create_pegin_input asset genesis cs proof bv = PgOk (input, amount) ->
  amount < claim_fee input asset cs amount fee_of ->
  claim asset genesis cs proof bv fee_of = PgErr.
Proof.
  intros asset genesis cs proof bv fee_of input amount P Hf. rewrite (claim_eq _ _ _ _ _ fee_of _ _ P).
  apply N.ltb_lt in Hf. rewrite Hf, orb_true_r. reflexivity.
Qed.
Print Assumptions C20_claim_refuses_excess_fee.

(* one MerkleBlock object over time (fields edited in place between calls of ExtractMatches): with FBad
   clear, a call returns what a freshly decoded proof with the present count / hashes / flag bits returns *)
Theorem C20_history_verdict_is_fresh_verdict : forall o o' res,
  h_bad o = false -> Forall (fun h => hash32 h = true) (h_hashes o) -> hstep o HExtract = Some (o', Some res) ->
  res = extract bytes node_hash bytes_eqb (h_count o) (h_hashes o) (h_bits o).
Proof.
  intros o o' res Hb Hok St. unfold hstep in St. rewrite Hb in St.
  pose proof (extract_hist_fresh bytes node_hash bytes_eqb hash32 (h_count o) (h_hashes o) (h_bits o) Hok) as F.
  destruct (extract_hist _ _ _ _ _ _ _ _) as [r b']. cbn [fst] in F. injection St as _ <-. exact F.
Qed.
Print Assumptions C20_history_verdict_is_fresh_verdict.

(* an accepting call leaves FBad clear *)
Theorem C20_history_success_keeps_fresh : forall o o' r,
  hstep o HExtract = Some (o', Some (Some r)) -> h_bad o' = false.
Proof.
  intros o o' r. unfold hstep. destruct (extract_hist _ _ _ _ _ _ _ _) as [res b'] eqn:E.
  intro St. injection St as <- ->. exact (proj1 (extract_hist_some _ _ _ _ _ _ _ _ _ _ E)).
Qed.
Print Assumptions C20_history_success_keeps_fresh.

(* FBad is a field of the value and ExtractMatches never clears it: an object carrying FBad = true is
   refused whatever its other fields are (shown on the fields of a genuine proof in the example) *)
Theorem C20_history_sticky_fbad : forall (A : Type) (H : A -> A -> A) (eqA : A -> A -> bool) (okA : A -> bool) n hashes bits,
  extract_hist A H eqA okA true n hashes bits = (None, true).
Proof. exact extract_hist_sticky. Qed.
Print Assumptions C20_history_sticky_fbad.

Theorem C20_history_sticky_fbad_example :
  exists n hashes bits r,
    extract term Hn term_eqb n hashes bits = Some r /\
    fst (extract_hist term Hn term_eqb (fun _ => true) true n hashes bits) = None.
Proof.
  exists 4, [T 1; T 2; Hn (T 3) (T 4)], [true; true; true; false; false; false; false; false],
    (Hn (Hn (T 1) (T 2)) (Hn (T 3) (T 4)), [T 1]).
  split; [vm_compute; reflexivity|]. rewrite extract_hist_sticky. reflexivity.
Qed.
Print Assumptions C20_history_sticky_fbad_example.

(* altered hash LENGTH (only reachable through the exported TxHashes field; the wire decoder yields 32-byte
   entries): chainhash.NewHash fails on an entry that is not 32 bytes long, so such an object is refused *)
Theorem C20_history_bad_length_refused : forall o o' res,
  ~ Forall (fun h => hash32 h = true) (h_hashes o) -> hstep o HExtract = Some (o', Some res) -> res = None.
Proof.
  intros o o' res Hbad St. unfold hstep in St.
  destruct (extract_hist _ _ _ _ _ _ _ _) as [r b'] eqn:E.
  injection St as _ <-. destruct r as [r|]; [|reflexivity].
  exfalso. apply Hbad. exact (proj2 (extract_hist_some _ _ _ _ _ _ _ _ _ _ E)).
Qed.
Print Assumptions C20_history_bad_length_refused.

(* for any node type: an accepting call has passed every entry through the validity test of NewHash *)
Theorem C20_extract_accepts_only_valid_entries : forall (A : Type) (H : A -> A -> A) (eqA : A -> A -> bool) (okA : A -> bool)
  bad n hashes bits r bad',
  extract_hist A H eqA okA bad n hashes bits = (Some r, bad') -> Forall (fun x => okA x = true) hashes.
Proof. intros A H eqA okA bad n hashes bits r bad' E. exact (proj2 (extract_hist_some _ _ _ _ _ _ _ _ _ _ E)). Qed.
Print Assumptions C20_extract_accepts_only_valid_entries.
